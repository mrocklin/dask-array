(* Proofs about the transfer-estimate models of Transfer2.v (property C27):
   OverlapInternal, Stack, CumReduction, CumReductionBlelloch, Shuffle.
   (The sliding / moving window models are in Transfer2WindowFacts.v.) *)
From DA Require Import PyBase PyBaseFacts Slicing Unify UnifyFacts Transfer TransferFacts Transfer2.
Open Scope Z_scope.

Definition pos_layout (l : list Z) : Prop := Forall (fun c => 0 < c) l.

Lemma shape_nonneg chunks :
  Forall nonneg_layout chunks -> Forall (fun x => 0 <= x) (shape_of chunks).
Proof.
  unfold shape_of. induction 1 as [|c t Hc _ IH]; cbn [map]; constructor; [|exact IH].
  apply zsum_nonneg. exact Hc.
Qed.

Lemma drop_nth_Forall {A} (P : A -> Prop) n : forall l, Forall P l -> Forall P (drop_nth n l).
Proof.
  induction n as [|n IH]; intros l H; destruct H as [|x t Hx Ht]; cbn [drop_nth]; try constructor; auto.
Qed.

Lemma cross_nonneg chunks axis itemsize :
  0 <= itemsize -> Forall nonneg_layout chunks -> 0 <= cross_section chunks axis itemsize.
Proof.
  intros Hi Hc. unfold cross_section.
  pose proof (zprod_nonneg _ (drop_nth_Forall _ axis _ (shape_nonneg _ Hc))). nia.
Qed.

Lemma nbytes_nonneg chunks itemsize :
  0 <= itemsize -> Forall nonneg_layout chunks -> 0 <= nbytes_of chunks itemsize.
Proof.
  intros Hi Hc. unfold nbytes_of. pose proof (zprod_nonneg _ (shape_nonneg _ Hc)). nia.
Qed.

Lemma zprod_drop_nth n : forall l, (n < length l)%nat -> zprod l = nth n l 0 * zprod (drop_nth n l).
Proof.
  induction n as [|n IH]; intros [|x t] H; try (inversion H; fail); cbn [nth drop_nth zprod]; [reflexivity|].
  rewrite (IH t) by (cbn [length] in H; lia). ring.
Qed.

Lemma shape_nth chunks axis : nth axis (shape_of chunks) 0 = zsum (nth axis chunks []).
Proof. unfold shape_of. change 0 with (zsum []). apply map_nth. Qed.

(* x.nbytes = n * cross: one hyperplane along the axis has `cross` bytes *)
Lemma nbytes_cross chunks axis itemsize :
  (axis < length chunks)%nat ->
  nbytes_of chunks itemsize = zsum (nth axis chunks []) * cross_section chunks axis itemsize.
Proof.
  intros H. unfold nbytes_of, cross_section.
  rewrite (zprod_drop_nth axis (shape_of chunks)) by (unfold shape_of; rewrite map_length; exact H).
  rewrite shape_nth. ring.
Qed.

(* the Python quotient x.nbytes / n is exact: it is the cross section *)
Theorem row_bytes_exact chunks axis itemsize :
  (axis < length chunks)%nat -> zsum (nth axis chunks []) <> 0 ->
  nbytes_of chunks itemsize / zsum (nth axis chunks []) = cross_section chunks axis itemsize.
Proof.
  intros H Hn. rewrite (nbytes_cross chunks axis itemsize H).
  rewrite Z.mul_comm. apply Z.div_mul. exact Hn.
Qed.

Lemma nth_nonneg_layout chunks axis : Forall nonneg_layout chunks -> nonneg_layout (nth axis chunks []).
Proof.
  intros H. destruct (nth_in_or_default axis chunks []) as [Hin|Heq].
  - rewrite Forall_forall in H. apply H. exact Hin.
  - rewrite Heq. constructor.
Qed.

Lemma row_bytes_nonneg chunks axis itemsize :
  0 <= itemsize -> Forall nonneg_layout chunks ->
  0 <= nbytes_of chunks itemsize / zsum (nth axis chunks []).
Proof.
  intros Hi Hc. apply Z_div_nonneg_nonneg; [apply nbytes_nonneg | apply zsum_nonneg, nth_nonneg_layout]; assumption.
Qed.

(* an estimate counted in hyperplanes, times the bytes of one *)
Lemma scale_wf lo hi cross : wellformed (lo, hi) -> 0 <= cross -> wellformed (lo * cross, hi * cross).
Proof.
  unfold wellformed. cbn [fst snd]. intros [A B] C.
  split; [apply Z.mul_nonneg_nonneg | apply Z.mul_le_mono_nonneg_r]; assumption.
Qed.

Definition depth_ok (d : Z * Z) : Prop := 0 <= fst d /\ 0 <= snd d.

Lemma hd_le_zsum l : nonneg_layout l -> hd 0 l <= zsum l.
Proof.
  intros H. destruct H as [|x t Hx Ht]; cbn [hd zsum]; [lia|].
  pose proof (zsum_nonneg _ Ht). lia.
Qed.

Lemma last_le_zsum l : nonneg_layout l -> last l 0 <= zsum l.
Proof.
  induction 1 as [|x t Hx Ht IH]; [reflexivity|].
  pose proof (zsum_nonneg t Ht). destruct t as [|y t']; cbn [zsum last] in *; lia.
Qed.

Lemma ov_axis_mono chunks_all itemsize axis c d ghost fetches g f :
  0 <= itemsize -> Forall nonneg_layout chunks_all -> nonneg_layout c -> depth_ok d ->
  ov_axis chunks_all itemsize axis c d ghost fetches = (g, f) ->
  ghost <= g /\ fetches <= f.
Proof.
  intros Hi Hall Hc [Hb Ha] H. destruct d as [before after]. cbn [fst snd] in Hb, Ha.
  unfold ov_axis in H.
  pose proof (cross_nonneg chunks_all axis itemsize Hi Hall) as Hx.
  pose proof (hd_le_zsum c Hc) as Hh. pose proof (last_le_zsum c Hc) as Hl.
  set (cross := cross_section chunks_all axis itemsize) in *.
  destruct ((Z.of_nat (length c) <? 2) || ((before =? 0) && (after =? 0))) eqn:E.
  - injection H as <- <-. lia.
  - apply orb_false_iff in E. destruct E as [E1 _].
    assert (0 <= (before + after) * (Z.of_nat (length c) - 1) * cross)
      by (apply Z.mul_nonneg_nonneg; [apply Z.mul_nonneg_nonneg|]; lia).
    assert (0 <= (zsum c - hd 0 c) * cross) by (apply Z.mul_nonneg_nonneg; lia).
    assert (0 <= (zsum c - last c 0) * cross) by (apply Z.mul_nonneg_nonneg; lia).
    destruct (before =? 0); destruct (after =? 0); injection H as <- <-; lia.
Qed.

Lemma ov_loop_mono chunks_all itemsize : forall chunks depths axis ghost fetches g f,
  0 <= itemsize -> Forall nonneg_layout chunks_all -> Forall nonneg_layout chunks -> Forall depth_ok depths ->
  ov_loop chunks_all itemsize axis chunks depths ghost fetches = (g, f) ->
  ghost <= g /\ fetches <= f.
Proof.
  induction chunks as [|c cs IH]; intros depths axis ghost fetches g f Hi Hall Hcs Hds H.
  - cbn [ov_loop] in H. injection H as <- <-. lia.
  - destruct depths as [|d ds]; [cbn [ov_loop] in H; injection H as <- <-; lia|].
    cbn [ov_loop] in H.
    destruct (ov_axis chunks_all itemsize axis c d ghost fetches) as [g1 f1] eqn:E1.
    inversion Hcs as [|? ? Hc Hcs']; subst. inversion Hds as [|? ? Hd Hds']; subst.
    pose proof (ov_axis_mono _ _ _ _ _ _ _ _ _ Hi Hall Hc Hd E1) as [A B].
    pose proof (IH ds (S axis) g1 f1 g f Hi Hall Hcs' Hds' H) as [C D]. lia.
Qed.

Theorem overlap_wellformed chunks depths itemsize :
  0 <= itemsize -> Forall nonneg_layout chunks -> Forall depth_ok depths ->
  wellformed (overlap_transfer chunks depths itemsize).
Proof.
  intros Hi Hc Hd. unfold overlap_transfer.
  destruct (ov_loop chunks itemsize 0 chunks depths 0 0) as [g f] eqn:E.
  pose proof (ov_loop_mono _ _ _ _ _ _ _ _ _ Hi Hc Hc Hd E) as [A B].
  pose proof (nbytes_nonneg _ _ Hi Hc). unfold wellformed. cbn [fst snd]. lia.
Qed.

(* nothing is exchanged along an axis with a single block or with depth 0 *)
Definition no_exchange (cd : list Z * (Z * Z)) : Prop :=
  (length (fst cd) < 2)%nat \/ snd cd = (0, 0).

Lemma ov_loop_no_exchange chunks_all itemsize : forall chunks depths axis ghost fetches,
  Forall no_exchange (combine chunks depths) ->
  ov_loop chunks_all itemsize axis chunks depths ghost fetches = (ghost, fetches).
Proof.
  induction chunks as [|c cs IH]; intros depths axis ghost fetches H; [reflexivity|].
  destruct depths as [|d ds]; [reflexivity|].
  cbn [combine] in H. inversion H as [|? ? Hcd Hrest]; subst.
  cbn [ov_loop].
  assert (ov_axis chunks_all itemsize axis c d ghost fetches = (ghost, fetches)) as ->.
  { unfold ov_axis. destruct d as [before after]. destruct Hcd as [Hl|Hz]; cbn [fst snd] in *.
    - assert (Z.of_nat (length c) <? 2 = true) as -> by lia. reflexivity.
    - injection Hz as -> ->. rewrite orb_true_r. reflexivity. }
  apply IH. exact Hrest.
Qed.

Theorem overlap_no_exchange_zero chunks depths itemsize :
  Forall no_exchange (combine chunks depths) ->
  overlap_transfer chunks depths itemsize = (0, nbytes_of chunks itemsize).
Proof.
  intros H. unfold overlap_transfer. rewrite ov_loop_no_exchange by exact H. f_equal. lia.
Qed.

(* what min is when one axis exchanges: (before + after) hyperplanes per internal boundary *)
Theorem overlap_one_axis chunks before after itemsize :
  (2 <= length chunks)%nat -> (before, after) <> (0, 0) ->
  fst (overlap_transfer [chunks] [(before, after)] itemsize) =
  (before + after) * (Z.of_nat (length chunks) - 1) * itemsize.
Proof.
  intros Hl Hd. unfold overlap_transfer. cbn [ov_loop]. unfold ov_axis.
  replace (Z.of_nat (length chunks) <? 2) with false by lia.
  replace ((before =? 0) && (after =? 0)) with false.
  2:{ symmetry. apply andb_false_iff.
      destruct (Z.eq_dec before 0) as [->|]; [right|left]; apply Z.eqb_neq; congruence. }
  cbn [orb fst]. unfold cross_section, shape_of. cbn [map drop_nth zprod]. ring.
Qed.

Theorem stack_wellformed nbytes :
  Forall (fun b => 0 <= b) nbytes -> wellformed (stack_transfer nbytes).
Proof. intros H. unfold wellformed, stack_transfer. cbn [fst snd]. pose proof (zsum_nonneg _ H). lia. Qed.

Theorem stack_min_zero nbytes : fst (stack_transfer nbytes) = 0.
Proof. reflexivity. Qed.

Lemma cum_carry_nonneg h chunks axis itemsize :
  0 <= h -> 0 <= itemsize -> Forall nonneg_layout chunks -> 0 <= cum_carry h chunks axis itemsize.
Proof.
  intros Hh Hi Hc. unfold cum_carry.
  destruct (zsum (nth axis chunks []) =? 0) eqn:E; [lia|].
  pose proof (row_bytes_nonneg chunks axis itemsize Hi Hc) as Hr.
  assert (1 <= Z.of_nat (length (nth axis chunks []))) as Hk.
  { destruct (nth axis chunks []) as [|x t]; cbn [zsum length] in *; lia. }
  nia.
Qed.

(* the carried state is `hyperplanes * (k - 1)` cross sections *)
Theorem cum_carry_hyperplanes h chunks axis itemsize :
  (axis < length chunks)%nat ->
  cum_carry h chunks axis itemsize =
  if zsum (nth axis chunks []) =? 0 then 0
  else h * (Z.of_nat (length (nth axis chunks [])) - 1) * cross_section chunks axis itemsize.
Proof.
  intros H. unfold cum_carry. destruct (zsum (nth axis chunks []) =? 0) eqn:E; [reflexivity|].
  rewrite row_bytes_exact by (try exact H; lia). reflexivity.
Qed.

Lemma cum_carry_single h chunks axis itemsize :
  length (nth axis chunks []) = 1%nat -> cum_carry h chunks axis itemsize = 0.
Proof. intros H. unfold cum_carry. rewrite H. destruct (_ =? 0); lia. Qed.

Theorem cum_wellformed chunks axis itemsize lo hn hd :
  0 <= itemsize -> Forall nonneg_layout chunks ->
  cum_transfer chunks axis itemsize = Some (lo, (hn, hd)) ->
  0 < hd /\ 0 <= lo /\ lo * hd <= hn.
Proof.
  intros Hi Hc H. unfold cum_transfer in H.
  pose proof (cum_carry_nonneg 1 chunks axis itemsize ltac:(lia) Hi Hc) as Hcar.
  pose proof (nbytes_nonneg _ _ Hi Hc) as Hb.
  remember (Z.of_nat (length (nth axis chunks []))) as k eqn:Ek.
  remember (cum_carry 1 chunks axis itemsize) as c eqn:Ec.
  remember (nbytes_of chunks itemsize) as nb eqn:Enb.
  destruct (k =? 0) eqn:E; [discriminate|].
  assert (lo = c /\ hn = nb * (3 * k - 2) + 2 * c * k /\ hd = k) as (-> & -> & ->)
    by (repeat split; congruence).
  assert (1 <= k) as Hk by lia.
  assert (0 <= nb * (3 * k - 2)) by nia. assert (0 <= c * k) by nia.
  repeat split; lia.
Qed.

Theorem cum_total chunks axis itemsize :
  nth axis chunks [] <> [] -> exists r, cum_transfer chunks axis itemsize = Some r.
Proof.
  intros H. unfold cum_transfer.
  destruct (nth axis chunks []) as [|x t]; [congruence|].
  cbn [length]. destruct (Z.of_nat (S (length t)) =? 0) eqn:E; [lia|]. eexists. reflexivity.
Qed.

(* a single block along the axis carries nothing: (0, x.nbytes) *)
Theorem cum_single_block chunks axis itemsize :
  length (nth axis chunks []) = 1%nat ->
  cum_transfer chunks axis itemsize = Some (0, (nbytes_of chunks itemsize, 1)).
Proof.
  intros H. unfold cum_transfer. rewrite (cum_carry_single 1 _ _ _ H). rewrite H.
  change (Z.of_nat 1) with 1. cbn [Z.eqb].
  replace (nbytes_of chunks itemsize * (3 * 1 - 2) + 2 * 0 * 1) with (nbytes_of chunks itemsize) by lia.
  reflexivity.
Qed.

Theorem blelloch_wellformed chunks axis itemsize :
  0 <= itemsize -> Forall nonneg_layout chunks ->
  wellformed (blelloch_transfer chunks axis itemsize).
Proof.
  intros Hi Hc. unfold blelloch_transfer, wellformed. cbn [fst snd].
  pose proof (cum_carry_nonneg 3 chunks axis itemsize ltac:(lia) Hi Hc).
  pose proof (nbytes_nonneg _ _ Hi Hc). lia.
Qed.

Theorem blelloch_single_block chunks axis itemsize :
  length (nth axis chunks []) = 1%nat ->
  blelloch_transfer chunks axis itemsize = (0, 2 * nbytes_of chunks itemsize).
Proof.
  intros H. unfold blelloch_transfer. rewrite (cum_carry_single 3 _ _ _ H). f_equal. lia.
Qed.

Lemma count_add_vals b : forall counts,
  Forall (fun v => 0 <= v) (map snd counts) ->
  Forall (fun v => 0 <= v) (map snd (count_add b counts)) /\
  zsum (map snd (count_add b counts)) = zsum (map snd counts) + 1.
Proof.
  induction counts as [|[b' c] t IH]; intros H; cbn [count_add].
  - cbn [map snd zsum]. split; [repeat constructor; lia | reflexivity].
  - cbn [map snd] in H. inversion H as [|? ? Hc Ht]; subst.
    destruct (b =? b'); cbn [map snd zsum].
    + split; [constructor; [lia | exact Ht] | lia].
    + destruct (IH Ht) as [A B]. split; [constructor; [lia | exact A] | lia].
Qed.

(* the counts of a group are non-negative and add up to its length *)
Lemma sh_counts_fold bounds : forall idx counts,
  Forall (fun v => 0 <= v) (map snd counts) ->
  let r := fold_left (fun counts i => count_add (bisect_right bounds i) counts) idx counts in
  Forall (fun v => 0 <= v) (map snd r) /\ zsum (map snd r) = zsum (map snd counts) + zlen idx.
Proof.
  induction idx as [|i t IH]; intros counts H; cbn [fold_left].
  - unfold zlen. cbn [length]. split; [exact H | lia].
  - destruct (count_add_vals (bisect_right bounds i) counts H) as [A B].
    destruct (IH _ A) as [C D]. split; [exact C|]. rewrite D, B. unfold zlen. cbn [length]. lia.
Qed.

Lemma max_le_sum l : Forall (fun v => 0 <= v) l -> 0 <= fold_right Z.max 0 l <= zsum l.
Proof. induction 1 as [|x t Hx Ht IH]; cbn [fold_right zsum]; lia. Qed.

Lemma max_eq_sum_short l : Forall (fun v => 0 <= v) l -> (length l <= 1)%nat -> fold_right Z.max 0 l = zsum l.
Proof.
  intros H Hl. destruct l as [|x [|y t]]; cbn [length] in Hl; try lia; [reflexivity|].
  inversion H; subst. cbn [fold_right zsum]. lia.
Qed.

(* one group: lo grows by len - max count, which is 0 when a single block feeds the group and at
   most len (what merges grows by) otherwise *)
Lemma sh_group_inv axis_chunks bounds lo splits merges idx lo' splits' merges' :
  nonneg_layout axis_chunks ->
  sh_group axis_chunks bounds (lo, splits, merges) idx = (lo', splits', merges') ->
  0 <= lo' - lo /\ lo' - lo <= (splits' - splits) + (merges' - merges).
Proof.
  intros Hc H. unfold sh_group in H.
  pose proof (sh_counts_fold bounds idx [] ltac:(constructor)) as [Hv Hs].
  fold (sh_counts bounds idx) in Hv, Hs. cbn [map zsum] in Hs.
  set (counts := sh_counts bounds idx) in *.
  pose proof (max_le_sum _ Hv) as [Hm0 Hm1].
  assert (0 <= zsum (map (fun e => nthZ axis_chunks (fst e)) counts)) as Hsp.
  { apply zsum_nonneg, Forall_map, Forall_forall. intros e _. apply nthZ_nonneg. exact Hc. }
  destruct (1 <? zlen counts) eqn:E; injection H as <- <- <-.
  - lia.
  - assert (length (map snd counts) <= 1)%nat as Hl by (unfold zlen in E; rewrite map_length; lia).
    pose proof (max_eq_sum_short _ Hv Hl). lia.
Qed.

Lemma sh_fold_inv axis_chunks bounds : forall new_chunks lo splits merges lo' splits' merges',
  nonneg_layout axis_chunks -> 0 <= lo <= splits + merges ->
  fold_left (sh_group axis_chunks bounds) new_chunks (lo, splits, merges) = (lo', splits', merges') ->
  0 <= lo' <= splits' + merges'.
Proof.
  induction new_chunks as [|idx t IH]; intros lo splits merges lo' splits' merges' Hc Hinv H; cbn [fold_left] in H.
  - injection H as <- <- <-. exact Hinv.
  - destruct (sh_group axis_chunks bounds (lo, splits, merges) idx) as [[l1 s1] m1] eqn:E.
    pose proof (sh_group_inv _ _ _ _ _ _ _ _ _ Hc E).
    apply (IH l1 s1 m1 lo' splits' merges' Hc); [lia | exact H].
Qed.

(* for EVERY grouping new_chunks (not only the ones _new_chunks builds) and every index list *)
Theorem shuffle_wellformed chunks axis itemsize new_chunks :
  0 <= itemsize -> Forall nonneg_layout chunks ->
  wellformed (shuffle_transfer chunks axis itemsize new_chunks).
Proof.
  intros Hi Hc. unfold shuffle_transfer.
  destruct (zsum (nth axis chunks []) =? 0) eqn:En; [split; reflexivity|].
  destruct (fold_left _ new_chunks (0, 0, 0)) as [[lo splits] merges] eqn:E.
  apply scale_wf; [|apply row_bytes_nonneg; assumption].
  apply (sh_fold_inv _ _ _ _ _ _ _ _ _ (nth_nonneg_layout chunks axis Hc)) in E; [exact E | lia].
Qed.

Theorem shuffle_empty_axis chunks axis itemsize new_chunks :
  zsum (nth axis chunks []) = 0 -> shuffle_transfer chunks axis itemsize new_chunks = (0, 0).
Proof. intros H. unfold shuffle_transfer. rewrite H. reflexivity. Qed.

(* "nothing moves": every output chunk is drawn from a single source block -> min = 0 *)
Definition one_source (bounds : list Z) (idx : list Z) : Prop :=
  exists b, Forall (fun i => bisect_right bounds i = b) idx.

Lemma sh_counts_one_source bounds b : forall idx c,
  Forall (fun i => bisect_right bounds i = b) idx ->
  fold_left (fun counts i => count_add (bisect_right bounds i) counts) idx [(b, c)] = [(b, c + zlen idx)].
Proof.
  assert (forall x y : Z, x = y -> [(b, x)] = [(b, y)]) as Hp by (intros; subst; reflexivity).
  induction idx as [|i t IH]; intros c H; cbn [fold_left].
  - apply Hp. unfold zlen. cbn [length]. lia.
  - inversion H as [|? ? Hi Ht]; subst. cbn [count_add]. rewrite Z.eqb_refl.
    rewrite IH by exact Ht. apply Hp. unfold zlen. cbn [length]. lia.
Qed.

Lemma sh_group_one_source axis_chunks bounds lo splits merges idx :
  one_source bounds idx ->
  fst (fst (sh_group axis_chunks bounds (lo, splits, merges) idx)) = lo.
Proof.
  intros [b H]. unfold sh_group. cbn [fst].
  destruct idx as [|i t].
  - cbn. lia.
  - unfold sh_counts. cbn [fold_left]. inversion H as [|? ? Hi Ht]; subst. cbn [count_add].
    rewrite sh_counts_one_source by exact Ht. cbn [map snd fold_right].
    unfold zlen. cbn [length]. lia.
Qed.

Lemma sh_fold_one_source axis_chunks bounds : forall new_chunks lo splits merges,
  Forall (one_source bounds) new_chunks ->
  fst (fst (fold_left (sh_group axis_chunks bounds) new_chunks (lo, splits, merges))) = lo.
Proof.
  induction new_chunks as [|idx t IH]; intros lo splits merges H; cbn [fold_left]; [reflexivity|].
  inversion H as [|? ? H1 Ht]; subst.
  pose proof (sh_group_one_source axis_chunks bounds lo splits merges idx H1) as E.
  destruct (sh_group axis_chunks bounds (lo, splits, merges) idx) as [[l1 s1] m1]. cbn [fst] in E. subst l1.
  apply IH. exact Ht.
Qed.

Theorem shuffle_one_source_min_zero chunks axis itemsize new_chunks :
  Forall (one_source (cumsum (nth axis chunks []))) new_chunks ->
  fst (shuffle_transfer chunks axis itemsize new_chunks) = 0.
Proof.
  intros H. unfold shuffle_transfer.
  destruct (zsum (nth axis chunks []) =? 0); [reflexivity|].
  pose proof (sh_fold_one_source (nth axis chunks []) (cumsum (nth axis chunks [])) new_chunks 0 0 0 H) as E.
  destruct (fold_left _ new_chunks (0, 0, 0)) as [[lo splits] merges]. cbn [fst] in *. subst lo. reflexivity.
Qed.
