(* C18 — facts about partition_all, the tree depth and the 1-D tree evaluator. *)
From DA Require Import PyBase PyBaseFacts TreeReduce.
Open Scope Z_scope.

Lemma cdiv_one n : cdiv n 1 = n.
Proof. unfold cdiv. rewrite Z.div_1_r. lia. Qed.

Lemma cdiv_zero k : 1 <= k -> cdiv 0 k = 0.
Proof. intros. apply Z.div_small. lia. Qed.

Lemma cdiv_step n k : 1 <= k -> cdiv n k = 1 + cdiv (n - k) k.
Proof.
  intros. unfold cdiv. rewrite <- Z.div_add_l by lia. f_equal. lia.
Qed.

Lemma cdiv_small n k : 1 <= n <= k -> cdiv n k = 1.
Proof. intros. rewrite cdiv_step by lia. unfold cdiv. rewrite Z.div_small; lia. Qed.

Lemma cdiv_of_one k : 1 <= k -> cdiv 1 k = 1.
Proof. intros. apply cdiv_small. lia. Qed.

Lemma cdiv_pos n k : 1 <= k -> 1 <= n -> 1 <= cdiv n k.
Proof. intros. apply Z.div_le_lower_bound; lia. Qed.

Lemma cdiv_le n k m : 1 <= k -> n <= k * m -> cdiv n k <= m.
Proof. intros. apply Z.lt_succ_r, Z.div_lt_upper_bound; lia. Qed.

Lemma cdiv_cdiv n a b : 1 <= a -> 1 <= b -> cdiv (cdiv n a) b = cdiv n (a * b).
Proof.
  intros. unfold cdiv. rewrite <- Z.div_div by lia. f_equal.
  replace (n + a * b - 1) with (n + a - 1 + (b - 1) * a) by ring. rewrite Z.div_add by lia. ring.
Qed.

(* partition_all with the group size as a nat: the form in which the lemmas below are stated *)
Definition pa {A} (k : nat) (l : list A) : list (list A) := partition_all_fuel (length l) k l.

Lemma partition_all_pa {A} k (l : list A) : partition_all k l = pa (Z.to_nat k) l.
Proof. reflexivity. Qed.

Lemma pa_fuel_enough {A} (k : nat) : (0 < k)%nat ->
  forall f1 f2 (l : list A), (length l <= f1)%nat -> (length l <= f2)%nat ->
  partition_all_fuel f1 k l = partition_all_fuel f2 k l.
Proof.
  intros Hk. induction f1 as [|f1 IH]; intros f2 l H1 H2.
  - destruct l; [|cbn in H1; lia]. destruct f2; reflexivity.
  - destruct l as [|a t]; [destruct f2; reflexivity|].
    destruct f2 as [|f2]; [cbn in H2; lia|].
    cbn [partition_all_fuel]. f_equal.
    apply IH; rewrite skipn_length; cbn [length] in *; lia.
Qed.

Lemma pa_nil {A} k : pa k (@nil A) = [].
Proof. reflexivity. Qed.

Lemma pa_cons {A} k (l : list A) : (0 < k)%nat -> l <> [] ->
  pa k l = firstn k l :: pa k (skipn k l).
Proof.
  intros Hk Hl. unfold pa. destruct l as [|a t]; [congruence|].
  cbn [length partition_all_fuel]. f_equal.
  apply pa_fuel_enough; try assumption; rewrite ?skipn_length; cbn [length]; lia.
Qed.

(* induction along the recursion of partition_all *)
Lemma pa_ind {A} (k : nat) (Hk : (0 < k)%nat) (P : list A -> Prop) :
  P [] -> (forall l, l <> [] -> P (skipn k l) -> P l) -> forall l, P l.
Proof.
  intros H0 Hs l.
  assert (forall n (l : list A), (length l <= n)%nat -> P l) as Hn.
  { induction n as [|n IH]; intros l' Hl.
    - destruct l'; [assumption | cbn in Hl; lia].
    - destruct l' as [|a t]; [assumption|].
      apply Hs; [congruence|]. apply IH. rewrite skipn_length. cbn [length] in *. lia. }
  apply (Hn (length l)). lia.
Qed.

Lemma pa_concat {A} k (l : list A) : (0 < k)%nat -> concat (pa k l) = l.
Proof.
  intros Hk. induction l as [|l Hl IH] using (pa_ind k Hk).
  - reflexivity.
  - rewrite pa_cons by assumption. cbn [concat]. rewrite IH. apply firstn_skipn.
Qed.

Lemma pa_groups {A} k (l : list A) : (0 < k)%nat ->
  Forall (fun g => g <> [] /\ (length g <= k)%nat) (pa k l).
Proof.
  intros Hk. induction l as [|l Hl IH] using (pa_ind k Hk).
  - constructor.
  - rewrite pa_cons by assumption. constructor; [|assumption]. split.
    + destruct l; [congruence|]. destruct k; [lia|]. cbn. congruence.
    + rewrite firstn_length. lia.
Qed.

Lemma pa_length {A} k (l : list A) : (0 < k)%nat ->
  Z.of_nat (length (pa k l)) = cdiv (Z.of_nat (length l)) (Z.of_nat k).
Proof.
  intros Hk. induction l as [|l Hl IH] using (pa_ind k Hk).
  - symmetry. apply cdiv_zero. lia.
  - rewrite pa_cons by assumption. cbn [length]. rewrite Nat2Z.inj_succ, IH, skipn_length.
    assert (0 < length l)%nat by (destruct l; [congruence | cbn; lia]).
    destruct (Nat.le_gt_cases (length l) k) as [Hle|Hgt].
    + replace (length l - k)%nat with 0%nat by lia. rewrite cdiv_zero, cdiv_small; lia.
    + rewrite Nat2Z.inj_sub, (cdiv_step (Z.of_nat (length l))); lia.
Qed.

Lemma pa_map {A B} (f : A -> B) k (l : list A) : (0 < k)%nat ->
  pa k (map f l) = map (map f) (pa k l).
Proof.
  intros Hk. induction l as [|l Hl IH] using (pa_ind k Hk).
  - reflexivity.
  - rewrite (pa_cons k l) by assumption.
    rewrite pa_cons; [|assumption|destruct l; [congruence|cbn; congruence]].
    cbn [map]. rewrite firstn_map, skipn_map, IH. reflexivity.
Qed.

Lemma pa_single {A} k (l : list A) : (0 < k)%nat -> l <> [] -> (length l <= k)%nat -> pa k l = [l].
Proof.
  intros Hk Hl Hlen. rewrite pa_cons by assumption.
  rewrite firstn_all2 by assumption. rewrite skipn_all2 by assumption. reflexivity.
Qed.

Lemma pa_one {A} (l : list A) : pa 1 l = map (fun x => [x]) l.
Proof.
  induction l as [|a t IH]; [reflexivity|].
  rewrite pa_cons by (try lia; congruence). cbn [firstn skipn map]. rewrite IH. reflexivity.
Qed.

Lemma pa_nth {A} k (l : list A) : (0 < k)%nat -> forall j, (j < length (pa k l))%nat ->
  nth j (pa k l) [] = firstn k (skipn (j * k) l).
Proof.
  intros Hk. induction l as [|l Hl IH] using (pa_ind k Hk); intros j Hj.
  - cbn in Hj. lia.
  - rewrite pa_cons in * by assumption. destruct j as [|j].
    + reflexivity.
    + cbn [nth length] in *. rewrite IH by lia. rewrite skipn_skipn.
      replace (S j * k)%nat with (k + j * k)%nat by lia. reflexivity.
Qed.

(* the statement of C18_partition_all_valid *)
Theorem partition_all_valid {A} (k : Z) (l : list A) : 1 <= k ->
  concat (partition_all k l) = l /\
  Forall (fun g => g <> [] /\ Z.of_nat (length g) <= k) (partition_all k l) /\
  Z.of_nat (length (partition_all k l)) = cdiv (Z.of_nat (length l)) k /\
  (forall j, (j < length (partition_all k l))%nat ->
     nth j (partition_all k l) [] = firstn (Z.to_nat k) (skipn (j * Z.to_nat k) l)).
Proof.
  intros Hk. rewrite partition_all_pa. assert (0 < Z.to_nat k)%nat as Hk' by lia.
  repeat split.
  - apply pa_concat; assumption.
  - eapply Forall_impl; [|apply pa_groups; assumption]. cbn. intros g [H1 H2]. split; [assumption | lia].
  - rewrite pa_length by assumption. f_equal. lia.
  - apply pa_nth; assumption.
Qed.

Fixpoint iter_cdiv (d : nat) (k n : Z) : Z :=
  match d with O => n | S d' => iter_cdiv d' k (cdiv n k) end.

Lemma iter_cdiv_succ d k n : iter_cdiv (S d) k n = cdiv (iter_cdiv d k n) k.
Proof. revert n. induction d as [|d IH]; intros n; [reflexivity|]. cbn [iter_cdiv] in *. rewrite IH. reflexivity. Qed.

(* d ceil-divisions by k are one ceil-division by k^d *)
Lemma iter_cdiv_pow d k n : 1 <= k -> iter_cdiv d k n = cdiv n (k ^ Z.of_nat d).
Proof.
  intros Hk. revert n. induction d as [|d IH]; intros n; cbn [iter_cdiv].
  - symmetry. apply cdiv_one.
  - pose proof (Z.pow_pos_nonneg k (Z.of_nat d)).
    rewrite IH, cdiv_cdiv, Nat2Z.inj_succ, Z.pow_succ_r by lia. reflexivity.
Qed.

Lemma iter_cdiv_reaches_one d k n : 1 <= k -> 1 <= n -> n <= k ^ Z.of_nat d -> iter_cdiv d k n = 1.
Proof. intros. rewrite iter_cdiv_pow by assumption. apply cdiv_small. lia. Qed.

Lemma iter_cdiv_le_k d k n : 1 <= k -> n <= k ^ Z.of_nat (S d) -> iter_cdiv d k n <= k.
Proof.
  intros Hk Hle. pose proof (Z.pow_pos_nonneg k (Z.of_nat d)).
  rewrite iter_cdiv_pow by assumption. apply cdiv_le; [lia|].
  rewrite Nat2Z.inj_succ, Z.pow_succ_r in Hle; lia.
Qed.

Lemma iter_cdiv_fan1 d n : iter_cdiv d 1 n = n.
Proof. rewrite iter_cdiv_pow, Z.pow_1_l, cdiv_one by lia. reflexivity. Qed.

Lemma ceil_log_fuel_S f k n acc d :
  ceil_log_fuel (S f) k n acc d = if n <=? acc then d else ceil_log_fuel f k n (acc * k) (d + 1).
Proof. reflexivity. Qed.

(* the loop invariant is acc = k^d; the fuel S f suffices as long as n <= k^d * 2^f *)
Lemma ceil_log_fuel_spec k n f : 2 <= k -> forall d, 0 <= d -> n <= k ^ d * 2 ^ Z.of_nat f ->
  let r := ceil_log_fuel (S f) k n (k ^ d) d in
  d <= r /\ n <= k ^ r /\ (forall d', d <= d' < r -> k ^ d' < n).
Proof.
  intros Hk. induction f as [|f IH]; intros d Hd Hn; lazy zeta; rewrite ceil_log_fuel_S;
    destruct (n <=? k ^ d) eqn:E.
  1-3: repeat split; lia.
  assert (k ^ d * k = k ^ (d + 1)) as Hacc by (rewrite Z.pow_add_r, Z.pow_1_r; lia). rewrite Hacc.
  destruct (IH (d + 1)) as (H1 & H2 & H3); [lia| |].
  - rewrite Nat2Z.inj_succ, Z.pow_succ_r in Hn by lia. rewrite <- Hacc.
    assert (0 <= k ^ d * 2 ^ Z.of_nat f) by (apply Z.mul_nonneg_nonneg; apply Z.pow_nonneg; lia). nia.
  - repeat split; [lia | assumption |].
    intros d' Hd'. destruct (Z.eq_dec d' d) as [->|]; [lia | apply H3; lia].
Qed.

Theorem ceil_log_spec k n : 2 <= k ->
  0 <= ceil_log k n /\ n <= k ^ ceil_log k n /\ (forall d, 0 <= d < ceil_log k n -> k ^ d < n).
Proof.
  intros Hk. apply (ceil_log_fuel_spec k n (Z.to_nat (Z.log2_up n)) Hk 0); [lia|].
  destruct (Z_le_gt_dec n 1) as [Hn|Hn].
  - pose proof (Z.pow_pos_nonneg 2 (Z.of_nat (Z.to_nat (Z.log2_up n)))). lia.
  - pose proof (Z.log2_up_spec n). pose proof (Z.log2_up_nonneg n). rewrite Z2Nat.id; lia.
Qed.

Lemma ceil_log_least k n d : 2 <= k -> 0 <= d -> n <= k ^ d -> ceil_log k n <= d.
Proof.
  intros Hk Hd Hn. destruct (ceil_log_spec k n Hk) as (H0 & H1 & H2).
  destruct (Z_le_gt_dec (ceil_log k n) d) as [|Hgt]; [assumption|].
  specialize (H2 d ltac:(lia)). lia.
Qed.

Lemma tree_depth_from_spec nb : forall i se logs d0 d,
  tree_depth_from i nb se logs d0 = Some d ->
  logs_ok_from i nb se logs = true ->
  d0 <= d /\
  forall j n k, nth_error nb j = Some n -> dict_find se (i + Z.of_nat j) = Some k -> 2 <= k -> n <= k ^ d.
Proof.
  induction nb as [|n0 t IH]; intros i se logs d0 d Hd Hok.
  - cbn in Hd. injection Hd as <-. split; [lia|]. intros [|j] n k H; discriminate.
  - (* one step of the loop: the remaining axes are scanned from a depth d1 that already
       suffices for axis i *)
    assert (exists logs' d1, tree_depth_from (i + 1) t se logs' d1 = Some d /\
              logs_ok_from (i + 1) t se logs' = true /\ d0 <= d1 /\
              forall k, dict_find se i = Some k -> 2 <= k -> n0 <= k ^ d1) as (logs' & d1 & Hd' & Hok' & H01 & Hhd).
    { cbn [tree_depth_from logs_ok_from] in Hd, Hok.
      destruct (dict_find se i) as [k0|]; [destruct (k0 =? 1) eqn:Ek|].
      - exists logs, d0. repeat split; try assumption; [lia|]. intros k [= <-]. lia.
      - destruct logs as [|c logs']; [discriminate|]. apply andb_true_iff in Hok as [Hc Hok].
        exists logs', (Z.max d0 c). repeat split; [assumption | assumption | lia |]. intros k [= <-] Hk.
        assert (k0 ^ c <= k0 ^ Z.max d0 c) by (apply Z.pow_le_mono_r; lia). lia.
      - exists logs, d0. repeat split; try assumption; [lia|]. discriminate. }
    destruct (IH _ _ _ _ _ Hd' Hok') as [Hle Hall]. split; [lia|].
    intros [|j] n k Hn Hk Hk2.
    + injection Hn as <-. rewrite Z.add_0_r in Hk.
      assert (k ^ d1 <= k ^ d) by (apply Z.pow_le_mono_r; lia). specialize (Hhd k Hk Hk2). lia.
    + apply (Hall j n k Hn); [|assumption]. rewrite <- Hk. f_equal. lia.
Qed.

(* the statement of C18_depth_reaches_one (model part) *)
Theorem tree_depth_reaches_one nb se logs d :
  tree_depth nb se logs = Some d -> logs_ok nb se logs = true ->
  1 <= d /\
  forall j n k, nth_error nb j = Some n -> 1 <= n -> dict_find se (Z.of_nat j) = Some k -> 2 <= k ->
    iter_cdiv (Z.to_nat d) k n = 1.
Proof.
  intros Hd Hok. destruct (tree_depth_from_spec nb 0 se logs 1 d Hd Hok) as [Hle Hall].
  split; [assumption|]. intros j n k Hn Hn1 Hk Hk2.
  apply iter_cdiv_reaches_one; try lia. rewrite Z2Nat.id by lia. apply (Hall j n k Hn); assumption.
Qed.

Lemma exact_logs_ok_from nb : forall i se,
  Forall (fun n => 1 <= n) nb -> (forall a k, dict_find se a = Some k -> 1 <= k) ->
  logs_ok_from i nb se (exact_logs_from i nb se) = true.
Proof.
  induction nb as [|n t IH]; intros i se Hnb Hse; [reflexivity|].
  inversion Hnb as [|? ? Hn Ht]; subst.
  cbn [logs_ok_from exact_logs_from]. destruct (dict_find se i) as [k|] eqn:Ef.
  - destruct (k =? 1) eqn:Ek; [apply IH; assumption|].
    pose proof (Hse i k Ef) as Hk1.
    destruct (ceil_log_spec k n ltac:(lia)) as (H0 & H1 & _).
    rewrite IH by assumption. lia.
  - apply IH; assumption.
Qed.

Theorem exact_logs_ok nb se :
  Forall (fun n => 1 <= n) nb -> (forall a k, dict_find se a = Some k -> 1 <= k) ->
  logs_ok nb se (exact_logs nb se) = true.
Proof. apply exact_logs_ok_from. Qed.

Lemma tree_depth_from_total nb : forall i se logs d0,
  logs_ok_from i nb se logs = true -> exists d, tree_depth_from i nb se logs d0 = Some d.
Proof.
  induction nb as [|n t IH]; intros i se logs d0 Hok; [eexists; reflexivity|].
  cbn [tree_depth_from logs_ok_from] in *. destruct (dict_find se i) as [k|].
  - destruct (k =? 1); [apply IH; assumption|]. destruct logs as [|c logs']; [discriminate|].
    apply andb_true_iff in Hok. destruct Hok as [_ Hok]. apply IH; assumption.
  - apply IH; assumption.
Qed.

Lemma tree_level_length {S T} (f : list S -> T) k (l : list S) : 1 <= k ->
  Z.of_nat (length (tree_level f k l)) = cdiv (Z.of_nat (length l)) k.
Proof.
  intros Hk. unfold tree_level. rewrite map_length, partition_all_pa, pa_length by lia. f_equal. lia.
Qed.

Lemma tree_iter_length {S} (f : list S -> S) k d (l : list S) : 1 <= k ->
  Z.of_nat (length (tree_iter f k d l)) = iter_cdiv d k (Z.of_nat (length l)).
Proof.
  intros Hk. revert l. induction d as [|d IH]; intros l; cbn [tree_iter iter_cdiv]; [reflexivity|].
  rewrite IH, tree_level_length by assumption. reflexivity.
Qed.

Lemma tree_iter_snoc {S} (f : list S -> S) k d (l : list S) :
  tree_level f k (tree_iter f k d l) = tree_iter f k (Datatypes.S d) l.
Proof. revert l. induction d as [|d IH]; intros l; [reflexivity | apply IH]. Qed.

Lemma mfold_app {S} (op : S -> S -> S) e : monoid_laws op e ->
  forall l1 l2, mfold op e (l1 ++ l2) = op (mfold op e l1) (mfold op e l2).
Proof.
  intros (Ha & Hl & Hr) l1 l2. unfold mfold. induction l1 as [|x t IH]; cbn [fold_right app].
  - symmetry. apply Hl.
  - rewrite IH. apply Ha.
Qed.

Lemma mfold_concat {S} (op : S -> S -> S) e : monoid_laws op e ->
  forall ls, mfold op e (map (mfold op e) ls) = mfold op e (concat ls).
Proof.
  intros H ls. induction ls as [|l t IH]; [reflexivity|].
  cbn [map concat]. rewrite mfold_app by assumption. rewrite <- IH. reflexivity.
Qed.

(* one level preserves the total; so does any number of levels (no commutativity: the groups
   are consecutive) *)
Lemma tree_level_mfold {S} (op : S -> S -> S) e k (l : list S) : monoid_laws op e -> 1 <= k ->
  mfold op e (tree_level (mfold op e) k l) = mfold op e l.
Proof.
  intros H Hk. unfold tree_level. rewrite mfold_concat by assumption.
  rewrite partition_all_pa, pa_concat by lia. reflexivity.
Qed.

Theorem tree_iter_mfold {S} (op : S -> S -> S) e k d (l : list S) : monoid_laws op e -> 1 <= k ->
  mfold op e (tree_iter (mfold op e) k d l) = mfold op e l.
Proof.
  intros H Hk. revert l. induction d as [|d IH]; intros l; cbn [tree_iter]; [reflexivity|].
  rewrite IH. apply tree_level_mfold; assumption.
Qed.

Lemma length_one_inv {A} (l : list A) : length l = 1%nat -> exists x, l = [x].
Proof. destruct l as [|x [|y t]]; cbn; intros H; try discriminate. eexists; reflexivity. Qed.

(* the statement of C18_tree_equals_flat_1d: after enough levels a single block is left, and it
   holds the total *)
Theorem tree_iter_flat {S} (op : S -> S -> S) e k d (l : list S) :
  monoid_laws op e -> 2 <= k -> l <> [] -> Z.of_nat (length l) <= k ^ Z.of_nat d ->
  tree_iter (mfold op e) k d l = [mfold op e l].
Proof.
  intros H Hk Hl Hd.
  assert (Z.of_nat (length (tree_iter (mfold op e) k d l)) = 1) as Hlen.
  { rewrite tree_iter_length by lia. apply iter_cdiv_reaches_one; try lia.
    destruct l; [congruence | cbn [length]; lia]. }
  destruct (length_one_inv (tree_iter (mfold op e) k d l) ltac:(lia)) as [x Hx].
  pose proof (tree_iter_mfold op e k d l H ltac:(lia)) as Ht. rewrite Hx in *.
  destruct H as (_ & _ & Hr). cbn in Ht. rewrite Hr in Ht. congruence.
Qed.

(* Homomorphic reductions.  The tree over the summaries is the image under h of the same tree
   over the data, where a group of pieces is combined by concatenation; that one is the tree of
   the free monoid (lists, ++, []), whose flat fold is concat. *)
Section Hom.
  Context {B D S R : Type} (r : reduction B S R) (phi : B -> list D) (h : list D -> S) (spec : list D -> R).
  Hypothesis Hhom : hom_reduction r phi h spec.

  Lemma hom_level {T} (f : list S -> T) (g : list D -> T) k (ds : list (list D)) : 1 <= k ->
    (forall ds, ds <> [] -> f (map h ds) = g (concat ds)) ->
    tree_level f k (map h ds) = map g (tree_level (@concat D) k ds).
  Proof.
    intros Hk Hf. unfold tree_level. rewrite !partition_all_pa, pa_map, !map_map by lia.
    apply map_ext_Forall. eapply Forall_impl; [|apply (pa_groups (Z.to_nat k) ds); lia].
    cbn. intros p [Hp _]. apply Hf, Hp.
  Qed.

  Lemma hom_iter k d : 1 <= k -> forall ds : list (list D),
    tree_iter (r_combine r) k d (map h ds) = map h (tree_iter (@concat D) k d ds).
  Proof.
    intros Hk. induction d as [|d IH]; intros ds; cbn [tree_iter]; [reflexivity|].
    rewrite (hom_level _ h), IH by (assumption || apply Hhom). reflexivity.
  Qed.

  (* the statement of C18_tree_1d_hom *)
  Theorem tree_reduce_1d_hom k depth (blocks : list B) :
    2 <= k -> 1 <= depth -> blocks <> [] -> Z.of_nat (length blocks) <= k ^ depth ->
    tree_reduce_1d r k depth blocks = [spec (concat (map phi blocks))].
  Proof.
    intros Hk Hd Hb Hlen. unfold tree_reduce_1d.
    rewrite (map_ext _ _ (proj1 Hhom)), <- map_map, hom_iter, (hom_level _ spec), tree_iter_snoc
      by (lia || apply Hhom).
    change (@concat D) with (mfold (@app D) []).
    rewrite tree_iter_flat; [reflexivity | | assumption | | ].
    - exact (conj (@app_assoc D) (conj (@app_nil_l D) (@app_nil_r D))).
    - destruct blocks; [congruence | discriminate].
    - rewrite map_length. replace (Z.of_nat (Datatypes.S (Z.to_nat (depth - 1)))) with depth by lia. assumption.
  Qed.
End Hom.
