(* Proofs about the store model (StoreModel.v): the write indices of the blocks
   partition the region, the fold over the blocks is one assignment, it is order
   independent, and reading back returns the source. *)
From DA Require Import PyBase PyBaseFacts Slicing NormalizeFacts FuseFacts Slice1dBase Slice1dFacts StoreModel.
From Coq Require Import Permutation.
Open Scope Z_scope.

Lemma map_snd_combine {A B} (l : list A) (m : list B) : length l = length m -> map snd (combine l m) = m.
Proof.
  revert m. induction l as [|x t IH]; intros [|y m] H; try discriminate; [reflexivity|].
  cbn [combine map snd]. f_equal. apply IH. cbn [length] in H. lia.
Qed.

Lemma bounds_nonneg N ps : Forall (fun q => 0 <= q < N) ps -> Forall (fun q => 0 <= q) ps.
Proof. apply Forall_impl. intros q Hq. lia. Qed.

Section CellFacts.
Context {V : Type}.
Implicit Types (out l : list V) (ps : list Z) (xs : list V).

Lemma set_nth_length l i v : length (set_nth l i v) = length l.
Proof.
  revert i. induction l as [|h t IH]; intros i; [reflexivity|].
  destruct i; cbn [set_nth length]; [reflexivity|]. rewrite IH. reflexivity.
Qed.

Lemma nth_set_nth_eq l i v d : (i < length l)%nat -> nth i (set_nth l i v) d = v.
Proof.
  revert i. induction l as [|h t IH]; intros i H; cbn [length] in H; [lia|].
  destruct i; cbn [set_nth nth]; [reflexivity|]. apply IH. lia.
Qed.

Lemma nth_set_nth_neq l i j v d : i <> j -> nth j (set_nth l i v) d = nth j l d.
Proof.
  revert i j. induction l as [|h t IH]; intros i j H; [reflexivity|].
  destruct i, j; cbn [set_nth nth]; try reflexivity; try lia. apply IH. lia.
Qed.

Lemma assign_length out ps xs : length (assign out ps xs) = length out.
Proof.
  revert out xs. induction ps as [|p ps IH]; intros out xs; [reflexivity|].
  destruct xs as [|x xs]; [reflexivity|]. cbn [assign]. rewrite IH. apply set_nth_length.
Qed.

Lemma assign_lenZ out ps xs : lenZ (assign out ps xs) = lenZ out.
Proof. unfold lenZ. rewrite assign_length. reflexivity. Qed.

Lemma assign_nil_r out ps : assign out ps [] = out.
Proof. destruct ps; reflexivity. Qed.

Lemma assign_nil_out ps xs : assign [] ps xs = [].
Proof.
  pose proof (assign_length [] ps xs) as H. destruct (assign [] ps xs); [reflexivity|discriminate].
Qed.

Lemma assign_frame out ps xs p d :
  0 <= p -> Forall (fun q => 0 <= q) ps -> ~ In p ps ->
  nth (Z.to_nat p) (assign out ps xs) d = nth (Z.to_nat p) out d.
Proof.
  intros Hp. revert out xs. induction ps as [|q ps IH]; intros out xs Hnn Hni; [reflexivity|].
  destruct xs as [|x xs]; [reflexivity|]. cbn [assign].
  inversion Hnn as [|q0 l0 Hq Hnn']; subst.
  rewrite IH; [|assumption|intros Hin; apply Hni; right; exact Hin].
  apply nth_set_nth_neq. intros E. apply Hni. left. lia.
Qed.

Lemma assign_hit out ps xs (i : nat) d :
  NoDup ps -> Forall (fun q => 0 <= q < lenZ out) ps -> length ps = length xs ->
  (i < length ps)%nat ->
  nth (Z.to_nat (nth i ps 0)) (assign out ps xs) d = nth i xs d.
Proof.
  revert out xs i. induction ps as [|q ps IH]; intros out xs i Hnd Hin Hlen Hi; cbn [length] in Hi; [lia|].
  destruct xs as [|x xs]; [discriminate|]. cbn [length] in Hlen.
  inversion Hnd as [|q0 l0 Hq Hnd']; subst.
  inversion Hin as [|q0 l0 Hqb Hin']; subst.
  cbn [assign]. destruct i as [|i]; cbn [nth].
  - rewrite assign_frame.
    + apply nth_set_nth_eq. unfold lenZ in Hqb. lia.
    + lia.
    + exact (bounds_nonneg _ _ Hin').
    + exact Hq.
  - apply IH; try assumption; try lia.
    eapply Forall_impl; [|exact Hin']. cbn beta. intros a Ha. unfold lenZ in *. rewrite set_nth_length. exact Ha.
Qed.

Lemma assign_app out ps1 ps2 xs1 xs2 :
  length ps1 = length xs1 ->
  assign out (ps1 ++ ps2) (xs1 ++ xs2) = assign (assign out ps1 xs1) ps2 xs2.
Proof.
  revert out xs1. induction ps1 as [|p ps1 IH]; intros out [|x xs1] H; try discriminate; [reflexivity|].
  cbn [app assign]. apply IH. cbn [length] in H. lia.
Qed.

Lemma assign_readback out ps xs d :
  NoDup ps -> Forall (fun q => 0 <= q < lenZ out) ps -> length ps = length xs ->
  map (fun p => nth (Z.to_nat p) (assign out ps xs) d) ps = xs.
Proof.
  intros Hnd Hin Hlen.
  set (f := fun p : Z => nth (Z.to_nat p) (assign out ps xs) d).
  apply (nth_ext _ _ (f 0) d).
  - rewrite map_length. exact Hlen.
  - intros i Hi. rewrite map_length in Hi. rewrite (map_nth f). unfold f.
    apply assign_hit; assumption.
Qed.

Lemma assign_pair out ps xs p x d :
  NoDup ps -> Forall (fun q => 0 <= q < lenZ out) ps -> length ps = length xs ->
  In (p, x) (combine ps xs) -> nth (Z.to_nat p) (assign out ps xs) d = x.
Proof.
  intros Hnd Hin Hlen Hc. destruct (In_combine_nth ps xs p x 0 d Hc) as (i & Hi & _ & <- & <-).
  apply assign_hit; assumption.
Qed.

(* two assignments of the same (position, value) pairs in different orders agree *)
Lemma assign_perm out ps xs ps' xs' :
  NoDup ps -> Forall (fun q => 0 <= q < lenZ out) ps ->
  length ps = length xs -> length ps' = length xs' ->
  Permutation (combine ps xs) (combine ps' xs') ->
  assign out ps xs = assign out ps' xs'.
Proof.
  intros Hnd Hin Hlen Hlen' Hperm.
  destruct out as [|d out0]; [rewrite !assign_nil_out; reflexivity|]. set (out := d :: out0) in *.
  assert (Permutation ps ps') as Hpp.
  { rewrite <- (map_fst_combine ps xs Hlen), <- (map_fst_combine ps' xs' Hlen').
    apply Permutation_map. exact Hperm. }
  assert (NoDup ps') as Hnd' by (eapply Permutation_NoDup; eassumption).
  assert (Forall (fun q => 0 <= q < lenZ out) ps') as Hin'
    by (eapply Permutation_Forall; eassumption).
  apply (nth_ext _ _ d d); [rewrite !assign_length; reflexivity|].
  intros j _. rewrite <- (Nat2Z.id j).
  destruct (in_dec Z.eq_dec (Z.of_nat j) ps) as [Hjin|Hjout].
  - rewrite <- (map_fst_combine ps xs Hlen) in Hjin. apply in_map_iff in Hjin.
    destruct Hjin as ([p x] & <- & Hc). cbn [fst].
    rewrite (assign_pair out ps xs p x d), (assign_pair out ps' xs' p x d); try assumption; [reflexivity|].
    eapply Permutation_in; eassumption.
  - assert (~ In (Z.of_nat j) ps') as Hjout'
      by (intros H; apply Hjout; eapply Permutation_in; [apply Permutation_sym; exact Hpp|exact H]).
    rewrite !assign_frame by (try lia; try assumption; eapply bounds_nonneg; eassumption). reflexivity.
Qed.

End CellFacts.

(* positions selected by a slice that fuse_slice supports *)
Lemma slice_okb_inv s :
  slice_okb s = true ->
  0 < step_of s /\ (forall x, s_start s = Some x -> 0 <= x) /\ (forall x, s_stop s = Some x -> 0 <= x) /\
  normalize_slice_for_fusion s = Some (start_or0 s, s_stop s, step_of s).
Proof.
  unfold slice_okb. destruct (normalize_slice_for_fusion s) as [[[a0 st] k]|] eqn:E; [|discriminate].
  intros Hk. destruct (nff_inv s a0 st k E) as (-> & -> & -> & H1 & H2 & H3 & H4).
  repeat split; try assumption. lia.
Qed.

Lemma region_okb_slice region : region_okb region = true -> slice_okb (region_slice region) = true.
Proof. destruct region as [r|]; cbn [region_okb region_slice]; [auto|reflexivity]. Qed.

(* a contiguous piece of the positions a supported region designates: no repeats, inside the target *)
Lemma region_piece_facts region a n N :
  region_okb region = true -> 0 <= N ->
  NoDup (firstnZ n (skipnZ a (rsel region N))) /\ Forall (fun q => 0 <= q < N) (firstnZ n (skipnZ a (rsel region N))).
Proof.
  intros Hok HN. pose proof (region_okb_slice region Hok) as Hoks.
  destruct (slice_okb_inv _ Hoks) as (Hk & _). split.
  - apply NoDup_firstn, NoDup_skipn, sel_NoDup. lia.
  - apply Forall_firstn, Forall_skipn, Forall_forall. intros p. apply sel_in_range; [exact HN|lia].
Qed.

(* picking a contiguous run of indices = firstn/skipn *)
Lemma pick_unit_range l x y :
  0 <= x <= y -> y <= lenZ l -> pick l (zrange x y 1) = firstnZ (y - x) (skipnZ x l).
Proof.
  intros Hxy Hy. unfold lenZ in Hy.
  assert (range_len x y 1 = y - x) as Hrl by (rewrite range_len_unit; lia).
  apply (nth_ext _ _ 0 0).
  - rewrite pick_length. unfold firstnZ, skipnZ. rewrite firstn_length, skipn_length.
    apply Nat2Z.inj. rewrite zrange_length, Hrl. lia.
  - intros i Hi. rewrite pick_length in Hi.
    assert (Z.of_nat i < y - x) as Hi' by (rewrite <- Hrl, <- zrange_length; lia).
    rewrite pick_nth by exact Hi. rewrite zrange_nth by lia.
    unfold firstnZ, skipnZ. rewrite nth_firstn_lt by lia. rewrite nth_skipn_add.
    f_equal. lia.
Qed.

(* ... and the part of a run that lies past the end of l selects nothing *)
Lemma pick_unit_range_clip l x y :
  0 <= x <= y -> pick l (zrange (Z.min x (lenZ l)) (Z.min y (lenZ l)) 1) = firstnZ (y - x) (skipnZ x l).
Proof.
  intros Hxy. destruct (Z_le_gt_dec y (lenZ l)) as [Hy|Hy].
  - rewrite !Z.min_l by lia. apply pick_unit_range; lia.
  - rewrite (Z.min_r y) by lia. unfold lenZ in Hy. destruct (Z_le_gt_dec x (lenZ l)) as [Hx|Hx]; unfold lenZ in Hx.
    + rewrite Z.min_l, pick_unit_range by (unfold lenZ; lia). unfold firstnZ, skipnZ.
      rewrite !firstn_all2 by (rewrite skipn_length; unfold lenZ; lia). reflexivity.
    + rewrite Z.min_r, zrange_nil_pos by (unfold lenZ; lia). unfold firstnZ, skipnZ.
      rewrite skipn_all2 by lia. symmetry. apply firstn_nil.
Qed.

Definition blk (a b : Z) : pslice := mkslice (Some a) (Some b) None.

Lemma nff_blk a b : 0 <= a -> 0 <= b -> normalize_slice_for_fusion (blk a b) = Some (a, Some b, 1).
Proof.
  intros Ha Hb. unfold normalize_slice_for_fusion, blk. cbn [s_start s_stop s_step].
  break_if; [lia|reflexivity].
Qed.

Lemma fuse_colon_blk a b : 0 <= a -> 0 <= b -> fuse_slice_ss colon (blk a b) = Some (blk a b).
Proof.
  intros Ha Hb. unfold fuse_slice_ss. rewrite nff_blk by assumption.
  cbn [normalize_slice_for_fusion colon s_start s_stop s_step orb Z.ltb Z.compare].
  unfold blk. do 2 f_equal; [f_equal; lia | f_equal; lia].
Qed.

Lemma store_index_block region a b :
  region_okb region = true -> 0 <= a -> 0 <= b ->
  exists idx, store_index region (blk a b) = Some idx /\
              fuse_slice_ss (region_slice region) (blk a b) = Some idx /\ step_of idx <> 0.
Proof.
  intros Hok Ha Hb. destruct region as [r|]; cbn [store_index region_slice region_okb] in *.
  - destruct (slice_okb_inv r Hok) as (Hk & _ & _ & Hn).
    unfold fuse_slice_ss. rewrite Hn, nff_blk by assumption.
    eexists. split; [reflexivity|]. split; [reflexivity|].
    unfold step_of at 1. cbn [s_step]. break_if; lia.
  - exists (blk a b). split; [reflexivity|]. split; [apply fuse_colon_blk; assumption|].
    unfold step_of, blk. cbn [s_step]. lia.
Qed.

Lemma sel_blk a b L : 0 <= a -> 0 <= b -> 0 <= L -> sel (blk a b) L = zrange (Z.min a L) (Z.min b L) 1.
Proof.
  intros Ha Hb HL. unfold sel. rewrite indices_nonneg.
  - reflexivity.
  - exact HL.
  - reflexivity.
  - intros x [= <-]. exact Ha.
  - intros x [= <-]. exact Hb.
Qed.

(* block [a, a + c) of the source is written to the a-th ... (a + c - 1)-th position the region designates
   (as far as the region reaches) *)
Lemma block_write region N a b c :
  region_okb region = true -> 0 <= N -> 0 <= a -> 0 <= c -> b = a + c ->
  exists idx, store_index region (blk a b) = Some idx /\ step_of idx <> 0 /\
              sel idx N = firstnZ c (skipnZ a (rsel region N)).
Proof.
  intros Hok HN Ha Hc ->.
  destruct (store_index_block region a (a + c) Hok) as (idx & Hi & Hf & Hstep); try lia.
  exists idx. split; [exact Hi|]. split; [exact Hstep|].
  destruct (slice_okb_inv _ (region_okb_slice region Hok)) as (Hk & _).
  rewrite <- (fuse_slice_ss_exact (region_slice region) (blk a (a + c)) idx N HN); [|lia|cbn; lia|exact Hf].
  rewrite <- sel_length. fold (lenZ (sel (region_slice region) N)) (rsel region N).
  rewrite sel_blk by (try apply lenZ_nonneg; lia). rewrite pick_unit_range_clip by lia. f_equal. lia.
Qed.

Lemma write_indices_from region N off cs :
  region_okb region = true -> 0 <= N -> 0 <= off -> Forall (fun c => 0 <= c) cs ->
  exists idxs, write_indices_of region (block_slices_from off cs) = Some idxs /\
               length idxs = length cs /\
               map (fun i => sel i N) idxs = split_chunks cs (skipnZ off (rsel region N)).
Proof.
  intros Hok HN. revert off. induction cs as [|c t IH]; intros off Hoff Hcs.
  - exists []. repeat split.
  - inversion Hcs as [|c0 l0 Hc Ht]; subst.
    destruct (IH (off + c) ltac:(lia) Ht) as (idxs & Hw & Hlen & Hsel).
    destruct (block_write region N off (off + c) c Hok HN Hoff Hc eq_refl) as (idx & Hi & _ & Hs).
    exists (idx :: idxs). cbn [block_slices_from write_indices_of]. fold (blk off (off + c)).
    rewrite Hi, Hw. split; [reflexivity|]. split; [cbn [length]; lia|].
    cbn [map split_chunks]. rewrite Hs, Hsel, skipnZ_add by lia. reflexivity.
Qed.

Lemma block_slices_from_length off cs : length (block_slices_from off cs) = length cs.
Proof. revert off. induction cs as [|c t IH]; intros off; [reflexivity|]. cbn [block_slices_from length]. rewrite IH. reflexivity. Qed.

Section SplitFacts.
Context {V : Type}.

Lemma split_chunks_length cs (l : list V) : length (split_chunks cs l) = length cs.
Proof. revert l. induction cs as [|c t IH]; intros l; [reflexivity|]. cbn [split_chunks length]. rewrite IH. reflexivity. Qed.

Lemma split_chunks_concat cs (l : list V) :
  Forall (fun c => 0 <= c) cs -> concat (split_chunks cs l) = firstnZ (zsum cs) l.
Proof.
  revert l. induction cs as [|c t IH]; intros l Hcs; [reflexivity|].
  inversion Hcs as [|c0 l0 Hc Ht]; subst. pose proof (zsum_nonneg t Ht) as Hz.
  cbn [split_chunks concat zsum]. rewrite IH by assumption.
  unfold firstnZ, skipnZ. rewrite Z2Nat.inj_add by lia. symmetry. apply firstn_add.
Qed.

Lemma split_chunks_lens cs (l : list V) :
  Forall (fun c => 0 <= c) cs -> zsum cs <= lenZ l -> map lenZ (split_chunks cs l) = cs.
Proof.
  revert l. induction cs as [|c t IH]; intros l Hcs Hfit; [reflexivity|].
  inversion Hcs as [|c0 l0 Hc Ht]; subst. pose proof (zsum_nonneg t Ht) as Hz. cbn [zsum] in Hfit.
  cbn [split_chunks map]. f_equal.
  - apply lenZ_firstnZ. lia.
  - apply IH; [assumption|]. rewrite lenZ_skipnZ by lia. lia.
Qed.

Lemma split_chunks_map {W} (f : V -> W) cs (l : list V) :
  split_chunks cs (map f l) = map (map f) (split_chunks cs l).
Proof.
  revert l. induction cs as [|c t IH]; intros l; [reflexivity|].
  cbn [split_chunks map]. unfold firstnZ, skipnZ. rewrite firstn_map, skipn_map. f_equal. apply IH.
Qed.

Lemma split_chunks_firstn cs (l : list V) m :
  Forall (fun c => 0 <= c) cs -> zsum cs <= m -> split_chunks cs (firstnZ m l) = split_chunks cs l.
Proof.
  revert l m. induction cs as [|c t IH]; intros l m Hcs Hm; [reflexivity|].
  inversion Hcs as [|c0 l0 Hc Ht]; subst. pose proof (zsum_nonneg t Ht) as Hz. cbn [zsum] in Hm.
  cbn [split_chunks]. f_equal.
  - unfold firstnZ. rewrite firstn_firstn. f_equal. lia.
  - unfold firstnZ, skipnZ. rewrite skipn_firstn_comm.
    replace (Z.to_nat m - Z.to_nat c)%nat with (Z.to_nat (m - c)) by lia.
    apply (IH (skipn (Z.to_nat c) l) (m - c)); [assumption|lia].
Qed.

(* npy-stack round trip, one axis: the files are the blocks, their lengths are the chunks,
   and concatenating them in file order is the array *)
Lemma split_chunks_roundtrip cs (l : list V) :
  valid_chunks cs (lenZ l) ->
  concat (split_chunks cs l) = l /\ map lenZ (split_chunks cs l) = cs /\
  length (split_chunks cs l) = length cs.
Proof.
  intros [Hcs Hsum]. split; [|split].
  - rewrite split_chunks_concat by assumption. rewrite Hsum. unfold firstnZ, lenZ.
    rewrite Nat2Z.id. apply firstn_all.
  - apply split_chunks_lens; [assumption|lia].
  - apply split_chunks_length.
Qed.

End SplitFacts.

Section StoreFacts.
Context {V : Type}.

Definition task_ps (region : option pslice) (N : Z) (t : pslice * list V) : list Z :=
  match store_index region (fst t) with Some idx => sel idx N | None => [] end.

Definition task_ok (region : option pslice) (N : Z) (t : pslice * list V) : Prop :=
  exists idx, store_index region (fst t) = Some idx /\ step_of idx <> 0 /\
              lenZ (sel idx N) = lenZ (snd t).

Lemma task_ok_lengths region N t : task_ok region N t -> length (task_ps region N t) = length (snd t).
Proof. intros (idx & H1 & _ & H3). unfold task_ps. rewrite H1. unfold lenZ in H3. lia. Qed.

(* what one task does, given its write index *)
Lemma store_chunk_fit region (out : list V) index idx x :
  store_index region index = Some idx -> step_of idx <> 0 -> lenZ (sel idx (lenZ out)) = lenZ x ->
  store_chunk region out index x = SOk (assign out (sel idx (lenZ out)) x).
Proof.
  intros Hi Hs Hl. unfold store_chunk, np_setitem. rewrite Hi, Hl, Z.eqb_refl.
  destruct (lenZ x =? 0) eqn:Ex.
  - assert (x = []) as -> by (apply lenZ_0_nil; lia). rewrite assign_nil_r. reflexivity.
  - destruct (step_of idx =? 0) eqn:Es; [lia|reflexivity].
Qed.

Lemma store_chunk_mismatch region (out : list V) index idx x :
  store_index region index = Some idx -> step_of idx <> 0 -> 2 <= lenZ x -> lenZ (sel idx (lenZ out)) <> lenZ x ->
  store_chunk region out index x = SValueErr.
Proof.
  intros Hi Hs H2 Hl. unfold store_chunk, np_setitem. rewrite Hi.
  destruct (lenZ x =? 0) eqn:Ex; [lia|]. destruct (step_of idx =? 0) eqn:Es; [lia|].
  destruct (lenZ x =? lenZ (sel idx (lenZ out))) eqn:El; [lia|].
  destruct x as [|v [|w x']]; unfold lenZ in H2; cbn [length] in H2; try lia. reflexivity.
Qed.

Lemma load_chunk_sel (d : V) region out index idx :
  store_index region index = Some idx -> step_of idx <> 0 ->
  load_chunk d region out index = SOk (map (fun p => nth (Z.to_nat p) out d) (sel idx (lenZ out))).
Proof.
  intros Hi Hs. unfold load_chunk, np_getitem. rewrite Hi. destruct (step_of idx =? 0) eqn:Es; [lia|reflexivity].
Qed.

Lemma store_blocks_assign region tasks (out : list V) :
  Forall (task_ok region (lenZ out)) tasks ->
  store_blocks region tasks out =
  SOk (assign out (concat (map (task_ps region (lenZ out)) tasks)) (concat (map snd tasks))).
Proof.
  revert out. induction tasks as [|[bs x] t IH]; intros out Hall; [reflexivity|].
  inversion Hall as [|t0 l0 Hok Ht]; subst.
  pose proof (task_ok_lengths _ _ _ Hok) as Hlen. unfold task_ps in Hlen.
  destruct Hok as (idx & Hidx & Hstep & Hl). cbn [fst snd] in *.
  cbn [store_blocks map concat]. unfold task_ps at 1. cbn [fst]. rewrite Hidx in *.
  rewrite (store_chunk_fit _ _ _ idx), IH by (rewrite ?assign_lenZ; assumption).
  rewrite assign_lenZ, assign_app by exact Hlen. reflexivity.
Qed.

Lemma store_tasks_from region N off cs (src : list V) :
  region_okb region = true -> 0 <= N -> 0 <= off -> Forall (fun c => 0 <= c) cs ->
  off + zsum cs <= lenZ (rsel region N) -> zsum cs <= lenZ src ->
  let tasks := combine (block_slices_from off cs) (split_chunks cs src) in
  Forall (task_ok region N) tasks /\
  map (task_ps region N) tasks = split_chunks cs (skipnZ off (rsel region N)) /\
  map snd tasks = split_chunks cs src.
Proof.
  intros Hok HN. revert off src. induction cs as [|c t IH]; intros off src Hoff Hcs Hfit Hsrc; cbv zeta.
  - repeat split; constructor.
  - inversion Hcs as [|c0 l0 Hc Ht]; subst. pose proof (zsum_nonneg t Ht) as Hz.
    cbn [zsum] in Hfit, Hsrc.
    destruct (IH (off + c) (skipnZ c src) ltac:(lia) Ht ltac:(lia)) as (IH1 & IH2 & IH3).
    { rewrite lenZ_skipnZ by lia. lia. }
    destruct (block_write region N off (off + c) c Hok HN Hoff Hc eq_refl) as (idx & Hi & Hstep & Hsel).
    cbn [block_slices_from split_chunks combine map]. fold (blk off (off + c)).
    split; [|split].
    + constructor; [|exact IH1]. exists idx. cbn [fst snd]. split; [exact Hi|]. split; [exact Hstep|].
      rewrite Hsel, !lenZ_firstnZ; [reflexivity|lia|]. rewrite lenZ_skipnZ by lia. lia.
    + unfold task_ps at 1. cbn [fst]. rewrite Hi, Hsel, IH2, skipnZ_add by lia. reflexivity.
    + cbn [snd]. rewrite IH3. reflexivity.
Qed.

Lemma region_fits_iff region n N : region_fits region n N = true <-> n <= lenZ (rsel region N).
Proof. unfold region_fits, rsel, lenZ. rewrite sel_length. lia. Qed.

Lemma store_tasks_spec region cs (src : list V) N :
  region_okb region = true -> 0 <= N -> valid_chunks cs (lenZ src) ->
  region_fits region (lenZ src) N = true ->
  Forall (task_ok region N) (store_tasks cs src) /\
  concat (map (task_ps region N) (store_tasks cs src)) = firstnZ (lenZ src) (rsel region N) /\
  concat (map snd (store_tasks cs src)) = src.
Proof.
  intros Hok HN [Hcs Hsum] Hfit. apply region_fits_iff in Hfit.
  destruct (store_tasks_from region N 0 cs src Hok HN ltac:(lia) Hcs ltac:(lia) ltac:(lia)) as (Htasks & Hpos & Hvals).
  unfold store_tasks, block_slices. split; [exact Htasks|]. split.
  - rewrite Hpos. change (skipnZ 0 (rsel region N)) with (rsel region N).
    rewrite split_chunks_concat, Hsum by assumption. reflexivity.
  - rewrite Hvals. apply split_chunks_roundtrip. split; assumption.
Qed.

(* store = one NumPy-style assignment of the source to the first len(source) positions
   the region designates *)
Theorem store_axis_closed_form region cs (src tgt : list V) :
  region_okb region = true -> valid_chunks cs (lenZ src) ->
  region_fits region (lenZ src) (lenZ tgt) = true ->
  store_axis region cs src tgt =
  SOk (assign tgt (firstnZ (lenZ src) (rsel region (lenZ tgt))) src).
Proof.
  intros Hok Hv Hfit.
  destruct (store_tasks_spec region cs src (lenZ tgt) Hok (lenZ_nonneg tgt) Hv Hfit) as (Htasks & Hpos & Hvals).
  unfold store_axis. rewrite store_blocks_assign by exact Htasks. rewrite Hpos, Hvals. reflexivity.
Qed.

Lemma fits_length region (src : list V) N :
  region_fits region (lenZ src) N = true -> length (firstnZ (lenZ src) (rsel region N)) = length src.
Proof.
  intros Hfit. apply region_fits_iff in Hfit. unfold firstnZ, lenZ in *. rewrite firstn_length. lia.
Qed.

Theorem store_axis_exact (d : V) region cs (src tgt : list V) :
  region_okb region = true -> valid_chunks cs (lenZ src) ->
  region_fits region (lenZ src) (lenZ tgt) = true ->
  exists tgt',
    store_axis region cs src tgt = SOk tgt' /\ length tgt' = length tgt /\
    (forall i, 0 <= i < lenZ src ->
       nth (Z.to_nat (nth (Z.to_nat i) (rsel region (lenZ tgt)) 0)) tgt' d = nth (Z.to_nat i) src d) /\
    (forall p, 0 <= p < lenZ tgt -> ~ In p (firstnZ (lenZ src) (rsel region (lenZ tgt))) ->
       nth (Z.to_nat p) tgt' d = nth (Z.to_nat p) tgt d).
Proof.
  intros Hok Hv Hfit. eexists. split; [apply store_axis_closed_form; assumption|].
  destruct (region_piece_facts region 0 (lenZ src) (lenZ tgt) Hok (lenZ_nonneg tgt)) as (Hnd & Hb).
  change (skipnZ 0 ?l) with l in Hnd, Hb.
  pose proof (fits_length region src (lenZ tgt) Hfit) as Hlen.
  split; [apply assign_length|]. split.
  - intros i Hi.
    rewrite <- (assign_hit tgt (firstnZ (lenZ src) (rsel region (lenZ tgt))) src (Z.to_nat i) d Hnd Hb Hlen)
      by (unfold lenZ in *; lia).
    unfold firstnZ. rewrite nth_firstn_lt by (unfold lenZ in *; lia). reflexivity.
  - intros p Hp Hni. apply assign_frame; [lia|exact (bounds_nonneg _ _ Hb)|exact Hni].
Qed.

(* the tasks may run in any order *)
Theorem store_blocks_order_independent region cs (src tgt : list V) tasks' :
  region_okb region = true -> valid_chunks cs (lenZ src) ->
  region_fits region (lenZ src) (lenZ tgt) = true ->
  Permutation tasks' (store_tasks cs src) ->
  store_blocks region tasks' tgt = store_axis region cs src tgt.
Proof.
  intros Hok Hv Hfit Hperm.
  destruct (store_tasks_spec region cs src (lenZ tgt) Hok (lenZ_nonneg tgt) Hv Hfit) as (Htasks & Hpos & Hvals).
  assert (Forall (task_ok region (lenZ tgt)) tasks') as Htasks'
    by (eapply Permutation_Forall; [apply Permutation_sym; exact Hperm|exact Htasks]).
  unfold store_axis. rewrite !store_blocks_assign by assumption. f_equal.
  assert (forall ts, Forall (task_ok region (lenZ tgt)) ts ->
            Forall (fun t => length (task_ps region (lenZ tgt) t) = length (snd t)) ts) as Hls.
  { intros ts Hts. eapply Forall_impl; [|exact Hts]. intros t. apply task_ok_lengths. }
  destruct (region_piece_facts region 0 (lenZ src) (lenZ tgt) Hok (lenZ_nonneg tgt)) as (Hnd & Hb).
  change (skipnZ 0 ?l) with l in Hnd, Hb. rewrite <- Hpos in Hnd, Hb.
  symmetry. apply (assign_perm _ _ _ _ _ Hnd Hb).
  - apply concat_lengths. apply Hls. exact Htasks.
  - apply concat_lengths. apply Hls. exact Htasks'.
  - rewrite !combine_concat by (apply Hls; assumption).
    apply Permutation_flat_map. apply Permutation_sym. exact Hperm.
Qed.

(* return_stored: the blocks read from the target after the store are the source blocks *)
Lemma load_chunks_from (d : V) region off cs (out : list V) :
  region_okb region = true -> 0 <= off -> Forall (fun c => 0 <= c) cs ->
  map (load_chunk d region out) (block_slices_from off cs) =
  map (fun ps => SOk (map (fun p => nth (Z.to_nat p) out d) ps))
      (split_chunks cs (skipnZ off (rsel region (lenZ out)))).
Proof.
  intros Hok. revert off. induction cs as [|c t IH]; intros off Hoff Hcs; [reflexivity|].
  inversion Hcs as [|c0 l0 Hc Ht]; subst.
  destruct (block_write region (lenZ out) off (off + c) c Hok (lenZ_nonneg out) Hoff Hc eq_refl) as (idx & Hi & Hstep & Hsel).
  cbn [block_slices_from split_chunks map]. fold (blk off (off + c)). f_equal.
  - rewrite (load_chunk_sel _ _ _ _ idx), Hsel by assumption. reflexivity.
  - rewrite IH, skipnZ_add by (try assumption; lia). reflexivity.
Qed.

Theorem load_stored_reads_back (d : V) region cs (src tgt tgt' : list V) :
  region_okb region = true -> valid_chunks cs (lenZ src) ->
  region_fits region (lenZ src) (lenZ tgt) = true ->
  store_axis region cs src tgt = SOk tgt' ->
  load_stored d region cs tgt' = map SOk (split_chunks cs src).
Proof.
  intros Hok Hv Hfit Hst. rewrite store_axis_closed_form in Hst by assumption. injection Hst as <-.
  set (l := rsel region (lenZ tgt)). set (n := lenZ src).
  set (tgt' := assign tgt (firstnZ n l) src).
  assert (lenZ tgt' = lenZ tgt) as HN by apply assign_lenZ.
  destruct Hv as [Hcs Hsum]. fold n in Hsum.
  unfold load_stored, block_slices.
  rewrite load_chunks_from by (try assumption; lia).
  rewrite HN. fold l. change (skipnZ 0 l) with l.
  rewrite <- map_map. f_equal.
  rewrite <- split_chunks_map.
  rewrite <- (split_chunks_firstn cs (map _ l) n) by (try assumption; lia).
  unfold firstnZ at 1. rewrite firstn_map. f_equal.
  destruct (region_piece_facts region 0 n (lenZ tgt) Hok (lenZ_nonneg tgt)) as (Hnd & Hb).
  apply assign_readback; try assumption. apply fits_length. exact Hfit.
Qed.

(* compute=False with return_stored: each task returns out[index] right after its own write *)
Theorem store_chunk_reads_back (d : V) region a b (out x o : list V) :
  region_okb region = true -> 0 <= a <= b ->
  region_fits region b (lenZ out) = true -> lenZ x = b - a ->
  store_chunk region out (blk a b) x = SOk o ->
  load_chunk d region o (blk a b) = SOk x.
Proof.
  intros Hok Hab Hfit Hx Hst. apply region_fits_iff in Hfit.
  destruct (block_write region (lenZ out) a b (b - a) Hok (lenZ_nonneg out)) as (idx & Hi & Hstep & Hsel); try lia.
  destruct (region_piece_facts region a (b - a) (lenZ out) Hok (lenZ_nonneg out)) as (Hnd & Hb).
  rewrite <- Hsel in Hnd, Hb.
  assert (lenZ (sel idx (lenZ out)) = lenZ x) as Hlen.
  { rewrite Hsel, lenZ_firstnZ; [lia|]. rewrite lenZ_skipnZ by lia. lia. }
  rewrite (store_chunk_fit _ _ _ idx) in Hst by assumption. injection Hst as <-.
  rewrite (load_chunk_sel _ _ _ _ idx), assign_lenZ by assumption. f_equal.
  apply assign_readback; [exact Hnd|exact Hb|apply Nat2Z.inj, Hlen].
Qed.

End StoreFacts.

(* the write indices of the blocks partition the region's first len(source) positions *)
Theorem block_indices_partition region cs n N :
  region_okb region = true -> 0 <= N -> valid_chunks cs n ->
  exists idxs,
    write_indices region cs = Some idxs /\ length idxs = length cs /\
    concat (map (fun i => sel i N) idxs) = firstnZ n (rsel region N) /\
    NoDup (concat (map (fun i => sel i N) idxs)) /\
    Forall (fun p => 0 <= p < N) (concat (map (fun i => sel i N) idxs)) /\
    (region_fits region n N = true -> map (fun i => lenZ (sel i N)) idxs = cs).
Proof.
  intros Hok HN [Hcs Hsum].
  destruct (write_indices_from region N 0 cs Hok HN ltac:(lia) Hcs) as (idxs & Hw & Hlen & Hsel).
  change (skipnZ 0 ?l) with l in Hsel.
  exists idxs. split; [exact Hw|]. split; [exact Hlen|].
  assert (concat (map (fun i => sel i N) idxs) = firstnZ n (rsel region N)) as Hc
    by (rewrite Hsel, split_chunks_concat, Hsum by assumption; reflexivity).
  split; [exact Hc|]. rewrite Hc.
  destruct (region_piece_facts region 0 n N Hok HN) as (Hnd & Hb).
  split; [exact Hnd|]. split; [exact Hb|].
  intros Hfit. apply region_fits_iff in Hfit.
  rewrite <- (map_map (fun i => sel i N) lenZ), Hsel. apply split_chunks_lens; [assumption|lia].
Qed.

(* fuse_slice declines exactly the regions with a negative field *)
Lemma write_indices_of_declines r off cs :
  0 <= off -> Forall (fun c => 0 <= c) cs ->
  (write_indices_of (Some r) (block_slices_from off cs) = None <-> has_negative r /\ cs <> []).
Proof.
  intros Hoff Hcs. rewrite <- nff_none_iff.
  destruct (normalize_slice_for_fusion r) as [[[a0 ast] k]|] eqn:Er.
  - split; [|intros [H _]; discriminate]. intros H. exfalso. revert off Hoff H.
    induction Hcs as [|c t Hc Ht IH]; intros off Hoff H; [discriminate|].
    cbn [block_slices_from write_indices_of store_index] in H. fold (blk off (off + c)) in H.
    unfold fuse_slice_ss in H. rewrite Er, nff_blk in H by lia.
    destruct (write_indices_of (Some r) (block_slices_from (off + c) t)) eqn:E; [discriminate|].
    apply (IH (off + c)); [lia|exact E].
  - split.
    + intros H. split; [reflexivity|]. intros ->. discriminate H.
    + intros [_ Hne]. destruct cs as [|c t]; [congruence|].
      cbn [block_slices_from write_indices_of store_index]. unfold fuse_slice_ss. rewrite Er. reflexivity.
Qed.

Theorem store_declines_iff r cs n :
  valid_chunks cs n -> (write_indices (Some r) cs = None <-> has_negative r /\ cs <> []).
Proof. intros [Hcs _]. apply write_indices_of_declines; [lia|exact Hcs]. Qed.

Theorem store_axis_declines {V} r cs (src tgt : list V) :
  cs <> [] -> has_negative r -> store_axis (Some r) cs src tgt = SNotImpl.
Proof.
  intros Hne Hneg. destruct cs as [|c t]; [congruence|].
  unfold store_axis, store_tasks, block_slices. cbn [block_slices_from split_chunks combine store_blocks].
  unfold store_chunk. cbn [store_index]. unfold fuse_slice_ss.
  apply nff_none_iff in Hneg. rewrite Hneg. reflexivity.
Qed.

(* a region that designates fewer cells than the source has: the shape check is left to
   the target's __setitem__, which catches it whenever the overflowing block has >= 2
   cells ... *)
Lemma store_blocks_short {V} region off cs (src out : list V) :
  region_okb region = true -> 0 <= off <= lenZ (rsel region (lenZ out)) ->
  Forall (fun c => 2 <= c) cs -> zsum cs <= lenZ src ->
  lenZ (rsel region (lenZ out)) < off + zsum cs ->
  store_blocks region (combine (block_slices_from off cs) (split_chunks cs src)) out = SValueErr.
Proof.
  intros Hok. revert off src out. induction cs as [|c t IH]; intros off src out Hoff Hcs Hsrc Hshort.
  - cbn [zsum] in Hshort. lia.
  - inversion Hcs as [|c0 l0 Hc Ht]; subst.
    assert (0 <= zsum t) as Hz by (apply zsum_nonneg; eapply Forall_impl; [|exact Ht]; cbn beta; intros a Ha; lia).
    cbn [zsum] in Hshort, Hsrc.
    destruct (block_write region (lenZ out) off (off + c) c Hok (lenZ_nonneg out)) as (idx & Hi & Hstep & Hsel); try lia.
    cbn [block_slices_from split_chunks combine store_blocks]. fold (blk off (off + c)).
    assert (lenZ (firstnZ c src) = c) as Hxl by (apply lenZ_firstnZ; lia).
    pose proof (lenZ_skipnZ (rsel region (lenZ out)) off Hoff) as Hrest.
    destruct (Z_le_gt_dec (off + c) (lenZ (rsel region (lenZ out)))) as [Hin|Hout].
    + (* this block fits: it is written and the fold continues *)
      rewrite (store_chunk_fit _ _ _ idx) by (try assumption; rewrite Hsel, lenZ_firstnZ; lia).
      apply IH; try assumption; rewrite ?assign_lenZ, ?lenZ_skipnZ; lia.
    + (* the overflowing block: fewer than c cells selected, c >= 2 values *)
      pose proof (lenZ_firstnZ_le (skipnZ off (rsel region (lenZ out))) c) as Hle.
      rewrite (store_chunk_mismatch _ _ _ idx _ Hi Hstep); [reflexivity | lia | rewrite Hsel; lia].
Qed.

Theorem store_axis_short_raises {V} region cs (src tgt : list V) :
  region_okb region = true -> valid_chunks cs (lenZ src) -> Forall (fun c => 2 <= c) cs ->
  region_fits region (lenZ src) (lenZ tgt) = false ->
  store_axis region cs src tgt = SValueErr.
Proof.
  intros Hok [Hcs Hsum] H2 Hfit. apply Bool.not_true_iff_false in Hfit. rewrite region_fits_iff in Hfit.
  unfold store_axis, store_tasks, block_slices.
  pose proof (lenZ_nonneg (rsel region (lenZ tgt))).
  apply store_blocks_short; try assumption; lia.
Qed.

(* ... and misses it when the overflowing blocks have exactly one cell: NumPy broadcasts a
   length-1 value onto an empty selection. *)
Theorem store_axis_short_silent :
  exists region cs (src tgt tgt' : list Z),
    region_okb region = true /\ valid_chunks cs (lenZ src) /\
    region_fits region (lenZ src) (lenZ tgt) = false /\
    store_axis region cs src tgt = SOk tgt' /\ ~ In 104 tgt' /\ In 104 src.
Proof.
  exists (Some (mkslice (Some 0) (Some 4) None)), [3; 1; 1; 1], [100; 101; 102; 103; 104; 105],
         (repeat (-1) 10), [100; 101; 102; 103; -1; -1; -1; -1; -1; -1].
  split; [reflexivity|]. split; [split; [repeat constructor; lia|reflexivity]|].
  split; [reflexivity|]. split; [vm_compute; reflexivity|].
  split; [|cbn; tauto].
  cbn [In]. intros H. repeat (destruct H as [H|H]; [discriminate|]). exact H.
Qed.

(* N-d: the index tuple of a block is computed axis by axis *)
Lemma fuse_zip_axes rs bss :
  fuse_zip (map ISlice rs) (map ISlice bss) =
  option_map (map ISlice) (store_index_axes (map Some rs) bss).
Proof.
  revert bss. induction rs as [|r rs IH]; intros [|b bss]; try reflexivity.
  cbn [map fuse_zip store_index_axes fuse_elem store_index]. rewrite IH.
  destruct (fuse_slice_ss r b); [|reflexivity]. cbn [option_map].
  destruct (store_index_axes (map Some rs) bss); reflexivity.
Qed.

Theorem store_index_nd_axes rs bss :
  length rs = length bss ->
  store_index_nd (Some (map ISlice rs)) (map ISlice bss) =
  option_map (map ISlice) (store_index_axes (map Some rs) bss).
Proof.
  intros Hlen. destruct rs as [|r rs], bss as [|b bss]; try discriminate; [reflexivity|].
  rewrite <- fuse_zip_axes.
  change (store_index_nd (Some (map ISlice (r :: rs))) (map ISlice (b :: bss)))
    with (fuse_tuple (map ISlice (r :: rs)) (map ISlice (b :: bss))).
  apply fuse_tuple_zip.
  - rewrite !map_length. exact Hlen.
  - apply Forall_forall. intros x Hx. apply in_map_iff in Hx. destruct Hx as (s & <- & _). exists s. reflexivity.
  - apply Forall_forall. intros x Hx. apply in_map_iff in Hx. destruct Hx as (s & <- & _). discriminate.
Qed.

Lemma store_index_axes_none bss : store_index_axes (map (fun _ => None) bss) bss = Some bss.
Proof.
  induction bss as [|b bss IH]; [reflexivity|].
  cbn [map store_index_axes store_index]. rewrite IH. reflexivity.
Qed.

Theorem store_index_nd_none bss :
  store_index_nd None (map ISlice bss) =
  option_map (map ISlice) (store_index_axes (map (fun _ => None) bss) bss).
Proof. rewrite store_index_axes_none. reflexivity. Qed.

Lemma npy_stack_chunks_from_nth i0 axis chunks (j : nat) :
  (j < length chunks)%nat ->
  nth j (npy_stack_chunks_from i0 axis chunks) [] =
  if i0 + Z.of_nat j =? axis then nth j chunks [] else [zsum (nth j chunks [])].
Proof.
  revert i0 j. induction chunks as [|c t IH]; intros i0 j Hj; cbn [length] in Hj; [lia|].
  destruct j as [|j]; cbn [npy_stack_chunks_from nth].
  - replace (i0 + Z.of_nat 0) with i0 by lia. reflexivity.
  - rewrite IH by lia. replace (i0 + 1 + Z.of_nat j) with (i0 + Z.of_nat (S j)) by lia. reflexivity.
Qed.

Theorem npy_stack_chunks_spec axis chunks :
  length (npy_stack_chunks axis chunks) = length chunks /\
  forall j, (j < length chunks)%nat ->
    nth j (npy_stack_chunks axis chunks) [] =
    if Z.of_nat j =? axis then nth j chunks [] else [zsum (nth j chunks [])].
Proof.
  split.
  - unfold npy_stack_chunks. generalize 0. induction chunks as [|c t IH]; intros i0; [reflexivity|].
    cbn [npy_stack_chunks_from length]. rewrite IH. reflexivity.
  - intros j Hj. unfold npy_stack_chunks. rewrite npy_stack_chunks_from_nth by exact Hj. reflexivity.
Qed.

(* every axis keeps its length: the stack layout is a valid layout of the same shape *)
Theorem npy_stack_chunks_valid axis chunks shape :
  Forall2 valid_chunks chunks shape -> Forall2 valid_chunks (npy_stack_chunks axis chunks) shape.
Proof.
  unfold npy_stack_chunks. generalize 0. intros i0 H. revert i0.
  induction H as [|c n chunks shape Hc _ IH]; intros i0; [constructor|].
  cbn [npy_stack_chunks_from]. constructor; [|apply IH].
  destruct (i0 =? axis); [exact Hc|]. destruct Hc as [Hnn Hs].
  split; [|cbn [zsum]; lia]. constructor; [|constructor]. rewrite Hs. subst n. apply zsum_nonneg. exact Hnn.
Qed.

Theorem slice_okb_iff s : slice_okb s = true <-> ~ has_negative s /\ step_of s <> 0.
Proof.
  rewrite <- nff_none_iff. unfold slice_okb.
  destruct (normalize_slice_for_fusion s) as [[[a0 st] k]|] eqn:E.
  - destruct (nff_inv s a0 st k E) as (_ & _ & Hk & _). subst k. split.
    + intros H. split; [discriminate|lia].
    + intros [_ H]. lia.
  - split; [discriminate|]. intros [H _]. congruence.
Qed.

Theorem region_okb_iff region :
  region_okb region = true <-> (forall r, region = Some r -> ~ has_negative r /\ step_of r <> 0).
Proof.
  destruct region as [r|]; cbn [region_okb].
  - rewrite slice_okb_iff. split; [intros H r' Hr; injection Hr as <-; exact H|intros H; apply H; reflexivity].
  - split; [intros _ r Hr; discriminate|reflexivity].
Qed.

(* the product of per-axis partitions is a partition of the product *)
Lemma cart_blocks_perm {A} (Pss : list (list (list A))) :
  Permutation (flat_map cart (cart Pss)) (cart (map (@concat A) Pss)).
Proof.
  induction Pss as [|L T IH]; [cbn; constructor; constructor|].
  cbn [cart map]. rewrite flat_map_flat_map.
  rewrite flat_map_concat_list.
  apply flat_map_perm_ext. intros l.
  rewrite flat_map_map. cbn [cart].
  rewrite (flat_map_swap (fun rest x => map (cons x) (cart rest)) (cart T) l).
  apply flat_map_perm_ext. intros x.
  rewrite <- map_flat_map. apply Permutation_map. exact IH.
Qed.

Lemma NoDup_cart {A} (Ls : list (list A)) : Forall (@NoDup A) Ls -> NoDup (cart Ls).
Proof.
  induction 1 as [|L T HL _ IH]; [cbn; constructor; [intros []|constructor]|].
  cbn [cart]. induction HL as [|x L' Hx _ IHL]; [constructor|].
  cbn [flat_map]. apply NoDup_app_intro.
  - apply NoDup_map_inj; [|exact IH]. intros a b E. injection E as E. exact E.
  - exact IHL.
  - intros p Hp Hq. apply in_map_iff in Hp. destruct Hp as (r & <- & _).
    apply in_flat_map in Hq. destruct Hq as (y & Hy & Hq). apply in_map_iff in Hq.
    destruct Hq as (r' & E & _). injection E as -> _. exact (Hx Hy).
Qed.

(* The N-d argument goes axis by axis: [per_axis] gives every axis its own list of write indices,
   [axis_sels] the positions each of them selects; write_indices_nd is the product of the former
   (write_indices_nd_cart), the blocks' cells the product of the latter (cart_axis_sels). *)
Fixpoint per_axis (regions : list (option pslice)) (chunks : list (list Z)) (idxss : list (list pslice)) : Prop :=
  match regions, chunks, idxss with
  | [], [], [] => True
  | r :: rs, cs :: css, i :: is_ => write_indices r cs = Some i /\ per_axis rs css is_
  | _, _, _ => False
  end.

Fixpoint axis_sels (idxss : list (list pslice)) (Ns : list Z) : list (list (list Z)) :=
  match idxss, Ns with
  | idxs :: t, N :: Ns' => map (fun i => sel i N) idxs :: axis_sels t Ns'
  | _, _ => []
  end.

Lemma all_some_app {A} (l1 l2 : list (option A)) :
  all_some (l1 ++ l2) =
  match all_some l1, all_some l2 with Some a, Some b => Some (a ++ b) | _, _ => None end.
Proof.
  induction l1 as [|[x|] t IH]; cbn [app all_some].
  - destruct (all_some l2); reflexivity.
  - rewrite IH. destruct (all_some t), (all_some l2); reflexivity.
  - reflexivity.
Qed.

Lemma all_some_cons_block r rs b i (C : list (list pslice)) C' :
  store_index r b = Some i -> all_some (map (store_index_axes rs) C) = Some C' ->
  all_some (map (store_index_axes (r :: rs)) (map (cons b) C)) = Some (map (cons i) C').
Proof.
  intros Ei. revert C'. induction C as [|c C IH]; intros C' HC; cbn [map all_some store_index_axes] in *.
  - injection HC as <-. reflexivity.
  - rewrite Ei. destruct (store_index_axes rs c); [|discriminate].
    destruct (all_some (map (store_index_axes rs) C)); [|discriminate].
    injection HC as <-. rewrite (IH _ eq_refl). reflexivity.
Qed.

Lemma all_some_cons_axis r rs (bs : list pslice) idxs (C : list (list pslice)) C' :
  write_indices_of r bs = Some idxs ->
  all_some (map (store_index_axes rs) C) = Some C' ->
  all_some (map (store_index_axes (r :: rs)) (flat_map (fun b => map (cons b) C) bs)) =
  Some (flat_map (fun i => map (cons i) C') idxs).
Proof.
  intros Hw HC. revert idxs Hw. induction bs as [|b t IH]; intros idxs Hw; cbn [write_indices_of] in Hw.
  - injection Hw as <-. reflexivity.
  - destruct (store_index r b) as [i|] eqn:Ei; [|discriminate].
    destruct (write_indices_of r t) as [it|]; [|discriminate]. injection Hw as <-.
    cbn [flat_map]. rewrite map_app, all_some_app, (IH it eq_refl), (all_some_cons_block r rs b i C C' Ei HC).
    reflexivity.
Qed.

Lemma write_indices_nd_cart regions chunks idxss :
  per_axis regions chunks idxss -> write_indices_nd regions chunks = Some (cart idxss).
Proof.
  unfold write_indices_nd. revert chunks idxss.
  induction regions as [|r rs IH]; intros [|cs css] [|i is_] H; cbn [per_axis] in H; try contradiction.
  - reflexivity.
  - destruct H as [Hw Hrest]. cbn [map cart].
    apply all_some_cons_axis; [exact Hw|]. apply IH. exact Hrest.
Qed.

Lemma cart_axis_sels idxss Ns :
  length Ns = length idxss ->
  cart (axis_sels idxss Ns) = map (fun idxs => sels_of idxs Ns) (cart idxss).
Proof.
  revert Ns. induction idxss as [|idxs t IH]; intros [|N Ns'] Hlen; try discriminate; [reflexivity|].
  cbn [axis_sels cart]. rewrite flat_map_map, map_flat_map.
  rewrite IH by (cbn [length] in Hlen; lia). clear Hlen IH.
  induction idxs as [|i it IHi]; [reflexivity|]. cbn [flat_map]. rewrite IHi. f_equal.
  rewrite !map_map. reflexivity.
Qed.

Lemma axes_partition regions chunks ns Ns :
  Forall2 valid_chunks chunks ns -> length regions = length chunks -> length Ns = length chunks ->
  Forall (fun r => region_okb r = true) regions -> Forall (fun N => 0 <= N) Ns ->
  exists idxss,
    per_axis regions chunks idxss /\ length idxss = length chunks /\
    map (@concat Z) (axis_sels idxss Ns) = designated regions ns Ns /\
    Forall (@NoDup Z) (designated regions ns Ns).
Proof.
  intros Hv. revert regions Ns. induction Hv as [|cs n css ns' Hc _ IH]; intros [|r rs] [|N Ns'] Hlr HlN Hok HN;
    try discriminate.
  - exists []. repeat split; constructor.
  - cbn [length] in Hlr, HlN. inversion Hok as [|r0 l0 Hr Hrs]; subst. inversion HN as [|N0 l1 HN0 HNs]; subst.
    destruct (IH rs Ns' ltac:(lia) ltac:(lia) Hrs HNs) as (idxss & Hp & Hl & Hd & Hnd).
    destruct (block_indices_partition r cs n N Hr HN0 Hc) as (idxs & Hw & _ & Hcat & Hndk & _).
    exists (idxs :: idxss). cbn [per_axis length axis_sels map designated].
    split; [split; assumption|]. split; [lia|]. split.
    + f_equal; assumption.
    + constructor; [rewrite <- Hcat; exact Hndk|exact Hnd].
Qed.

Theorem nd_cells_partition regions chunks ns Ns :
  Forall2 valid_chunks chunks ns -> length regions = length chunks -> length Ns = length chunks ->
  Forall (fun r => region_okb r = true) regions -> Forall (fun N => 0 <= N) Ns ->
  exists ws,
    write_indices_nd regions chunks = Some ws /\
    Permutation (flat_map (fun idxs => cart (sels_of idxs Ns)) ws) (cart (designated regions ns Ns)) /\
    NoDup (cart (designated regions ns Ns)).
Proof.
  intros Hv Hlr HlN Hok HN.
  destruct (axes_partition regions chunks ns Ns Hv Hlr HlN Hok HN) as (idxss & Hp & Hl & Hd & Hnd).
  exists (cart idxss). split; [apply write_indices_nd_cart; exact Hp|]. split.
  - rewrite <- Hd. rewrite <- flat_map_map. rewrite <- cart_axis_sels by lia. apply cart_blocks_perm.
  - apply NoDup_cart. exact Hnd.
Qed.
