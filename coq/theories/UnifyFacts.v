(* Proofs about the chunk-unification helpers modelled in Unify.v:
   common_blockdim, coarse_blockdim, moved_fraction and the spec checker
   refines_b.

   Refinement is reasoned about through the CUTS of a layout, cumsum_from acc l
   (all partial sums, the total included): a refinement has every positive cut
   of the coarse layout (refines_b_cuts), and for strictly positive layouts
   inclusion of cuts is the structural relation [splits] (cuts_splits). *)
From DA Require Import PyBase PyBaseFacts Unify.
Open Scope Z_scope.

Definition pos_layout (d : list Z) : Prop := Forall (fun c => 0 < c) d.
Definition nonneg_layout (d : list Z) : Prop := Forall (fun c => 0 <= c) d.
Definition zmax_list (l : list Z) : Z := fold_right Z.max 0 l.

Lemma zlist_eqb_refl a : zlist_eqb a a = true.
Proof. apply zlist_eqb_eq. reflexivity. Qed.

Lemma subset_b_incl a b : subset_b a b = true <-> incl a b.
Proof.
  unfold subset_b, incl. rewrite forallb_forall. split; intros H x Hx.
  - specialize (H x Hx). apply existsb_exists in H. destruct H as [y [Hy Hxy]].
    apply Z.eqb_eq in Hxy. subst y. exact Hy.
  - apply existsb_exists. exists x. split; [apply H; exact Hx | apply Z.eqb_refl].
Qed.

Lemma refines_b_spec fine coarse :
  refines_b fine coarse = true <->
  zsum fine = zsum coarse /\ incl (inner_bounds coarse) (inner_bounds fine).
Proof.
  unfold refines_b. rewrite andb_true_iff, Z.eqb_eq, subset_b_incl. reflexivity.
Qed.

Theorem refines_b_refl d : refines_b d d = true.
Proof. apply refines_b_spec. split; [reflexivity | apply incl_refl]. Qed.

Theorem refines_b_trans a b c :
  refines_b a b = true -> refines_b b c = true -> refines_b a c = true.
Proof.
  rewrite !refines_b_spec. intros [Hab1 Hab2] [Hbc1 Hbc2].
  split; [congruence | eapply incl_tran; eassumption].
Qed.

Lemma zsum_pos l : pos_layout l -> l <> [] -> 0 < zsum l.
Proof.
  intros Hl Hne. destruct Hl as [|x l Hx Hl]; [congruence|].
  cbn [zsum]. pose proof (zsum_nonneg l (Forall_pos_nonneg l Hl)). lia.
Qed.

Lemma zsum_pos_nil l : pos_layout l -> zsum l <= 0 -> l = [].
Proof.
  intros Hl Hs. destruct l as [|x l]; [reflexivity|].
  pose proof (zsum_pos (x :: l) Hl ltac:(discriminate)). lia.
Qed.

Lemma zmax_list_cons x l : zmax_list (x :: l) = Z.max x (zmax_list l).
Proof. reflexivity. Qed.

Lemma cumsum_from_ge acc l z :
  nonneg_layout l -> In z (cumsum_from acc l) -> acc <= z.
Proof.
  intros Hl. revert acc. induction Hl as [|x l Hx Hl IH]; intros acc Hz; cbn [cumsum_from In] in Hz.
  - contradiction.
  - destruct Hz as [Hz|Hz]; [lia|]. apply IH in Hz. lia.
Qed.

Lemma cumsum_from_gt acc l z : pos_layout l -> In z (cumsum_from acc l) -> acc < z.
Proof.
  intros Hl Hz. destruct Hl as [|x l Hx Hl]; cbn [cumsum_from In] in Hz; [contradiction|].
  destruct Hz as [Hz|Hz]; [lia|]. apply cumsum_from_ge in Hz; [lia | apply Forall_pos_nonneg; exact Hl].
Qed.

(* splitting x off the head block y leaves the same later cuts *)
Lemma cumsum_from_split acc x y l :
  cumsum_from (acc + x) ((y - x) :: l) = cumsum_from acc (y :: l).
Proof. cbn [cumsum_from]. replace (acc + x + (y - x)) with (acc + y) by lia. reflexivity. Qed.

(* the inner boundaries of the model, with an explicit offset: all cuts but the total *)
Definition bounds_from (acc : Z) (l : list Z) : list Z := cumsum_from acc (removelast l).

Lemma inner_bounds_from l : inner_bounds l = bounds_from 0 l.
Proof. reflexivity. Qed.

Lemma bounds_from_nil acc : bounds_from acc [] = [].
Proof. reflexivity. Qed.

Lemma bounds_from_single acc x : bounds_from acc [x] = [].
Proof. reflexivity. Qed.

Lemma bounds_from_cons acc x l :
  l <> [] -> bounds_from acc (x :: l) = (acc + x) :: bounds_from (acc + x) l.
Proof. intros Hl. destruct l as [|y l]; [congruence|]. reflexivity. Qed.

Lemma cumsum_from_bounds acc l z :
  In z (cumsum_from acc l) <-> In z (bounds_from acc l) \/ l <> [] /\ z = acc + zsum l.
Proof.
  revert acc. induction l as [|x l IH]; intros acc.
  - split; [intros [] | intros [[]|[H _]]; congruence].
  - cbn [cumsum_from In zsum]. rewrite IH. destruct l as [|y l].
    + cbn [bounds_from removelast cumsum_from In zsum]. intuition (discriminate || lia).
    + rewrite (bounds_from_cons acc x) by discriminate. cbn [In]. intuition (discriminate || lia).
Qed.

Lemma bounds_from_lt acc l z : pos_layout l -> In z (bounds_from acc l) -> z < acc + zsum l.
Proof.
  intros Hl. revert acc. induction Hl as [|x l Hx Hl IH]; intros acc Hz; [contradiction|].
  destruct l as [|y l]; [contradiction|]. rewrite bounds_from_cons in Hz by discriminate.
  pose proof (zsum_pos (y :: l) Hl ltac:(discriminate)) as Hpos. cbn [zsum] in *.
  destruct Hz as [<-|Hz]; [lia|]. apply IH in Hz. cbn [zsum] in Hz. lia.
Qed.

(* refinement in terms of cuts.  With zero-size chunks only the POSITIVE cuts of
   the coarse layout are found again: [] refines [0], whose only cut is 0. *)
Lemma refines_b_cuts fine coarse z :
  refines_b fine coarse = true -> In z (cumsum_from 0 coarse) -> 0 < z -> In z (cumsum_from 0 fine).
Proof.
  intros H Hz Hpos. apply refines_b_spec in H. destruct H as [Hs Hb].
  apply cumsum_from_bounds in Hz. apply cumsum_from_bounds.
  destruct Hz as [Hz|[_ ->]]; [left; apply Hb; exact Hz|].
  right. split; [|lia]. intros ->. cbn [zsum] in Hs. lia.
Qed.

Lemma cuts_refines_b fine coarse :
  pos_layout coarse -> zsum fine = zsum coarse ->
  incl (cumsum_from 0 coarse) (cumsum_from 0 fine) -> refines_b fine coarse = true.
Proof.
  intros Hc Hs Hb. apply refines_b_spec. split; [exact Hs|]. intros z Hz.
  pose proof (bounds_from_lt 0 coarse z Hc Hz) as Hlt.
  assert (In z (cumsum_from 0 fine)) as Hzf by (apply Hb, cumsum_from_bounds; left; exact Hz).
  apply cumsum_from_bounds in Hzf. destruct Hzf as [Hzf|[_ ->]]; [exact Hzf|lia].
Qed.

(* Structural refinement: [coarse] is obtained from [fine] by merging runs of
   consecutive blocks.  Read left to right: either both layouts start with the
   same block, or fine's first block x is a strict initial part of coarse's
   first block y, and the rest of fine refines (y - x) :: rest of coarse. *)
Inductive splits : list Z -> list Z -> Prop :=
| splits_nil : splits [] []
| splits_eq x f c : splits f c -> splits (x :: f) (x :: c)
| splits_lt x y f c : x < y -> splits f ((y - x) :: c) -> splits (x :: f) (y :: c).

Lemma splits_zsum fine coarse : splits fine coarse -> zsum fine = zsum coarse.
Proof. induction 1 as [|x f c H IH|x y f c Hxy H IH]; cbn [zsum] in *; lia. Qed.

Lemma splits_refl d : splits d d.
Proof. induction d as [|x d IH]; constructor; exact IH. Qed.

Lemma splits_cuts fine coarse :
  splits fine coarse -> forall acc, incl (cumsum_from acc coarse) (cumsum_from acc fine).
Proof.
  induction 1 as [|x f c H IH|x y f c Hxy H IH]; intros acc.
  - apply incl_refl.
  - intros z [Hz|Hz]; [left; exact Hz | right; apply IH; exact Hz].
  - rewrite <- (cumsum_from_split acc x y c). apply incl_tl, IH.
Qed.

Lemma splits_refines_b fine coarse :
  pos_layout coarse -> splits fine coarse -> refines_b fine coarse = true.
Proof.
  intros Hc H. apply cuts_refines_b; [exact Hc | apply splits_zsum; exact H | apply splits_cuts; exact H].
Qed.

(* conversely, for strictly positive layouts inclusion of cuts is exactly [splits]:
   compare the head blocks; the shorter one ends at the first cut of both *)
Lemma cuts_splits fine : forall coarse acc,
  pos_layout fine -> pos_layout coarse -> zsum fine = zsum coarse ->
  incl (cumsum_from acc coarse) (cumsum_from acc fine) -> splits fine coarse.
Proof.
  induction fine as [|x f IH]; intros coarse acc Hf Hc Hs Hb.
  - cbn [zsum] in Hs. rewrite (zsum_pos_nil coarse Hc ltac:(lia)). constructor.
  - destruct coarse as [|y c]; [pose proof (zsum_pos _ Hf ltac:(discriminate)); cbn [zsum] in *; lia|].
    inversion Hf as [|x' f' Hx Hf']; subst x' f'. inversion Hc as [|y' c' Hy Hc']; subst y' c'.
    cbn [zsum] in Hs.
    (* a cut of fine after acc + x lies in the tail of fine *)
    assert (forall z, acc + x < z -> In z (cumsum_from acc (y :: c)) -> In z (cumsum_from (acc + x) f)) as Htail.
    { intros z Hgt Hz. destruct (Hb z Hz) as [Hz'|Hz']; [lia|exact Hz']. }
    destruct (Z.lt_trichotomy x y) as [Hlt|[Heq|Hgt]].
    + apply splits_lt; [exact Hlt|].
      apply (IH _ (acc + x) Hf'); [constructor; [lia|exact Hc'] | cbn [zsum]; lia |].
      rewrite cumsum_from_split. intros z Hz. apply Htail; [|exact Hz].
      destruct Hz as [Hz|Hz]; [lia|]. apply cumsum_from_gt in Hz; [lia|exact Hc'].
    + subst y. apply splits_eq. apply (IH c (acc + x) Hf' Hc'); [lia|].
      intros z Hz. apply Htail; [apply (cumsum_from_gt _ c); assumption | right; exact Hz].
    + (* acc + y would be a cut inside fine's head block *)
      exfalso. destruct (Hb (acc + y) (or_introl eq_refl)) as [Hz|Hz]; [lia|].
      apply cumsum_from_gt in Hz; [lia|exact Hf'].
Qed.

Theorem refines_b_splits fine coarse :
  pos_layout fine -> pos_layout coarse ->
  (refines_b fine coarse = true <-> splits fine coarse).
Proof.
  intros Hf Hc. split; [|apply splits_refines_b; exact Hc].
  intros H. apply (cuts_splits fine coarse 0 Hf Hc); [apply refines_b_spec in H; apply H|].
  intros z Hz. apply (refines_b_cuts _ _ _ H Hz). apply (cumsum_from_gt 0 coarse z Hc Hz).
Qed.

Lemma splits_length fine coarse :
  splits fine coarse ->
  (length coarse <= length fine)%nat /\ (length coarse = length fine -> fine = coarse).
Proof.
  induction 1 as [|x f c H IH|x y f c Hxy H IH]; cbn [length] in *.
  - split; [lia | reflexivity].
  - destruct IH as [IH1 IH2]. split; [lia|]. intros E. f_equal. apply IH2. lia.
  - destruct IH as [IH1 _]. split; [lia | intros E; lia].
Qed.

(* a refinement with no more blocks is the same layout *)
Lemma refines_b_short fine coarse :
  pos_layout fine -> pos_layout coarse -> refines_b fine coarse = true ->
  (length fine <= length coarse)%nat -> fine = coarse.
Proof.
  intros Hf Hc H Hlen. apply (refines_b_splits _ _ Hf Hc) in H.
  destruct (splits_length _ _ H) as [Hle Heq]. apply Heq. lia.
Qed.

Lemma splits_zmax fine coarse :
  nonneg_layout fine -> splits fine coarse -> zmax_list fine <= zmax_list coarse.
Proof.
  intros Hf H. induction H as [|x f c H IH|x y f c Hxy H IH].
  - lia.
  - inversion Hf; subst. rewrite !zmax_list_cons. specialize (IH ltac:(assumption)). lia.
  - inversion Hf; subst. rewrite !zmax_list_cons in *. specialize (IH ltac:(assumption)). lia.
Qed.

(* A refinement never has a larger block, zero-size chunks allowed.
   Dropping the empty blocks changes neither the largest block nor the positive
   cuts, and what is left is a [splits]. *)
Definition nz (l : list Z) : list Z := filter (fun c => negb (c =? 0)) l.

Lemma nz_cons c l : nz (c :: l) = if c =? 0 then nz l else c :: nz l.
Proof. unfold nz. cbn [filter]. destruct (c =? 0); reflexivity. Qed.

Lemma nz_pos l : nonneg_layout l -> pos_layout (nz l).
Proof.
  induction 1 as [|c l Hc Hl IH]; [constructor|]. rewrite nz_cons.
  destruct (c =? 0) eqn:E; [exact IH | constructor; [lia|exact IH]].
Qed.

Lemma zsum_nz l : zsum (nz l) = zsum l.
Proof. induction l as [|c l IH]; [reflexivity|]. rewrite nz_cons. destruct (c =? 0) eqn:E; cbn [zsum]; lia. Qed.

Lemma zmax_nz l : zmax_list (nz l) = zmax_list l.
Proof.
  induction l as [|c l IH]; [reflexivity|]. rewrite nz_cons. pose proof (fold_max_nonneg l : 0 <= zmax_list l).
  destruct (c =? 0) eqn:E; rewrite !zmax_list_cons; lia.
Qed.

Lemma cuts_nz acc l z :
  nonneg_layout l -> (In z (cumsum_from acc (nz l)) <-> In z (cumsum_from acc l) /\ acc < z).
Proof.
  intros Hl. revert acc. induction Hl as [|c l Hc Hl IH]; intros acc; [cbn; tauto|].
  rewrite nz_cons. destruct (c =? 0) eqn:E; cbn [cumsum_from In]; rewrite IH.
  - replace (acc + c) with acc by lia. intuition lia.
  - split; [intuition lia|]. intros [[Hz|Hz] Hgt]; [left; exact Hz|].
    pose proof (cumsum_from_ge _ _ _ Hl Hz). destruct (Z.eq_dec (acc + c) z); [left|right]; intuition lia.
Qed.

Theorem refines_b_zmax fine coarse :
  nonneg_layout fine -> nonneg_layout coarse ->
  refines_b fine coarse = true -> zmax_list fine <= zmax_list coarse.
Proof.
  intros Hf Hc H. rewrite <- (zmax_nz fine), <- (zmax_nz coarse).
  apply splits_zmax; [apply Forall_pos_nonneg, nz_pos; exact Hf|].
  apply (cuts_splits _ _ 0 (nz_pos _ Hf) (nz_pos _ Hc)).
  - rewrite !zsum_nz. apply refines_b_spec in H. apply H.
  - intros z Hz. apply (cuts_nz 0 _ z Hc) in Hz. destruct Hz as [Hz Hpos].
    apply (cuts_nz 0 _ z Hf). split; [exact (refines_b_cuts _ _ _ H Hz Hpos) | exact Hpos].
Qed.

Lemma fold_min_spec h t :
  In (fold_right Z.min h t) (h :: t) /\ forall x, In x (h :: t) -> fold_right Z.min h t <= x.
Proof.
  induction t as [|y t [IH1 IH2]]; cbn [fold_right].
  - split; [left; reflexivity | intros x [<-|[]]; lia].
  - pose proof (IH2 h (or_introl eq_refl)). split.
    + destruct (Z.min_spec y (fold_right Z.min h t)) as [[_ ->]|[_ ->]]; [right; left; reflexivity|].
      destruct IH1 as [IH1|IH1]; [left | right; right]; exact IH1.
    + intros x [<-|[<-|Hx]]; [lia | lia | specialize (IH2 x (or_intror Hx)); lia].
Qed.

Lemma heads_min_le rs r : In r rs -> heads_min rs <= hd 0 r.
Proof.
  intros Hr. unfold heads_min. apply (in_map (fun r => hd 0 r)) in Hr.
  destruct (map (fun r => hd 0 r) rs) as [|h t]; [contradiction|]. apply fold_min_spec. exact Hr.
Qed.

Lemma heads_min_in rs : rs <> [] -> exists r, In r rs /\ heads_min rs = hd 0 r.
Proof.
  intros Hne. unfold heads_min.
  destruct (map (fun r => hd 0 r) rs) as [|h t] eqn:E.
  - destruct rs; [congruence|discriminate].
  - pose proof (proj1 (fold_min_spec h t)) as Hin. rewrite <- E in Hin.
    apply in_map_iff in Hin. destruct Hin as [r [Hr1 Hr2]]. exists r. split; [exact Hr2|].
    symmetry. exact Hr1.
Qed.

Lemma walk_down_inv fuel rs i total out :
  walk_down fuel rs i total = Some out ->
  (total <= i /\ out = []) \/
  (i < total /\ (forall r, In r rs -> r <> []) /\ exists f out',
     out = heads_min rs :: out' /\
     walk_down f (map (sub_head (heads_min rs)) rs) (i + heads_min rs) total = Some out').
Proof.
  intros H. destruct fuel as [|f]; cbn [walk_down] in H; destruct (i >=? total) eqn:E.
  - left. split; [lia|congruence].
  - discriminate.
  - left. split; [lia|congruence].
  - right. split; [lia|].
    destruct (existsb _ rs) eqn:Ee; [discriminate|].
    split; [intros r Hr ->; discriminate (existsb_false_In _ _ [] Ee Hr)|].
    destruct (walk_down f _ _ total) as [out'|] eqn:Ew; [|discriminate].
    exists f, out'. split; [cbn [option_map] in H; congruence | exact Ew].
Qed.

Lemma sub_head_inv m r :
  pos_layout r -> r <> [] -> m <= hd 0 r ->
  pos_layout (sub_head m r) /\ zsum (sub_head m r) = zsum r - m.
Proof.
  intros Hr Hne Hm. destruct r as [|c t]; [congruence|].
  inversion Hr as [|c' t' Hc Ht]; subst c' t'. cbn [hd] in Hm. cbn [sub_head zsum].
  destruct (c - m =? 0) eqn:E.
  - split; [exact Ht|lia].
  - split; [constructor; [lia|exact Ht] | cbn [zsum]; lia].
Qed.

Lemma sub_head_splits m out r :
  r <> [] -> m <= hd 0 r -> splits out (sub_head m r) -> splits (m :: out) r.
Proof.
  intros Hne Hm H. destruct r as [|c t]; [congruence|]. cbn [hd] in Hm. cbn [sub_head] in H.
  destruct (c - m =? 0) eqn:E.
  - replace c with m by lia. apply splits_eq. exact H.
  - apply splits_lt; [lia|exact H].
Qed.

Lemma sub_head_cuts m r acc : incl (cumsum_from (acc + m) (sub_head m r)) (cumsum_from acc r).
Proof.
  destruct r as [|c t]; [apply incl_refl|]. cbn [sub_head]. destruct (c - m =? 0) eqn:E.
  - replace (acc + m) with (acc + c) by lia. apply incl_tl, incl_refl.
  - rewrite cumsum_from_split. apply incl_refl.
Qed.

(* state invariant of the loop: strictly positive remaining chunks that all
   sum to the remaining length *)
Definition walk_inv (rs : list (list Z)) (i total : Z) : Prop :=
  forall r, In r rs -> pos_layout r /\ zsum r = total - i.

Lemma walk_inv_step rs i total :
  walk_inv rs i total -> (forall r, In r rs -> r <> []) ->
  walk_inv (map (sub_head (heads_min rs)) rs) (i + heads_min rs) total.
Proof.
  intros Hinv Hne r' Hr'. apply in_map_iff in Hr'. destruct Hr' as [r [<- Hr]].
  destruct (Hinv r Hr) as [Hp Hs].
  destruct (sub_head_inv _ r Hp (Hne r Hr) (heads_min_le rs r Hr)) as [Hp' ->]. split; [exact Hp'|lia].
Qed.

Lemma map_nonempty {A B} (f : A -> B) l : l <> [] -> map f l <> [].
Proof. destruct l; [congruence|discriminate]. Qed.

(* what the loop returns: strictly positive blocks, a split of every operand,
   and no cut that is not a cut of some operand *)
Lemma walk_down_spec out : forall fuel rs i total,
  rs <> [] -> walk_inv rs i total -> walk_down fuel rs i total = Some out ->
  pos_layout out /\ (forall r, In r rs -> splits out r) /\
  forall acc z, In z (cumsum_from acc out) -> exists r, In r rs /\ In z (cumsum_from acc r).
Proof.
  induction out as [|m out IH]; intros fuel rs i total Hne Hinv Hw;
    apply walk_down_inv in Hw; destruct Hw as [[Hi E]|[Hi [Hnn [f [out' [E Hw]]]]]]; try discriminate.
  - split; [constructor|]. split; [|intros acc z []].
    intros r Hr. destruct (Hinv r Hr) as [Hp Hs]. rewrite (zsum_pos_nil r Hp) by lia. constructor.
  - injection E as -> ->.
    destruct (IH _ _ _ _ (map_nonempty _ rs Hne) (walk_inv_step rs i total Hinv Hnn) Hw) as [Hpos [Hsp Hcut]].
    (* the block just emitted is the head of some operand *)
    destruct (heads_min_in rs Hne) as [r0 [Hr0 Hm]]. pose proof (Hnn r0 Hr0) as Hne0.
    destruct r0 as [|c0 t0]; [congruence|]. cbn [hd] in Hm.
    split; [|split].
    + constructor; [|exact Hpos]. destruct (Hinv _ Hr0) as [Hp0 _]. inversion Hp0. lia.
    + intros r Hr. apply sub_head_splits; [apply Hnn; exact Hr | apply heads_min_le; exact Hr |].
      apply Hsp, in_map, Hr.
    + intros acc z [Hz|Hz].
      * exists (c0 :: t0). split; [exact Hr0|]. left. lia.
      * destruct (Hcut _ _ Hz) as [r' [Hr' Hzr']]. apply in_map_iff in Hr'. destruct Hr' as [r [<- Hr]].
        exists r. split; [exact Hr | apply (sub_head_cuts _ _ _ _ Hzr')].
Qed.

(* dedup (here) and odedup (UnknownChunks.v) are the same loop over two equality tests: what is proved of
   it is proved of any dd with these two equations *)
Section Dedup.
Context {A : Type} (eqb : A -> A -> bool) (dd : list A -> list A).
Hypothesis eqb_eq : forall x y, eqb x y = true <-> x = y.
Hypothesis dd_nil : dd [] = [].
Hypothesis dd_cons : forall x t, dd (x :: t) = if existsb (eqb x) t then dd t else x :: dd t.

Lemma existsb_eqb_In x t : existsb (eqb x) t = true <-> In x t.
Proof.
  rewrite existsb_exists. split.
  - intros [y [Hy Hxy]]. apply eqb_eq in Hxy. subst y. exact Hy.
  - intros Hx. exists x. split; [exact Hx|apply eqb_eq; reflexivity].
Qed.

Lemma dedup_eqs_In d l : In d (dd l) <-> In d l.
Proof.
  induction l as [|x t IH]; [rewrite dd_nil; reflexivity|]. rewrite dd_cons.
  destruct (existsb (eqb x) t) eqn:E; cbn [In]; rewrite IH.
  - apply existsb_eqb_In in E. split; [intros H; right; exact H|].
    intros [H|H]; [subst d; exact E|exact H].
  - reflexivity.
Qed.
End Dedup.

Lemma existsb_zlist_eqb x t : existsb (zlist_eqb x) t = true <-> In x t.
Proof. exact (existsb_eqb_In zlist_eqb zlist_eqb_eq x t). Qed.

Lemma dedup_In d l : In d (dedup l) <-> In d l.
Proof. exact (dedup_eqs_In zlist_eqb dedup zlist_eqb_eq eq_refl (fun _ _ => eq_refl) d l). Qed.

Lemma dedup_all_same c l : (forall d, In d l -> d = c) -> In c l -> dedup l = [c].
Proof.
  induction l as [|x t IH]; intros Hall Hin; [contradiction|].
  assert (x = c) as -> by (apply Hall; left; reflexivity).
  cbn [dedup]. destruct (existsb (zlist_eqb c) t) eqn:E.
  - apply existsb_zlist_eqb in E. apply IH; [intros d Hd; apply Hall; right; exact Hd | exact E].
  - destruct t as [|y t']; [reflexivity|].
    assert (y = c) as -> by (apply Hall; right; left; reflexivity).
    cbn [existsb] in E. rewrite zlist_eqb_refl in E. discriminate.
Qed.

Lemma nontrivial_spec d : nontrivial d = true <-> (1 < length d)%nat.
Proof. unfold nontrivial. apply Nat.ltb_lt. Qed.

Lemma nt_In d ds :
  In d (filter nontrivial (dedup ds)) <-> In d ds /\ (1 < length d)%nat.
Proof. rewrite filter_In, dedup_In, nontrivial_spec. reflexivity. Qed.

Lemma fold_best_In {A} (f : A -> A -> bool) t : forall d,
  In (fold_left (fun best x => if f best x then x else best) t d) (d :: t).
Proof.
  induction t as [|y t IH]; intros d; cbn [fold_left].
  - left. reflexivity.
  - specialize (IH (if f d y then y else d)). destruct (f d y).
    + right. exact IH.
    + destruct IH as [IH|IH]; [left; exact IH | right; right; exact IH].
Qed.

Lemma first_by_max_head_In ds : ds <> [] -> In (first_by_max_head ds) ds.
Proof.
  destruct ds as [|d t]; [congruence|]. intros _. unfold first_by_max_head.
  apply (fold_best_In (fun best x => hd 0 best <? hd 0 x)).
Qed.

(* the ways common_blockdim can succeed: every layout empty; at most one distinct
   non-trivial layout, and an operand layout is returned; the walk-down over the
   distinct non-trivial layouts nt *)
Lemma common_blockdim_cases ds r :
  common_blockdim ds = UOk r ->
  (r = [] /\ forall d, In d ds -> d = []) \/
  (In r ds /\ forall d, In d ds -> (1 < length d)%nat -> d = r) \/
  (exists d0 nt, In d0 nt /\ (forall d, In d nt <-> In d ds /\ (1 < length d)%nat) /\
     walk_down (length (concat nt) + 1) nt 0 (zsum d0) = Some r).
Proof.
  unfold common_blockdim.
  destruct (existsb (fun d => match d with [] => false | _ => true end) (dedup ds)) eqn:Eany;
    cbn [negb].
  2:{ intros H. left. split; [congruence|]. intros d Hd. apply dedup_In in Hd.
      pose proof (existsb_false_In _ _ d Eany Hd). destruct d; [reflexivity|discriminate]. }
  pose proof (fun d => nt_In d ds) as Hnt.
  destruct (filter nontrivial (dedup ds)) as [|d0 [|d1 l]].
  - intros H. right. left. injection H as <-. split.
    + apply dedup_In. apply first_by_max_head_In. intros Hnil. rewrite Hnil in Eany. discriminate.
    + intros d Hd Hlen. destruct (proj2 (Hnt d) (conj Hd Hlen)).
  - intros H. right. left. injection H as <-. split.
    + apply Hnt. left. reflexivity.
    + intros d Hd Hlen. destruct (proj2 (Hnt d) (conj Hd Hlen)) as [<-|[]]. reflexivity.
  - destruct (forallb (fun x => zsum x =? zsum d0) (d0 :: d1 :: l)); cbn [negb]; [|discriminate].
    destruct (walk_down _ (d0 :: d1 :: l) 0 (zsum d0)) as [out|] eqn:Ew; [|discriminate].
    intros H. right. right. exists d0, (d0 :: d1 :: l). split; [left; reflexivity|].
    split; [exact Hnt | congruence].
Qed.

Lemma refines_b_trivial r d :
  (length d <= 1)%nat -> zsum r = zsum d -> refines_b r d = true.
Proof.
  intros Hl Hs. apply refines_b_spec. split; [exact Hs|].
  destruct d as [|x [|y d']]; [intros z [] | intros z [] | cbn [length] in Hl; lia].
Qed.

Lemma common_blockdim_spec ds n r :
  Forall pos_layout ds -> (forall d, In d ds -> zsum d = n) -> common_blockdim ds = UOk r ->
  pos_layout r /\ (ds <> [] -> zsum r = n) /\
  (forall d, In d ds -> (1 < length d)%nat -> splits r d) /\
  (forall z, In z (cumsum_from 0 r) -> exists d, In d ds /\ In z (cumsum_from 0 d)).
Proof.
  intros Hp Hs H. pose proof (proj1 (Forall_forall _ _) Hp) as Hp'.
  destruct (common_blockdim_cases ds r H) as [[-> Hnil]|[[Hr Hall]|[d0 [nt [Hd0 [Hnt Hw]]]]]].
  - split; [constructor|]. split; [|split; [|intros z []]].
    + destruct ds as [|d t]; [congruence|]. intros _.
      rewrite <- (Hs d (or_introl eq_refl)), (Hnil d (or_introl eq_refl)). reflexivity.
    + intros d Hd Hlen. rewrite (Hnil d Hd) in Hlen. cbn [length] in Hlen. lia.
  - split; [apply Hp'; exact Hr|]. split; [intros _; apply Hs; exact Hr|]. split.
    + intros d Hd Hlen. rewrite (Hall d Hd Hlen). apply splits_refl.
    + intros z Hz. exists r. split; assumption.
  - assert (zsum d0 = n) as Hn by (apply Hs, Hnt, Hd0). rewrite Hn in Hw.
    assert (walk_inv nt 0 n) as Hinv.
    { intros d Hd. apply Hnt in Hd. split; [apply Hp', Hd | rewrite (Hs d (proj1 Hd)); lia]. }
    destruct (walk_down_spec _ _ nt _ _ ltac:(intros ->; contradiction) Hinv Hw) as [Hpos [Hsp Hcut]].
    split; [exact Hpos|]. split; [intros _; rewrite <- Hn; apply splits_zsum, Hsp, Hd0|]. split.
    + intros d Hd Hlen. apply Hsp, Hnt. split; assumption.
    + intros z Hz. destruct (Hcut _ _ Hz) as [d [Hd Hzd]]. exists d. split; [apply Hnt; exact Hd | exact Hzd].
Qed.

(* the common block layout only SPLITS every operand layout ... *)
Theorem common_blockdim_refines ds n r :
  Forall pos_layout ds -> (forall d, In d ds -> zsum d = n) ->
  common_blockdim ds = UOk r ->
  forall d, In d ds -> refines_b r d = true.
Proof.
  intros Hp Hs H d Hd. destruct (common_blockdim_spec ds n r Hp Hs H) as [_ [Hsum [Hsp _]]].
  destruct (le_lt_dec (length d) 1) as [Htriv|Hnt].
  - apply refines_b_trivial; [exact Htriv|]. rewrite (Hs d Hd). apply Hsum. intros ->. contradiction.
  - apply splits_refines_b; [apply (proj1 (Forall_forall _ _) Hp d Hd) | apply Hsp; assumption].
Qed.

(* ... and is the FINEST common refinement: it has no boundary that no operand has *)
Theorem common_blockdim_finest ds n r :
  Forall pos_layout ds -> (forall d, In d ds -> zsum d = n) ->
  common_blockdim ds = UOk r ->
  pos_layout r /\
  (ds <> [] -> zsum r = n) /\
  (forall z, In z (inner_bounds r) <-> exists d, In d ds /\ In z (inner_bounds d)).
Proof.
  intros Hp Hs H. destruct (common_blockdim_spec ds n r Hp Hs H) as [Hr [Hsum [_ Hcut]]].
  split; [exact Hr|]. split; [exact Hsum|]. intros z. split.
  - intros Hz. pose proof (bounds_from_lt 0 r z Hr Hz) as Hlt.
    destruct (Hcut z) as [d [Hd Hzd]]; [apply cumsum_from_bounds; left; exact Hz|].
    exists d. split; [exact Hd|]. apply cumsum_from_bounds in Hzd. destruct Hzd as [Hzd|[_ ->]]; [exact Hzd|].
    rewrite (Hs d Hd), <- Hsum in Hlt; [lia | intros ->; contradiction].
  - intros [d [Hd Hz]]. pose proof (common_blockdim_refines ds n r Hp Hs H d Hd) as Hr'.
    apply refines_b_spec in Hr'. apply Hr'. exact Hz.
Qed.

(* the best overlap only grows, and never beyond the destination block *)
Lemma mf_inner_best fuel : forall src ss ds de best,
  best <= snd (mf_inner fuel src ss ds de best) <= Z.max best (de - ds).
Proof.
  induction fuel as [|f IH]; intros src ss ds de best; cbn [mf_inner]; [cbn [snd]; lia|].
  destruct src as [|c t]; [cbn [snd]; lia|].
  set (best1 := if _ >? best then _ else best).
  assert (best <= best1 <= Z.max best (de - ds)) as Hb1 by (unfold best1; destruct (_ >? _) eqn:E; lia).
  destruct t as [|c1 t1]; [exact Hb1|]. destruct (ss + c <=? de); [|exact Hb1].
  specialize (IH (c1 :: t1) (ss + c) ds de best1). lia.
Qed.

Lemma mf_outer_range dst : forall src ss ds moved,
  nonneg_layout dst ->
  moved <= mf_outer src ss ds dst moved <= moved + zsum dst.
Proof.
  induction dst as [|target dst' IH]; intros src ss ds moved Hd; cbn [mf_outer zsum]; [lia|].
  inversion Hd as [|t' d' Ht Hd']; subst t' d'.
  pose proof (mf_inner_best (S (length src)) src ss ds (ds + target) 0) as Hb.
  destruct (mf_inner (S (length src)) src ss ds (ds + target) 0) as [[src' ss'] best]. cbn [snd] in Hb.
  specialize (IH src' ss' (ds + target) (moved + (target - best)) Hd'). lia.
Qed.

Theorem moved_fraction_range src dst n m :
  nonneg_layout dst -> moved_fraction src dst = (n, m) ->
  0 <= n /\ n <= m /\ (0 < m \/ (n = 0 /\ m = 1)).
Proof.
  intros Hd. unfold moved_fraction.
  destruct ((zsum src =? 0) || zlist_eqb src dst) eqn:E1; [intros H; injection H as <- <-; lia|].
  destruct (negb (zsum dst =? zsum src)) eqn:E2; [intros H; injection H as <- <-; lia|].
  intros H. injection H as <- <-.
  pose proof (mf_outer_range dst src 0 0 0 Hd) as Hr.
  apply orb_false_iff in E1. destruct E1 as [E1 _]. lia.
Qed.

Theorem moved_fraction_same s : moved_fraction s s = (0, 1).
Proof. unfold moved_fraction. rewrite zlist_eqb_refl, orb_true_r. reflexivity. Qed.

(* Pure splits move nothing, zero-size chunks allowed.

   The scan of one destination block [ds, de) starts at a source block that
   begins at or before ds and stops at one that begins at or before de; the
   remaining source is a suffix of the one it was given. *)
Lemma mf_inner_scan fuel : forall src ss ds de best, nonneg_layout src -> ss <= de ->
  let '(src', ss', _) := mf_inner fuel src ss ds de best in
  ss' <= de /\ nonneg_layout src' /\ ss' + zsum src' = ss + zsum src /\
  incl (cumsum_from ss' src') (cumsum_from ss src).
Proof.
  (* wherever the scan stops without moving, the four clauses hold of src and ss themselves *)
  assert (forall src ss de, nonneg_layout src -> ss <= de ->
            ss <= de /\ nonneg_layout src /\ ss + zsum src = ss + zsum src /\
            incl (cumsum_from ss src) (cumsum_from ss src)) as Hstay
    by (intros; repeat split; (assumption || apply incl_refl)).
  induction fuel as [|f IH]; intros src ss ds de best Hsrc Hle; cbn [mf_inner]; [apply Hstay; assumption|].
  destruct src as [|c [|c1 t1]]; [apply Hstay; assumption..|].
  destruct (ss + c <=? de) eqn:E; [|apply Hstay; assumption].
  (* the block ends at or before de: the scan steps over it *)
  set (best1 := if _ >? best then _ else best).
  inversion Hsrc as [|c' t' Hc Ht]; subst c' t'. specialize (IH (c1 :: t1) (ss + c) ds de best1 Ht ltac:(lia)).
  destruct (mf_inner f (c1 :: t1) (ss + c) ds de best1) as [[src' ss'] best'].
  destruct IH as [H1 [H2 [H3 H4]]]. repeat split; [exact H1 | exact H2 | cbn [zsum] in *; lia | apply incl_tl; exact H4].
Qed.

(* If no source cut lies strictly inside the destination block, the scan meets the
   source block that covers all of it: blocks ending at or before ds are passed
   over, and the first one ending after ds ends at or after de. *)
Lemma mf_inner_hit fuel : forall src ss ds de best,
  (length src < fuel)%nat -> nonneg_layout src -> ss <= ds -> ds < de -> de <= ss + zsum src ->
  (forall z, In z (cumsum_from ss src) -> ds < z -> de <= z) ->
  de - ds <= snd (mf_inner fuel src ss ds de best).
Proof.
  induction fuel as [|f IH]; intros src ss ds de best Hlen Hsrc Hss Hlt Htot Hcut; [lia|].
  destruct src as [|c t]; [cbn [zsum] in Htot; lia|].
  inversion Hsrc as [|c' t' Hc Ht]; subst c' t'. cbn [length zsum] in *. cbn [mf_inner].
  set (best1 := if _ >? best then _ else best).
  destruct (Z_le_gt_dec (ss + c) ds) as [Hend|Hend].
  - destruct t as [|c1 t1]; [cbn [zsum] in Htot; lia|].
    replace (ss + c <=? de) with true by lia.
    apply IH; [cbn [length] in *; lia | exact Ht | exact Hend | exact Hlt | lia |].
    intros z Hz. apply Hcut. right. exact Hz.
  - pose proof (Hcut (ss + c) (or_introl eq_refl) ltac:(lia)) as Hcover.
    assert (de - ds <= best1) as Hb1 by (unfold best1; destruct (_ >? _) eqn:E; lia).
    destruct t as [|c1 t1]; [exact Hb1|]. destruct (ss + c <=? de); [|exact Hb1].
    pose proof (mf_inner_best f (c1 :: t1) (ss + c) ds de best1). lia.
Qed.

(* invariant of the outer loop: the scan pointer has not passed the destination
   offset, and every source cut after that offset is a destination cut *)
Lemma mf_outer_refined dst : forall src ss ds moved,
  nonneg_layout src -> nonneg_layout dst -> ss <= ds -> ss + zsum src = ds + zsum dst ->
  (forall z, In z (cumsum_from ss src) -> ds < z -> In z (cumsum_from ds dst)) ->
  mf_outer src ss ds dst moved = moved.
Proof.
  induction dst as [|target dst' IH]; intros src ss ds moved Hsrc Hdst Hss Htot Hcut; [reflexivity|].
  inversion Hdst as [|x' d' Htarget Hdst']; subst x' d'.
  pose proof (zsum_nonneg dst' Hdst') as Hsd. cbn [zsum cumsum_from In] in *. cbn [mf_outer].
  pose proof (mf_inner_best (S (length src)) src ss ds (ds + target) 0) as Hub.
  pose proof (mf_inner_scan (S (length src)) src ss ds (ds + target) 0 Hsrc ltac:(lia)) as Hscan.
  assert (target <> 0 -> ds + target - ds <= snd (mf_inner (S (length src)) src ss ds (ds + target) 0)) as Hlb.
  { intros Hz. apply mf_inner_hit; try (assumption || lia).
    intros z Hz1 Hz2. destruct (Hcut z Hz1 Hz2) as [Hz3|Hz3]; [lia|].
    apply cumsum_from_ge in Hz3; assumption. }
  destruct (mf_inner (S (length src)) src ss ds (ds + target) 0) as [[src' ss'] best].
  cbn [snd] in Hub, Hlb. destruct Hscan as [Hss' [Hsrc' [Htot' Hincl]]].
  assert (best = target) as -> by (destruct (Z.eq_dec target 0); [lia | specialize (Hlb ltac:(assumption)); lia]).
  rewrite (IH src' ss' (ds + target)); [lia | exact Hsrc' | exact Hdst' | exact Hss' | lia |].
  intros z Hz1 Hz2. destruct (Hcut z (Hincl z Hz1) ltac:(lia)) as [Hz3|Hz3]; [lia|exact Hz3].
Qed.

Theorem moved_fraction_split_free_nonneg src dst :
  nonneg_layout src -> nonneg_layout dst -> refines_b dst src = true ->
  fst (moved_fraction src dst) = 0.
Proof.
  intros Hsrc Hdst H. unfold moved_fraction.
  destruct ((zsum src =? 0) || zlist_eqb src dst) eqn:E1; [reflexivity|].
  destruct (negb (zsum dst =? zsum src)) eqn:E2; [reflexivity|].
  cbn [fst]. apply mf_outer_refined; [exact Hsrc | exact Hdst | lia | lia |].
  intros z Hz Hpos. exact (refines_b_cuts _ _ _ H Hz Hpos).
Qed.

Theorem moved_fraction_split_free src dst :
  pos_layout src -> pos_layout dst -> refines_b dst src = true ->
  fst (moved_fraction src dst) = 0.
Proof. intros Hsrc Hdst. apply moved_fraction_split_free_nonneg; apply Forall_pos_nonneg; assumption. Qed.

(* coarse_blockdim, for every tie-break oracle [pick].  No hypothesis on
   the layouts is needed (the model itself checks the sums). *)
Theorem coarse_blockdim_spec_gen pick ds r :
  coarse_blockdim pick ds = UOk r ->
  common_blockdim ds = UOk r \/
  (In r ds /\ (1 < length r)%nat /\
   forall d, In d ds -> (1 < length d)%nat -> refines_b d r = true).
Proof.
  unfold coarse_blockdim, common_blockdim. pose proof (fun d => nt_In d ds) as Hnt.
  destruct (existsb (fun d => match d with [] => false | _ => true end) (dedup ds));
    cbn [negb]; [|intros H; left; exact H].
  destruct (filter nontrivial (dedup ds)) as [|d0 [|d1 l]]; [intros H; left; exact H ..|].
  set (nt := d0 :: d1 :: l) in *.
  destruct (forallb (fun x => zsum x =? zsum d0) nt) eqn:Eall; cbn [negb]; [|discriminate].
  set (cands := filter _ nt). set (coarsest := nth pick cands d0).
  destruct (forallb (fun x => subset_b (inner_bounds coarsest) (inner_bounds x)) nt) eqn:Esub;
    [|intros H; left; exact H].
  intros H. injection H as <-. right.
  assert (In coarsest nt) as Hin.
  { unfold coarsest. destruct (nth_in_or_default pick cands d0) as [Hc| ->]; [|left; reflexivity].
    apply filter_In in Hc. apply Hc. }
  rewrite forallb_forall in Eall, Esub.
  split; [apply Hnt; exact Hin|]. split; [apply Hnt; exact Hin|].
  intros d Hd Hlen. assert (In d nt) as Hd' by (apply Hnt; split; assumption).
  unfold refines_b. rewrite (Esub d Hd'), andb_true_r.
  pose proof (Eall d Hd'). pose proof (Eall coarsest Hin). lia.
Qed.

Corollary coarse_blockdim_spec pick ds n r :
  Forall pos_layout ds -> (forall d, In d ds -> zsum d = n) ->
  coarse_blockdim pick ds = UOk r ->
  common_blockdim ds = UOk r \/
  (In r ds /\ forall d, In d ds -> (1 < length d)%nat -> refines_b d r = true).
Proof.
  intros _ _ H. destruct (coarse_blockdim_spec_gen pick ds r H) as [Hc|[Hr [_ Hall]]];
    [left; exact Hc | right; split; assumption].
Qed.

(* the single-chunk operands are (trivially) refined by whatever coarse_blockdim picks *)
Corollary coarse_blockdim_trivial pick ds n r :
  Forall pos_layout ds -> (forall d, In d ds -> zsum d = n) ->
  coarse_blockdim pick ds = UOk r ->
  forall d, In d ds -> (length d <= 1)%nat -> refines_b r d = true.
Proof.
  intros Hp Hs H d Hd Hlen.
  destruct (coarse_blockdim_spec_gen pick ds r H) as [Hc|[Hr _]].
  - apply (common_blockdim_refines ds n r Hp Hs Hc d Hd).
  - apply refines_b_trivial; [exact Hlen|]. rewrite (Hs r Hr), (Hs d Hd). reflexivity.
Qed.

(* the 'refine' policy never grows a block *)
Corollary common_blockdim_no_growth ds n r :
  Forall pos_layout ds -> (forall d, In d ds -> zsum d = n) ->
  common_blockdim ds = UOk r ->
  forall d, In d ds -> zmax_list r <= zmax_list d.
Proof.
  intros Hp Hs H d Hd. destruct (common_blockdim_finest ds n r Hp Hs H) as [Hr _].
  apply refines_b_zmax; [apply Forall_pos_nonneg; exact Hr | | apply (common_blockdim_refines ds n r Hp Hs H d Hd)].
  apply Forall_pos_nonneg. rewrite Forall_forall in Hp. apply Hp. exact Hd.
Qed.

Example common_blockdim_refines_ex :
  common_blockdim [[5;2];[4;3];[7]] = UOk [4;1;2] /\
  forall d, In d [[5;2];[4;3];[7]] -> refines_b [4;1;2] d = true.
Proof.
  split; [vm_compute; reflexivity|].
  apply (common_blockdim_refines [[5;2];[4;3];[7]] 7).
  - repeat constructor.
  - intros d [<-|[<-|[<-|[]]]]; reflexivity.
  - vm_compute. reflexivity.
Qed.

Example common_blockdim_finest_ex :
  pos_layout [2;1;1;2] /\ ([[2;2;2];[3;3]] <> [] -> zsum [2;1;1;2] = 6) /\
  forall z, In z (inner_bounds [2;1;1;2]) <->
            exists d, In d [[2;2;2];[3;3]] /\ In z (inner_bounds d).
Proof.
  apply (common_blockdim_finest [[2;2;2];[3;3]] 6).
  - repeat constructor.
  - intros d [<-|[<-|[]]]; reflexivity.
  - vm_compute. reflexivity.
Qed.

(* common_blockdim_refines does NOT extend to zero-size chunks: the walk-down output [0;5] is not a
   refinement of the operand [5;0] (boundary 5 is not an inner boundary of
   [0;5]). *)
Example common_blockdim_zero_chunk_counterexample :
  Forall nonneg_layout [[0;5];[5;0]] /\
  (forall d, In d [[0;5];[5;0]] -> zsum d = 5) /\
  common_blockdim [[0;5];[5;0]] = UOk [0;5] /\
  refines_b [0;5] [5;0] = false.
Proof.
  split; [repeat constructor; lia|].
  split; [intros d [<-|[<-|[]]]; reflexivity|].
  split; vm_compute; reflexivity.
Qed.

Example coarse_blockdim_spec_ex_coarse :
  coarse_blockdim 0 [[12;12];[6;6;6;6];[24]] = UOk [12;12] /\
  (In [12;12] [[12;12];[6;6;6;6];[24]] /\
   forall d, In d [[12;12];[6;6;6;6];[24]] -> (1 < length d)%nat -> refines_b d [12;12] = true).
Proof.
  split; [vm_compute; reflexivity|].
  destruct (coarse_blockdim_spec 0 [[12;12];[6;6;6;6];[24]] 24 [12;12]) as [H|H].
  - repeat constructor.
  - intros d [<-|[<-|[<-|[]]]]; reflexivity.
  - vm_compute. reflexivity.
  - vm_compute in H. discriminate.
  - exact H.
Qed.

Example coarse_blockdim_spec_ex_fallback :
  coarse_blockdim 1 [[4;6];[6;4]] = UOk [4;2;4] /\ common_blockdim [[4;6];[6;4]] = UOk [4;2;4].
Proof. split; vm_compute; reflexivity. Qed.

Example refines_b_zmax_ex :
  refines_b [4;1;2] [5;2] = true /\ zmax_list [4;1;2] <= zmax_list [5;2].
Proof.
  split; [vm_compute; reflexivity|].
  apply refines_b_zmax; [repeat constructor; lia | repeat constructor; lia | vm_compute; reflexivity].
Qed.

Example refines_b_zmax_zero_ex :
  refines_b [0;4;0;1;2] [5;0;2] = true /\ zmax_list [0;4;0;1;2] <= zmax_list [5;0;2].
Proof.
  split; [vm_compute; reflexivity|].
  apply refines_b_zmax; [repeat constructor; lia | repeat constructor; lia | vm_compute; reflexivity].
Qed.

Example moved_fraction_range_ex :
  moved_fraction [100;100;100;100] [50;100;100;100;50] = (150, 400) /\
  0 <= 150 /\ 150 <= 400 /\ (0 < 400 \/ (150 = 0 /\ 400 = 1)).
Proof.
  split; [vm_compute; reflexivity|].
  apply (moved_fraction_range [100;100;100;100] [50;100;100;100;50]);
    [repeat constructor; lia | vm_compute; reflexivity].
Qed.

Example moved_fraction_split_free_ex :
  moved_fraction [30;30] [10;10;10;10;10;10] = (0, 60) /\
  fst (moved_fraction [30;30] [10;10;10;10;10;10]) = 0.
Proof.
  split; [vm_compute; reflexivity|].
  apply moved_fraction_split_free; [repeat constructor | repeat constructor | vm_compute; reflexivity].
Qed.

Example moved_fraction_split_free_zero_ex :
  moved_fraction [5;0;4] [2;0;3;0;4] = (0, 9) /\
  fst (moved_fraction [5;0;4] [2;0;3;0;4]) = 0.
Proof.
  split; [vm_compute; reflexivity|].
  apply moved_fraction_split_free_nonneg;
    [repeat constructor; lia | repeat constructor; lia | vm_compute; reflexivity].
Qed.

Print Assumptions common_blockdim_refines.
Print Assumptions common_blockdim_finest.
Print Assumptions common_blockdim_no_growth.
Print Assumptions coarse_blockdim_spec_gen.
Print Assumptions coarse_blockdim_spec.
Print Assumptions coarse_blockdim_trivial.
Print Assumptions refines_b_refl.
Print Assumptions refines_b_trans.
Print Assumptions refines_b_zmax.
Print Assumptions refines_b_splits.
Print Assumptions moved_fraction_range.
Print Assumptions moved_fraction_same.
Print Assumptions moved_fraction_split_free.
Print Assumptions moved_fraction_split_free_nonneg.
Print Assumptions common_blockdim_zero_chunk_counterexample.
