(* auto_chunks' previous_chunks branch (AutoPrev.v):
   WHICH INPUTS ARE SAFE.  The only way the loop can fail to end is a NaN proposal (AutoPrevTerm), and the
   implementation's `multiplier ** (1/n)` is NaN only for a negative multiplier.  Here: on well-formed inputs

       itemsize > 0,  the product of the explicit entries (largest_block) > 0,
       shape >= 0,  previous chunks >= 0,

   the exact multiplier of EVERY pass is a positive number, whatever numbers the oracle supplies
   (prev_mults_positive).  So a negative explicit entry / negative previous chunks are the only sources of the
   NaN that makes `while multiplier_remaining` spin (normalize_prev_negative_entry_never_returns). *)
From DA Require Import PyBase PyBaseFacts NormChunks NormChunksFacts AutoPrev AutoPrevFacts AutoPrevTerm AutoPrevTerm2 AutoPrevBound.
Open Scope Z_scope.

Definition mult_pos (m : fval) : Prop := exists n d, m = FQ n d /\ 0 < n /\ 0 < d.

(* a dict entry that contributes a non-negative factor *)
Definition dv_nonneg (v : dv) : Prop :=
  match v with
  | VNum (FQ n d) => 0 <= n /\ 0 < d
  | VNum FNan => False
  | VTup l => 0 <= max_of l
  end.
Definition med_nonneg (x : axst) : Prop := match ax_med x with Some v => dv_nonneg v | None => True end.

Lemma med_prod_nonneg xs : Forall med_nonneg xs ->
  exists pn pd, med_prod (map ax_med xs) = FQ pn pd /\ 0 <= pn /\ 0 < pd.
Proof.
  induction 1 as [|x xs Hx _ (pn & pd & IH & Hn & Hd)]; cbn [map].
  - exists 1, 1. cbn. repeat split; lia.
  - rewrite med_prod_cons. unfold med_nonneg in Hx.
    destruct (ax_med x) as [[[|n d]|l]|]; cbn [dv_nonneg] in Hx.
    + destruct Hx.
    + cbn [dv_factor]. destruct (n =? 0) eqn:E; [eauto|].
      rewrite IH. cbn [fmul]. exists (n * pn), (d * pd). repeat split; nia.
    + destruct l as [|y l]; cbn [dv_factor]; [eauto|].
      rewrite IH. cbn [fmul]. exists (max_of (y :: l) * pn), (1 * pd). repeat split; nia.
    + eauto.
Qed.

Lemma compute_multiplier_pos limit itemsize lb xs m :
  0 < limit -> 0 < itemsize -> 0 < lb -> Forall med_nonneg xs ->
  compute_multiplier limit itemsize lb (map ax_med xs) = Ok m -> mult_pos m.
Proof.
  intros Hl Hi Hlb HF. unfold compute_multiplier.
  destruct (med_prod_nonneg xs HF) as (pn & pd & -> & Hn & Hd).
  destruct ((itemsize =? 0) || (lb =? 0)); [discriminate|].
  destruct (pn =? 0) eqn:E; [discriminate|]. intros H. injection H as <-.
  unfold mkq. assert (0 < itemsize * lb * pn) by nia.
  destruct (itemsize * lb * pn <? 0) eqn:En; [lia|].
  exists (limit * pd), (itemsize * lb * pn). repeat split; nia.
Qed.

Lemma axis_step_nonneg reduce c o x x' f k :
  axis_step reduce c o x = (x', f, k) -> wf_c c -> fwf (fst o) = true -> med_nonneg x -> med_nonneg x'.
Proof.
  destruct o as [[|n d] mcs]; [discriminate|]. cbn [fst fwf]. intros H [Hc Hn] Hd Hx.
  unfold axis_step in H. destruct (f_gt_z (FQ n d) (c_n c)) eqn:Eg.
  - injection H as <- _ _. unfold med_nonneg. destruct reduce; cbn; [lia|exact I].
  - cbn [f_gt_z] in Eg.
    destruct (round_to_f_pos n d (c_ideal c) (c_n c)) as (r & Hr & Hr1 & _); [lia|lia|exact Hc|].
    rewrite Hr in H. unfold med_nonneg, set_res in *.
    destruct (reduce || z_gt_f (max_of (c_pv c)) mcs); [destruct (f_lt_z (FQ n d) 1)|];
      injection H as <- _ _; destruct reduce; cbn [ax_med dv_nonneg]; try exact Hx; try lia.
    apply max_of_nonneg, merge_prev_pos.
Qed.

Lemma round_rel_nonneg reduce o a cs xs xs' f k :
  round_rel reduce o a cs xs xs' f k ->
  Forall wf_c cs -> owf a o xs = true -> Forall med_nonneg xs -> Forall med_nonneg xs'.
Proof.
  round_rel_induction; intros Hc Ho HF.
  - exact HF.
  - inversion_clear Hc as [|? ? _ Hc2]. inversion_clear HF as [|? ? Hx HF2].
    cbn [owf] in Ho. rewrite Ea in Ho. constructor; [exact Hx|exact (IH Hc2 Ho HF2)].
  - inversion_clear Hc as [|? ? Hc1 Hc2]. inversion_clear HF as [|? ? Hx HF2].
    cbn [owf] in Ho. rewrite Ea in Ho. apply andb_true_iff in Ho as [Ho1 Ho2]. apply andb_true_iff in Ho1 as [Hp _].
    constructor; [eapply axis_step_nonneg; eassumption|exact (IH Hc2 Ho2 HF2)].
Qed.

Lemma owf_all o : (forall a, fwf (fst (o a)) && fwf (snd (o a)) = true) -> forall xs a, owf a o xs = true.
Proof.
  intros Ho. induction xs as [|x xs IH]; intros a; cbn [owf]; [reflexivity|].
  rewrite IH, andb_true_r. destruct (ax_auto x); [apply Ho|reflexivity].
Qed.

Lemma mult_trace_pos reduce limit itemsize cs orc :
  0 < limit -> 0 < itemsize -> Forall wf_c cs ->
  (forall r a, fwf (fst (orc r a)) && fwf (snd (orc r a)) = true) ->
  forall fuel r st,
    length cs = length (ls_axes st) -> 0 < ls_lb st -> Forall med_nonneg (ls_axes st) -> mult_pos (ls_mult st) ->
    Forall mult_pos (mult_trace fuel reduce limit itemsize cs orc r st).
Proof.
  intros Hlim Hi Hc Ho. induction fuel as [|f IH]; intros r st Hl Hlb HF Hm; cbn [mult_trace]; constructor; [exact Hm|].
  destruct (prev_round reduce limit itemsize cs (orc r) st) as [[st1 [|]]|] eqn:Hr; try constructor.
  pose proof (owf_all (orc r) (Ho r)) as Howf.
  destruct (prev_round_inv _ _ _ _ _ _ _ _ Hr Hl) as (fl & k & Hrel & Hlb1 & Hm1).
  pose proof (round_rel_nonneg _ _ _ _ _ _ _ _ Hrel Hc (Howf _ _) HF) as HF'.
  pose proof (round_rel_length _ _ _ _ _ _ _ _ Hrel) as Hlen.
  destruct (round_rel_blk _ _ _ _ _ _ _ _ Hrel Hc (Howf _ _)) as (_ & Hk & _).
  (* another pass was asked for, so the multiplier was recomputed: largest_block is not 0 *)
  destruct (reduce || fl); [destruct Hm1 as [Hcm _]|destruct Hm1; discriminate].
  assert (0 < ls_lb st1) as Hlb'.
  { destruct (Z.eq_dec k 0) as [->|]; [|nia]. unfold compute_multiplier in Hcm.
    rewrite Hlb1, Z.mul_0_r, orb_true_r in Hcm. discriminate. }
  apply IH; [lia|exact Hlb'|exact HF'|].
  eapply compute_multiplier_pos; [exact Hlim|exact Hi|exact Hlb'|exact HF'|exact Hcm].
Qed.

Lemma insert_z_Forall (P : Z -> Prop) x l : P x -> Forall P l -> Forall P (insert_z x l).
Proof.
  intros Hx H. induction H as [|y l Hy Hl IH]; cbn [insert_z]; [constructor; [exact Hx|constructor]|].
  destruct (x <=? y).
  - constructor; [exact Hx|]. constructor; assumption.
  - constructor; assumption.
Qed.

Lemma sort_z_Forall (P : Z -> Prop) l : Forall P l -> Forall P (sort_z l).
Proof. unfold sort_z. induction 1; cbn [fold_right]; [constructor|apply insert_z_Forall; assumption]. Qed.

Lemma insert_z_length x l : length (insert_z x l) = S (length l).
Proof. induction l as [|y l IH]; cbn [insert_z]; [reflexivity|]. destruct (x <=? y); cbn [length]; lia. Qed.

Lemma sort_z_length l : length (sort_z l) = length l.
Proof. unfold sort_z. induction l as [|x l IH]; cbn [fold_right]; [reflexivity|]. rewrite insert_z_length, IH. reflexivity. Qed.

Lemma median_nonneg pv : Forall (fun c => 0 <= c) pv -> pv <> [] -> dv_nonneg (VNum (median pv)).
Proof.
  intros H Hne. unfold median. pose proof (sort_z_Forall _ _ H) as Hs.
  pose proof (sort_z_length pv) as Hl.
  destruct (length (sort_z pv)) eqn:E.
  - destruct pv; [congruence|cbn in Hl; lia].
  - rewrite <- E. destruct (Nat.even (length (sort_z pv))); cbn [dv_nonneg].
    + pose proof (nth_nonneg _ (length (sort_z pv) / 2 - 1) Hs). pose proof (nth_nonneg _ (length (sort_z pv) / 2) Hs). lia.
    + pose proof (nth_nonneg _ (length (sort_z pv) / 2) Hs). lia.
Qed.

Lemma init_axes_nonneg specs : forall pvs shape ids,
  ideals_of pvs shape = Ok ids -> length specs = length shape ->
  Forall (Forall (fun c => 0 <= c)) pvs -> Forall med_nonneg (init_axes specs pvs).
Proof.
  unfold init_axes. induction specs as [|sp specs IH]; intros pvs shape ids Hi Hl HF; [constructor|].
  destruct shape as [|s shape]; [discriminate|]. destruct pvs as [|pv pvs]; [cbn in Hi; discriminate|].
  cbn [ideals_of] in Hi. destruct (ideal_of pv s) as [i|] eqn:Hid; [|discriminate].
  destruct (ideals_of pvs shape) as [r|] eqn:Hr; [|discriminate].
  inversion HF as [|? ? Hpv HF2]; subst. cbn [combine map fst snd].
  constructor; [|eapply IH; [exact Hr|cbn in Hl; lia|exact HF2]].
  unfold med_nonneg. destruct (is_auto sp); cbn [ax_med]; [|exact I].
  apply median_nonneg; [exact Hpv|]. intros ->. discriminate.
Qed.

(* SAFE INPUTS: on a well-formed input every pass computes a positive multiplier, for all (numeric) oracle
   values — the base of `multiplier ** (1/n)` is never negative, so the implementation cannot produce the NaN
   proposals that keep the loop alive *)
Theorem prev_mults_positive : forall orc fuel limit itemsize specs shape prev,
  0 < itemsize -> 0 < largest_fixed (subst_all specs shape) ->
  Forall (fun n => 0 <= n) shape ->
  (forall pvs, conv_prev shape prev = Ok pvs -> Forall (Forall (fun c => 0 <= c)) pvs) ->
  (forall r a, fwf (fst (orc r a)) && fwf (snd (orc r a)) = true) ->
  Forall mult_pos (prev_mults orc fuel limit itemsize specs shape prev).
Proof.
  intros orc fuel limit itemsize specs shape prev Hi Hlb Hsh Hprev Ho. unfold prev_mults.
  destruct (prev_start limit itemsize specs shape prev) as [[[reduce cs] st0]|] eqn:Hst; [|constructor].
  apply prev_start_inv in Hst as (Hlen & pvs & Hcp & Hst).
  pose proof (subst_all_length specs shape Hlen) as Ls.
  destruct (loop_start_length _ _ _ _ _ _ _ _ Ls Hst) as [Hl0 _].
  apply loop_start_inv in Hst as (ids & m & Hm & Hids & _ & -> & ->).
  pose proof (init_axes_nonneg _ _ _ _ Hids Ls (Hprev _ Hcp)) as HF.
  apply mult_trace_pos; try assumption; try lia.
  - eapply mk_consts_wf; eassumption.
  - unfold initial_multiplier in Hm. eapply compute_multiplier_pos; [| | |exact HF|exact Hm]; lia.
Qed.
