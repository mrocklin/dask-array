(* A reduction commutes with slicing the axes it does not reduce: for any set of axes
   ([eval_slice_reduce_axes]), of which C01's single-axis law [eval_slice_reduce] is an instance. *)
From DA Require Import PyBase PyBaseFacts Slicing NormalizeFacts FuseFacts NdArray NdArrayFacts ProgSem ProgSemFacts ProgSemDen ProgSemLaws.
Open Scope Z_scope.

Lemma memn_single x y : memn x [y] = Nat.eqb x y.
Proof. unfold memn. cbn [existsb]. apply orb_false_r. Qed.

Lemma red_src_nomatch axes kd : forall r pos out,
  (forall j, memn (pos + j) axes = false) -> length out = length r -> red_src pos axes kd r out = out.
Proof.
  induction r as [|ri r IH]; intros pos out H Hl; cbn [red_src].
  - destruct out; [reflexivity | discriminate].
  - destruct out as [|o out]; [discriminate|]. pose proof (H O) as H0. rewrite Nat.add_0_r in H0. rewrite H0.
    cbn [hd tl]. f_equal. apply IH; [|cbn [length] in Hl; lia].
    intros j. replace (S pos + j)%nat with (pos + S j)%nat by lia. apply H.
Qed.

Lemma red_src_single_drop : forall ax pos r out, (ax < length r)%nat -> length r = S (length out) ->
  red_src pos [(pos + ax)%nat] false r out = insert_at ax (nth ax r 0) out.
Proof.
  induction ax as [|ax IH]; intros pos [|ri r] out Hax Hl; cbn [length] in *; try lia; cbn [red_src]; rewrite memn_single.
  - rewrite Nat.add_0_r, Nat.eqb_refl. unfold insert_at. cbn [firstn skipn app nth]. f_equal.
    apply red_src_nomatch; [|lia]. intros j. rewrite memn_single. apply Nat.eqb_neq. lia.
  - replace (Nat.eqb pos (pos + S ax)) with false by (symmetry; apply Nat.eqb_neq; lia).
    destruct out as [|o out]; cbn [length] in Hl; [lia|]. cbn [hd tl nth]. unfold insert_at. cbn [firstn skipn app].
    f_equal. replace (pos + S ax)%nat with (S pos + ax)%nat by lia. apply IH; lia.
Qed.

Lemma red_src_single_keep : forall ax pos r out, length r = length out ->
  red_src pos [(pos + ax)%nat] true r out = set_nth ax (nth ax r 0) out.
Proof.
  induction ax as [|ax IH]; intros pos [|ri r] [|o out] Hl; cbn [length] in *; try lia; try reflexivity;
    cbn [red_src]; rewrite memn_single.
  - rewrite Nat.add_0_r, Nat.eqb_refl. cbn [set_nth nth tl]. f_equal.
    apply red_src_nomatch; [|lia]. intros j. rewrite memn_single. apply Nat.eqb_neq. lia.
  - replace (Nat.eqb pos (pos + S ax)) with false by (symmetry; apply Nat.eqb_neq; lia).
    cbn [hd tl nth set_nth]. f_equal. replace (pos + S ax)%nat with (S pos + ax)%nat by lia. apply IH. lia.
Qed.

Lemma red_rshape_length axes : forall s pos, length (red_rshape pos axes s) = length s.
Proof. induction s as [|n s IH]; intros pos; cbn [red_rshape length]; [reflexivity|]. rewrite IH. reflexivity. Qed.

Lemma red_rshape_nth axes : forall s pos k, (k < length s)%nat ->
  nth k (red_rshape pos axes s) 0 = if memn (pos + k) axes then nth k s 0 else 1.
Proof.
  induction s as [|n s IH]; intros pos k Hk; cbn [length] in Hk; [lia|].
  cbn [red_rshape]. destruct k as [|k]; cbn [nth]; [rewrite Nat.add_0_r; reflexivity|].
  rewrite IH by lia. replace (S pos + k)%nat with (pos + S k)%nat by lia. reflexivity.
Qed.

Lemma red_kshape_length axes : forall s pos, length (red_kshape pos axes s) = length s.
Proof. induction s as [|n s IH]; intros pos; cbn [red_kshape length]; [reflexivity|]. rewrite IH. reflexivity. Qed.

Lemma red_kshape_nth axes : forall s pos k, (k < length s)%nat ->
  nth k (red_kshape pos axes s) 0 = if memn (pos + k) axes then 1 else nth k s 0.
Proof.
  induction s as [|n s IH]; intros pos k Hk; cbn [length] in Hk; [lia|].
  cbn [red_kshape]. destruct k as [|k]; cbn [nth]; [rewrite Nat.add_0_r; reflexivity|].
  rewrite IH by lia. replace (S pos + k)%nat with (pos + S k)%nat by lia. reflexivity.
Qed.

(* the entries of l at the positions outside axes, positions counted from pos: [drop_axes_from] for any list *)
Section DropFrom.
  Context {A : Type}.
  Fixpoint drop_from (pos : nat) (axes : list nat) (l : list A) : list A :=
    match l with
    | [] => []
    | x :: l' => if memn pos axes then drop_from (S pos) axes l' else x :: drop_from (S pos) axes l'
    end.
End DropFrom.

Lemma drop_from_length {A B} axes (l : list A) : forall (l' : list B) pos,
  length l = length l' -> length (drop_from pos axes l) = length (drop_from pos axes l').
Proof.
  induction l as [|x l IH]; intros [|y l'] pos H; cbn [length] in H; try discriminate; [reflexivity|].
  cbn [drop_from]. destruct (memn pos axes); cbn [length]; rewrite (IH l' (S pos)) by lia; reflexivity.
Qed.

Lemma drop_nomatch {A} axes : forall (l : list A) pos, (forall j, memn (pos + j) axes = false) -> drop_from pos axes l = l.
Proof.
  induction l as [|x l IH]; intros pos H; cbn [drop_from]; [reflexivity|].
  pose proof (H O) as H0. rewrite Nat.add_0_r in H0. rewrite H0. f_equal. apply IH.
  intros j. replace (S pos + j)%nat with (pos + S j)%nat by lia. apply H.
Qed.

Lemma drop_single {A} : forall ax pos (l : list A), drop_from pos [(pos + ax)%nat] l = remove_at ax l.
Proof.
  induction ax as [|ax IH]; intros pos [|x l]; cbn [drop_from]; try reflexivity; try (destruct ax; reflexivity); rewrite memn_single.
  - rewrite Nat.add_0_r, Nat.eqb_refl. unfold remove_at. cbn [firstn skipn app].
    apply drop_nomatch. intros j. rewrite memn_single. apply Nat.eqb_neq. lia.
  - replace (Nat.eqb pos (pos + S ax)) with false by (symmetry; apply Nat.eqb_neq; lia).
    unfold remove_at. cbn [firstn skipn app]. f_equal.
    replace (pos + S ax)%nat with (S pos + ax)%nat by lia. apply IH.
Qed.

Lemma red_oshape_single ax kd s :
  red_oshape [ax] kd s = if kd then red_kshape 0 [ax] s else remove_at ax s.
Proof. unfold red_oshape. destruct kd; [reflexivity|]. exact (drop_single ax 0 s). Qed.

Lemma map_remove_at {A B} (f : A -> B) k l : map f (remove_at k l) = remove_at k (map f l).
Proof. unfold remove_at. rewrite map_app, firstn_map, skipn_map. reflexivity. Qed.

Lemma red_axes_length axes (s t : list Z) : length s = length t -> red_axes axes s = red_axes axes t.
Proof. intros H. unfold red_axes. rewrite H. reflexivity. Qed.

Section ReduceSlice.
  Variable axes : list nat.

  (* a full slice at every reduced position, positions counted from pos *)
  Definition colon_on (pos : nat) (sl : list pslice) : Prop :=
    forall k, memn (pos + k) axes = true -> nth k sl colon = colon.

  Lemma colon_on_cons pos a sl :
    colon_on pos (a :: sl) -> (memn pos axes = true -> a = colon) /\ colon_on (S pos) sl.
  Proof.
    intros H. split.
    - intros E. apply (H O). rewrite Nat.add_0_r. exact E.
    - intros k E. apply (H (S k)). rewrite Nat.add_succ_r. exact E.
  Qed.

  Lemma rs_rshape : forall sl s pos, nonneg_shape s -> length sl = length s -> colon_on pos sl ->
    red_rshape pos axes (slice_shape (map ISlice sl) s) = red_rshape pos axes s.
  Proof.
    induction sl as [|a sl IH]; intros [|n s] pos Hn Hl Hc; cbn [length] in Hl; try discriminate; [reflexivity|].
    inversion Hn; subst. apply colon_on_cons in Hc. destruct Hc as [Ha Hc].
    cbn [map slice_shape hd tl red_rshape]. rewrite IH by (assumption || lia).
    destruct (memn pos axes); [|reflexivity]. rewrite Ha, slice_len_colon by (reflexivity || assumption). reflexivity.
  Qed.

  Lemma rs_kshape : forall sl s pos, length sl = length s -> colon_on pos sl ->
    red_kshape pos axes (slice_shape (map ISlice sl) s) = slice_shape (map ISlice sl) (red_kshape pos axes s).
  Proof.
    induction sl as [|a sl IH]; intros [|n s] pos Hl Hc; cbn [length] in Hl; try discriminate; [reflexivity|].
    apply colon_on_cons in Hc. destruct Hc as [Ha Hc].
    cbn [map slice_shape hd tl red_kshape]. rewrite IH by (assumption || lia).
    destruct (memn pos axes); [|reflexivity]. rewrite Ha, slice_len_colon by (reflexivity || lia). reflexivity.
  Qed.

  Lemma rs_dshape : forall sl s pos, length sl = length s ->
    drop_axes_from pos axes (slice_shape (map ISlice sl) s) =
    slice_shape (map ISlice (drop_from pos axes sl)) (drop_axes_from pos axes s).
  Proof.
    induction sl as [|a sl IH]; intros [|n s] pos Hl; cbn [length] in Hl; try discriminate; [reflexivity|].
    cbn [map slice_shape hd tl drop_axes_from drop_from]. rewrite IH by lia.
    destruct (memn pos axes); reflexivity.
  Qed.

  Lemma rs_okb : forall sl pos, colon_on pos sl -> sl_okb (drop_from pos axes sl) = sl_okb sl.
  Proof.
    unfold sl_okb. induction sl as [|a sl IH]; intros pos Hc; [reflexivity|].
    apply colon_on_cons in Hc. destruct Hc as [Ha Hc]. cbn [drop_from forallb].
    destruct (memn pos axes); cbn [forallb]; rewrite IH by exact Hc; [rewrite Ha by reflexivity|]; reflexivity.
  Qed.

  (* r is the position inside the reduced sub-space: at a reduced axis the operand is read at r's entry, which the
     full slice leaves where it is; elsewhere at the result position, sliced *)
  Lemma rs_src (kd : bool) : forall sl s pos r out, length sl = length s -> colon_on pos sl ->
    in_bounds r (red_rshape pos axes s) ->
    red_src pos axes kd r
      (slice_src (map ISlice (if kd then sl else drop_from pos axes sl))
                 (if kd then red_kshape pos axes s else drop_axes_from pos axes s) out) =
    slice_src (map ISlice sl) s (red_src pos axes kd r out).
  Proof.
    induction sl as [|a sl IH]; intros [|n s] pos [|ri r] out Hl Hc Hr; cbn [length red_rshape in_bounds] in Hl, Hr;
      try discriminate; try (exfalso; exact Hr); [destruct kd; reflexivity|].
    apply colon_on_cons in Hc. destruct Hc as [Ha Hc]. destruct Hr as [Hri Hr].
    specialize (IH s (S pos) r). cbn [red_src red_kshape drop_axes_from drop_from].
    destruct (memn pos axes).
    - rewrite Ha by reflexivity. cbn [map slice_src hd tl]. rewrite nthZ_sel_colon by exact Hri.
      destruct kd; cbn [map slice_src hd tl]; rewrite IH by (assumption || lia); reflexivity.
    - destruct kd; cbn [map slice_src hd tl]; rewrite IH by (assumption || lia); reflexivity.
  Qed.

  Theorem reduce_slice_arr f (kd : bool) sl (x : arr Z) :
    nonneg_shape (shape x) -> length sl = length (shape x) -> colon_on 0 sl ->
    aeq (aslice (map ISlice (if kd then sl else drop_from 0 axes sl)) (areduce f axes kd x))
        (areduce f axes kd (aslice (map ISlice sl) x)).
  Proof.
    intros Hs Hl Hc. split; cbn [aslice areduce shape get]; unfold red_oshape.
    - destruct kd; symmetry; [apply rs_kshape | apply rs_dshape]; assumption.
    - rewrite rs_rshape by assumption. intros out Ho. f_equal. apply map_ext_in. intros r Hr.
      f_equal. apply rs_src; [exact Hl | exact Hc | apply all_indices_in_bounds; exact Hr].
  Qed.
End ReduceSlice.

Lemma un_ok_reduce_slice f axes kd sl s :
  nonneg_shape s -> length sl = length s -> colon_on (red_axes axes s) 0 sl ->
  un_ok (OReduce f axes kd) (slice_shape (map ISlice sl) s) = un_ok (OReduce f axes kd) s.
Proof.
  intros Hs Hl Hc. pose proof (sl_shape_length sl s Hl) as Hl2. cbn [un_ok].
  rewrite (red_axes_length axes _ s Hl2), Hl2, rs_rshape by assumption. reflexivity.
Qed.

(* without keepdims the outer index has no entry for a reduced axis: [drop_from] removes those of sl *)
Theorem eval_slice_reduce_axes f axes (kd : bool) sl p s r :
  pshape p = Some s -> length sl = length s -> colon_on (red_axes axes s) 0 sl ->
  eval (PSlice (map ISlice (if kd then sl else drop_from 0 (red_axes axes s) sl)) (PReduce f axes kd p)) = Some r ->
  eval (PReduce f axes kd (PSlice (map ISlice sl) p)) = Some r.
Proof.
  intros Hp Hl Hc. apply law_un2_un2. intros y Hy Hok2 Hok1.
  pose proof (pden_nonneg p y Hy) as Hs. apply pden_pshape in Hy. rewrite Hp in Hy. injection Hy as ->.
  set (l := red_axes axes (shape y)) in *.
  assert (sl_okb sl = true) as Hsl.
  { cbn [un_ok un_shape] in Hok1. fold l in Hok1. unfold red_oshape in Hok1. destruct kd.
    - rewrite ixokb_sl in Hok1 by (rewrite red_kshape_length; exact Hl). exact Hok1.
    - rewrite ixokb_sl, rs_okb in Hok1 by (exact Hc || apply drop_from_length; exact Hl). exact Hok1. }
  split; [|split].
  - cbn [un_ok]. rewrite ixokb_sl by exact Hl. exact Hsl.
  - cbn [un_shape]. rewrite un_ok_reduce_slice by assumption. exact Hok2.
  - apply aeq_sym. cbn [un_arr aslice shape].
    rewrite (red_axes_length axes _ (shape y) (sl_shape_length sl _ Hl)).
    apply reduce_slice_arr; assumption.
Qed.

(* C01's statement: one axis, where [red_index] is [drop_from] on the singleton *)
Theorem eval_slice_reduce f ax kd sl p s r :
  pshape p = Some s -> length sl = length s -> nth ax sl colon = colon ->
  eval (PSlice (map ISlice (red_index ax kd sl)) (PReduce f (Some [ax]) kd p)) = Some r ->
  eval (PReduce f (Some [ax]) kd (PSlice (map ISlice sl) p)) = Some r.
Proof.
  intros Hp Hl Hcolon. unfold red_index. rewrite <- (drop_single ax 0 sl).
  apply (eval_slice_reduce_axes f (Some [ax]) kd sl p s r Hp Hl).
  intros k Hk. cbn [red_axes Nat.add] in Hk. rewrite memn_single in Hk. apply Nat.eqb_eq in Hk. subst k. exact Hcolon.
Qed.
