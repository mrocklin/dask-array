From Coq Require Import List Bool ZArith PArith Lia.
From DA Require Import PyBase PyBaseFacts NormalizeFacts Mutation.
Import ListNotations.
Open Scope Z_scope.

Lemma set_nth_length : forall A (l : list A) i x, length (set_nth l i x) = length l.
Proof.
  induction l as [|y t IH]; intros [|i] x; cbn [set_nth length]; try reflexivity.
  rewrite IH. reflexivity.
Qed.

Lemma nth_error_set_nth_same : forall A (l : list A) i x, (i < length l)%nat -> nth_error (set_nth l i x) i = Some x.
Proof.
  induction l as [|y t IH]; intros i x Hi; cbn [length] in Hi; [lia|].
  destruct i as [|i]; cbn [set_nth nth_error]; [reflexivity|]. apply IH. lia.
Qed.

Lemma nth_error_set_nth_other : forall A (l : list A) i j x, i <> j -> nth_error (set_nth l i x) j = nth_error l j.
Proof.
  induction l as [|y t IH]; intros i j x Hij; [destruct i; reflexivity|].
  destruct i as [|i], j as [|j]; cbn [set_nth nth_error]; [contradiction | reflexivity | reflexivity|].
  apply IH. lia.
Qed.

Lemma Forall_set_nth : forall A (P : A -> Prop) l i x, Forall P l -> P x -> Forall P (set_nth l i x).
Proof.
  intros A P l i x Hl Hx. revert i.
  induction Hl as [|y t Hy Ht IH]; intros [|i]; cbn [set_nth]; constructor; try assumption. apply IH.
Qed.

Lemma coherent_fresh : forall e, coherent (fresh e).
Proof. intro e. split; cbn; intros; discriminate. Qed.

Lemma coherent_replace : forall c e, coherent (replace_expr c e).
Proof. intros c e. split; cbn; intros; discriminate. Qed.

Lemma coherent_materialize : forall c cfg, coherent c -> coherent (materialize c cfg).
Proof.
  intros c cfg [H1 H2]. split; cbn; [|exact H2].
  intros e f H. destruct (c_low c) as [[e0 f0]|] eqn:El.
  - inversion H; subst. destruct (H1 e f eq_refl) as [A B]. split; [exact A|]. rewrite B. reflexivity.
  - inversion H; subst. split; reflexivity.
Qed.

Lemma coherent_cache_keys : forall c, coherent c -> coherent (cache_keys c).
Proof.
  intros c [H1 H2]. split; cbn; [exact H1|].
  intros e H. destruct (c_keys c) as [k|] eqn:Ek; inversion H; subst; [apply H2; reflexivity | reflexivity].
Qed.

Lemma coherent_optimized : forall c o, coherent (optimized c o).
Proof.
  intros c o. split; cbn [optimized c_low c_flag c_keys c_expr].
  - intros e f [= <- <-]. split; reflexivity.
  - discriminate.
Qed.

Definition all_coherent (st : state) : Prop := Forall coherent (colls st).

Lemma update_coherent : forall st c f,
  all_coherent st -> (forall x, coherent x -> coherent (f x)) -> all_coherent (update st c f).
Proof.
  intros st c f H Hf. unfold update, get_coll. destruct (nth_error (colls st) c) as [x|] eqn:E; [|exact H].
  unfold all_coherent. cbn. apply Forall_set_nth; [exact H|]. apply Hf.
  unfold all_coherent in H. rewrite Forall_forall in H. apply H. eapply nth_error_In. exact E.
Qed.

Lemma new_object_coherent : forall st x, all_coherent st -> coherent x -> all_coherent (new_object st x).
Proof. intros st x H Hx. unfold all_coherent, new_object. cbn. apply Forall_app. split; [exact H | constructor; [exact Hx|constructor]]. Qed.

Lemma step_coherent : forall st o, all_coherent st -> all_coherent (step st o).
Proof.
  intros st o H.
  assert (Hrep : forall c e, all_coherent (update st c (fun x => replace_expr x (e x)))).
  { intros c e. apply update_coherent; [exact H|]. intros x _. apply coherent_replace. }
  destruct o; cbn [step].
  - (* Derive: a new handle for the same object, or a fresh object *)
    destruct (coll_of st h) as [c|]; [|exact H]. destruct (identity_returning k); [exact H|].
    destruct (get_coll st c); [|exact H]. apply new_object_coherent; [exact H | apply coherent_fresh].
  - (* SetItem *) destruct (coll_of st h) as [c|]; [apply Hrep | exact H].
  - (* SetMask *) destruct (coll_of st h) as [c|]; [apply Hrep | exact H].
  - (* UfuncOut *) destruct (coll_of st src) as [cs|]; [|exact H]. destruct (coll_of st dst) as [cd|]; [|exact H].
    destruct (get_coll st cs); [apply Hrep | exact H].
  - (* ComputeChunkSizes *) destruct (coll_of st h) as [c|]; [apply Hrep | exact H].
  - (* Compute *) destruct (coll_of st h) as [c|]; [|exact H].
    apply update_coherent; [exact H|]. intros x Hx. apply coherent_materialize, Hx.
  - (* Keys *) destruct (coll_of st h) as [c|]; [|exact H].
    apply update_coherent; [exact H | exact coherent_cache_keys].
  - (* Optimize: the same object again, or a new one with pre-filled caches *)
    destruct (coll_of st h) as [c|]; [|exact H]. destruct (get_coll st c) as [x|]; [|exact H].
    destruct (c_opt x); [exact H|]. apply new_object_coherent; [exact H | apply coherent_optimized].
Qed.

Lemma run_coherent : forall ops st, all_coherent st -> all_coherent (run ops st).
Proof. induction ops as [|o t IH]; intros st H; cbn; [exact H|]. apply IH. apply step_coherent. exact H. Qed.

Theorem cache_coherent : forall ops src c x,
  get_coll (run ops (init src)) c = Some x -> coherent x.
Proof.
  intros ops src c x H.
  assert (Hall : all_coherent (run ops (init src))).
  { apply run_coherent. unfold all_coherent, init. cbn. constructor; [apply coherent_fresh | constructor]. }
  unfold all_coherent in Hall. rewrite Forall_forall in Hall. apply Hall. eapply nth_error_In. exact H.
Qed.

Lemma dkind_eqb_eq : forall k k', dkind_eqb k k' = true -> k = k'.
Proof. intros [] []; (reflexivity || discriminate). Qed.

Lemma expr_eqb_eq : forall a b, expr_eqb a b = true -> a = b.
Proof.
  induction a as [x | k e IH | e IH kid vid | e IH t v | e IH | e1 IH1 e2 IH2 | o];
    intros [x' | k' e' | e' kid' vid' | e' t' v' | e' | e1' e2' | o'] H; cbn [expr_eqb] in H; try discriminate.
  - (* ESrc *) apply Pos.eqb_eq in H. subst. reflexivity.
  - (* EDer *) apply andb_true_iff in H as [Hk He]. apply dkind_eqb_eq in Hk. apply IH in He. subst. reflexivity.
  - (* ESetItem *) apply andb_true_iff in H as [H Hv]. apply andb_true_iff in H as [He Hk].
    apply IH in He. apply Pos.eqb_eq in Hk, Hv. subst. reflexivity.
  - (* EWhere *) apply andb_true_iff in H as [H Hv]. apply andb_true_iff in H as [He Ht].
    apply IH in He. apply Z.eqb_eq in Ht, Hv. subst. reflexivity.
  - (* EChunks *) apply IH in H. subst. reflexivity.
  - (* EOut *) apply andb_true_iff in H as [H1 H2]. apply IH1 in H1. apply IH2 in H2. subst. reflexivity.
  - (* ELower *) apply Pos.eqb_eq in H. subst. reflexivity.
Qed.

Lemma coherent_b_spec : forall c, coherent_b c = true -> coherent c.
Proof.
  intros c H. unfold coherent_b in H. apply andb_true_iff in H. destruct H as [H1 H2]. split.
  - intros e f E. rewrite E in H1. apply andb_true_iff in H1. destruct H1 as [A B].
    apply expr_eqb_eq in A. destruct (c_flag c) as [f'|]; [|discriminate]. apply Bool.eqb_prop in B. subst. auto.
  - intros e E. rewrite E in H2. apply expr_eqb_eq, H2.
Qed.

Lemma get_coll_update_other : forall st c f d, c <> d -> get_coll (update st c f) d = get_coll st d.
Proof.
  intros st c f d H. unfold update. destruct (get_coll st c); [|reflexivity].
  unfold get_coll. cbn. apply nth_error_set_nth_other. exact H.
Qed.

Lemma get_coll_update_same : forall st c f x, get_coll st c = Some x -> get_coll (update st c f) c = Some (f x).
Proof.
  intros st c f x H. unfold update. rewrite H. unfold get_coll in *. cbn.
  apply nth_error_set_nth_same. apply nth_error_Some. congruence.
Qed.

Lemma get_coll_new_object : forall st x d y, get_coll st d = Some y -> get_coll (new_object st x) d = Some y.
Proof.
  intros st x d y H. unfold get_coll, new_object in *. cbn. rewrite nth_error_app1; [exact H|].
  apply nth_error_Some. congruence.
Qed.

Lemma expr_of_update_same : forall st c f,
  (forall x, c_expr (f x) = c_expr x) -> forall d, expr_of (update st c f) d = expr_of st d.
Proof.
  intros st c f Hf d. unfold expr_of. destruct (Nat.eq_dec c d) as [E|E].
  - subst. destruct (get_coll st d) as [x|] eqn:Ex.
    + rewrite (get_coll_update_same st d f x Ex). rewrite Hf. reflexivity.
    + unfold update. rewrite Ex. rewrite Ex. reflexivity.
  - rewrite get_coll_update_other by exact E. reflexivity.
Qed.

(* one step: an op changes no expression except its target's *)
Theorem step_frame : forall st o c e,
  expr_of st c = Some e -> expr_target st o <> Some c -> expr_of (step st o) c = Some e.
Proof.
  intros st o c e He Ht.
  assert (Hnew : forall x, expr_of (new_object st x) c = Some e).
  { intro x. unfold expr_of in *. destruct (get_coll st c) as [y|] eqn:Ey; [|discriminate].
    rewrite (get_coll_new_object st x c y Ey). exact He. }
  assert (Hupd : forall c' f, Some c' <> Some c -> expr_of (update st c' f) c = Some e).
  { intros c' f Hne. unfold expr_of. rewrite get_coll_update_other; [exact He|]. congruence. }
  destruct o; cbn [step expr_target] in *.
  - (* Derive *) destruct (coll_of st h) as [c0|]; [|exact He]. destruct (identity_returning k); [exact He|].
    destruct (get_coll st c0); [apply Hnew | exact He].
  - (* SetItem *) destruct (coll_of st h); [apply Hupd; exact Ht | exact He].
  - (* SetMask *) destruct (coll_of st h); [apply Hupd; exact Ht | exact He].
  - (* UfuncOut *) destruct (coll_of st src) as [cs|]; [|exact He]. destruct (coll_of st dst); [|exact He].
    destruct (get_coll st cs); [apply Hupd; exact Ht | exact He].
  - (* ComputeChunkSizes *) destruct (coll_of st h); [apply Hupd; exact Ht | exact He].
  - (* Compute: fills caches, keeps the expression *)
    destruct (coll_of st h); [|exact He]. rewrite expr_of_update_same; [exact He | reflexivity].
  - (* Keys: likewise *)
    destruct (coll_of st h); [|exact He]. rewrite expr_of_update_same; [exact He | reflexivity].
  - (* Optimize *) destruct (coll_of st h) as [c0|]; [|exact He]. destruct (get_coll st c0) as [x|]; [|exact He].
    destruct (c_opt x); [exact He | apply Hnew].
Qed.

Theorem run_frame : forall ops st c e,
  expr_of st c = Some e -> expr_untouched c ops st -> expr_of (run ops st) c = Some e.
Proof.
  induction ops as [|o t IH]; intros st c e He Hu; cbn; [exact He|].
  destruct Hu as [H1 H2]. apply IH; [|exact H2]. apply step_frame; assumption.
Qed.

(* a derivation captures the parent's CURRENT expression; whatever happens to the parent (or to
   anybody else) afterwards, the derived collection keeps pointing to it *)
Theorem others_unchanged : forall st h k c x ops,
  coll_of st h = Some c -> get_coll st c = Some x -> identity_returning k = false ->
  let d := length (colls st) in
  let st1 := step st (Derive h k) in
  coll_of st1 (length (handles st)) = Some d /\
  (expr_untouched d ops st1 -> expr_of (run ops st1) d = Some (EDer k (c_expr x))).
Proof.
  intros st h k c x ops Hh Hc Hk d st1.
  assert (E1 : st1 = new_object st (fresh (EDer k (c_expr x)))).
  { unfold st1. cbn. rewrite Hh, Hk, Hc. reflexivity. }
  split.
  - rewrite E1. unfold coll_of, new_object. cbn. rewrite nth_error_app2 by lia.
    rewrite Nat.sub_diag. reflexivity.
  - intro Hu. apply run_frame; [|exact Hu]. rewrite E1. unfold expr_of, get_coll, new_object. cbn.
    unfold d. rewrite nth_error_app2 by lia. rewrite Nat.sub_diag. reflexivity.
Qed.

(* the identity-returning derivations bind a new handle to the SAME object (F9) *)
Theorem identity_derivation_aliases : forall st h k c,
  coll_of st h = Some c -> identity_returning k = true ->
  let st1 := step st (Derive h k) in
  coll_of st1 (length (handles st)) = Some c /\ colls st1 = colls st.
Proof.
  intros st h k c Hh Hk st1. unfold st1. cbn. rewrite Hh, Hk. unfold coll_of, new_alias. cbn.
  split; [|reflexivity]. rewrite nth_error_app2 by lia. rewrite Nat.sub_diag. reflexivity.
Qed.

(* list_upd is set_nth at type Z *)
Lemma list_upd_set_nth : forall l p v, list_upd l p v = set_nth l p v.
Proof.
  induction l as [|y t IH]; intros [|p] v; cbn [list_upd set_nth]; try reflexivity.
  rewrite IH. reflexivity.
Qed.

Lemma list_upd_length : forall l p v, length (list_upd l p v) = length l.
Proof. intros l p v. rewrite list_upd_set_nth. apply set_nth_length. Qed.

Lemma list_upd_same : forall l p v d, (p < length l)%nat -> nth p (list_upd l p v) d = v.
Proof. intros l p v d H. rewrite list_upd_set_nth. apply nth_error_nth, nth_error_set_nth_same, H. Qed.

Lemma list_upd_other : forall l p q v d, p <> q -> nth q (list_upd l p v) d = nth q l d.
Proof.
  intros l p q v d H. rewrite list_upd_set_nth, <- !nth_default_eq. unfold nth_default.
  rewrite nth_error_set_nth_other by exact H. reflexivity.
Qed.

Lemma assign_spec : forall ps x v i0,
  NoDup ps -> (forall p, In p ps -> 0 <= p < Z.of_nat (length x)) ->
  length (assign x ps v i0) = length x /\
  (forall j, (j < length ps)%nat -> nth (Z.to_nat (nth j ps 0)) (assign x ps v i0) 0 = value_at v (i0 + j)) /\
  (forall p, ~ In (Z.of_nat p) ps -> nth p (assign x ps v i0) 0 = nth p x 0).
Proof.
  induction ps as [|p0 t IH]; intros x v i0 Hnd Hb; cbn [assign].
  - split; [reflexivity|]. split; [intros j Hj; cbn in Hj; lia | reflexivity].
  - inversion Hnd as [|? ? Hp0 Hnd']; subst.
    pose proof (Hb p0 (or_introl eq_refl)) as Hp0b.
    destruct (IH (list_upd x (Z.to_nat p0) (value_at v i0)) v (S i0) Hnd') as (L & S1 & O1).
    { intros p Hp. rewrite list_upd_length. apply Hb. right; exact Hp. }
    rewrite list_upd_length in L. split; [exact L|]. split.
    + intros [|j] Hj; cbn [nth].
      * rewrite O1 by (rewrite Z2Nat.id by lia; exact Hp0).
        rewrite list_upd_same by lia. f_equal. lia.
      * cbn in Hj. rewrite S1 by lia. f_equal. lia.
    + intros p Hp. rewrite O1 by (intro H; apply Hp; right; exact H).
      apply list_upd_other. intro E. apply Hp. left. subst p. lia.
Qed.

(* NumPy's  x[k] = v  on a 1-D array, for every basic slice k with a non-zero step: the length is
   kept, the i-th selected position receives the i-th value (the scalar, when broadcast), every
   position that k does not select keeps its value *)
Theorem setitem_den_spec : forall x k v,
  step_of k <> 0 ->
  let n := Z.of_nat (length x) in
  let r := setitem_den x k v in
  length r = length x /\
  (forall i, (i < length (sel k n))%nat -> nth (Z.to_nat (nth i (sel k n) 0)) r 0 = value_at v i) /\
  (forall p, ~ In (Z.of_nat p) (sel k n) -> nth p r 0 = nth p x 0).
Proof.
  intros x k v Hk n r. unfold r, setitem_den. fold n.
  destruct (assign_spec (sel k n) x v 0 (sel_NoDup k n Hk)) as (L & S1 & O1).
  - intros p Hp. apply (sel_in_range k n p); [unfold n; lia | exact Hk | exact Hp].
  - split; [exact L|]. split; [|exact O1]. intros i Hi. rewrite S1 by exact Hi. reflexivity.
Qed.
