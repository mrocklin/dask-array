(* NamesFacts.v — proofs about the naming model of Names.v. *)
From Coq Require Import ZArith List Bool.
From DA Require Import Names.
Import ListNotations.
Open Scope Z_scope.

Scheme expr_mut := Induction for expr Sort Prop
  with args_mut := Induction for args Sort Prop.
Combined Scheme expr_args_ind from expr_mut, args_mut.

Section Facts.
  Variable hash : Type.
  Variable H Hp : list (harg hash) -> hash.
  Variable addr : Z -> Z.
  Variable pfx_getitem : Z.
  Hypothesis H_inj : forall a b, H a = H b -> a = b.
  Hypothesis Hp_inj : forall a b, Hp a = Hp b -> a = b.
  Hypothesis addr_inj : forall a b, addr a = addr b -> a = b.

  Notation tok := (token_of hash H Hp addr pfx_getitem).
  Notation nm := (name_of hash H Hp addr pfx_getitem).
  Notation hs := (hargs hash H Hp addr pfx_getitem).

  (* The defining clauses.  The three functions form one mutual block, which cbn and simpl unfold whole:
     the proofs below use these equations instead. *)
  Lemma tok_eq e : tok e =
    match e with
    | Gen c _ ops => stock_token hash H (KGen c) (hs ops)
    | GenNC c _ e ops => stock_token hash H (KGenNC c) (HTok (tok e) :: hs ops)
    | SliceExtract b pat => TkExtract (nm b) pat
    | SrcRegion b o i n => TkExact (NmRegion (nm b) (H [HLit o; HLit i; HLit n]))
    | SrcRechunk b oc nc => TkExact (NmRechunkIO (nm b) (H [HLit oc; HLit nc]))
    | Blockwise _ f oi dt adj na al cc kw _ ops => blockwise_token hash H f oi dt adj na al cc kw (hs ops)
    | Reduction c _ e ch ag ax kd dt se cb cc os w _ =>
        reduction_token hash H c (tok e) ch ag ax kd dt se cb cc os (hs w)
    | PartialReduce _ e f se kd dt _ => partial_token hash H (tok e) f se kd dt
    | Rechunk e ch th bs ba me =>
        stock_token hash H KRechunk [HTok (tok e); HLit ch; HLit th; HLit bs; HLit ba; HLit me]
    | TasksRechunk e ch th bs => stock_token hash H KTasksRechunk [HTok (tok e); HLit ch; HLit th; HLit bs]
    | Random c dr _ di sz nch kw ops =>
        stock_token hash H (KRandom c) [HName (random_name hash H dr di sz nch kw (hs ops))]
    | RootAlias o r => stock_token hash H KRootAlias [HTok (tok o); HName (nm r)]
    end.
  Proof. destruct e; reflexivity. Qed.

  Lemma nm_eq e : nm e =
    match e with
    | Gen c p ops => NmPref p (stock_token hash H (KGen c) (hs ops))
    | GenNC _ p e ops => NmPref p (TkHash (H (HTok (tok e) :: hs ops)))
    | SliceExtract b pat => NmPref pfx_getitem (TkExtract (nm b) pat)
    | SrcRegion b o i n => NmRegion (nm b) (H [HLit o; HLit i; HLit n])
    | SrcRechunk b oc nc => NmRechunkIO (nm b) (H [HLit oc; HLit nc])
    | Blockwise p f oi dt adj na al cc kw _ ops => NmPref p (blockwise_token hash H f oi dt adj na al cc kw (hs ops))
    | Reduction c p e ch ag ax kd dt se cb cc os w _ =>
        NmPref p (reduction_token hash H c (tok e) ch ag ax kd dt se cb cc os (hs w))
    | PartialReduce p e f se kd dt _ => NmPref p (partial_token hash H (tok e) f se kd dt)
    | Rechunk e ch th bs ba me => NmRc1 (Hp [HName (nm e); HLit ch; HLit th; HLit bs; HLit ba; HLit me])
    | TasksRechunk e ch th bs => NmRc1 (Hp [HName (nm e); HLit ch; HLit th; HLit bs])
    | Random _ dr _ di sz nch kw ops => random_name hash H dr di sz nch kw (hs ops)
    | RootAlias _ r => nm r
    end.
  Proof. destruct e; reflexivity. Qed.

  Lemma hs_eq a : hs a =
    match a with
    | ANil => []
    | ALit z r => HLit z :: hs r
    | AObj o r => HObj (addr o) :: hs r
    | AChild e r => HTok (tok e) :: hs r
    end.
  Proof. destruct a; reflexivity. Qed.

  Lemma content_RootAlias o r : content_of (RootAlias o r) = content_of r.
  Proof. reflexivity. Qed.

  (* rewrite both sides of the equation E with the defining clause `eqn` *)
  Ltac expose E eqn := match type of E with _ ?a = _ ?b => rewrite (eqn a), (eqn b) in E end.

  (* Tokens, names and hashed tuples are constructor terms over the injective H, Hp and addr: an equation
     between two of them is refuted at the first pair of distinct constructors or comes apart into the
     equations between the fields. *)
  Ltac open E := first [ discriminate E | injection E; clear E; intros ].
  Ltac peel E :=
    open E;
    repeat match goal with
    | E' : H _ = H _ |- _ => apply H_inj in E'; open E'
    | E' : Hp _ = Hp _ |- _ => apply Hp_inj in E'; open E'
    | E' : addr _ = addr _ |- _ => apply addr_inj in E'
    end.

  (* the core: tokens AND names determine the meaning; children enter through their token *)
  Lemma inj_aux :
    (forall e1 e2, tok e1 = tok e2 \/ nm e1 = nm e2 -> content_of e1 = content_of e2) /\
    (forall a1 a2, hs a1 = hs a2 -> cargs_of a1 = cargs_of a2).
  Proof.
    (* Only the clauses are used.  With the functions abstracted, injection finds variables at the leaves
       and not a mutual fixpoint to unfold. *)
    generalize tok_eq, nm_eq, hs_eq. generalize tok as T, nm as N, hs as A. intros T N A T_eq N_eq A_eq.
    apply expr_args_ind.
    (* e1 = RootAlias o r has a token of its own class and the name of r *)
    12: { intros o _ r IHr e2 [E|E].
          - destruct e2; expose E T_eq; peel E. rewrite !content_RootAlias. auto.
          - rewrite N_eq in E. apply IHr. right. exact E. }
    (* e1 is no alias.  Two classes hash tuples that differ in their first or second element; within a class
       the tuples agree field by field, and the children do by induction.  An alias on the right hands on the
       name of its raw tree: induction on e2. *)
    1-11: intros until e2; induction e2; intros [E|E];
      [ first [ expose E T_eq | expose E N_eq ]; peel E; subst; cbn [content_of]; f_equal; auto ..
      | expose E T_eq; peel E
      | rewrite (N_eq (RootAlias _ _)) in E; auto ].
    all: intros until a2; intro E; destruct a2; try reflexivity;
      expose E A_eq; peel E; subst; cbn [cargs_of]; f_equal; auto.
  Qed.

  Theorem token_injective : forall e1 e2,
    tok e1 = tok e2 -> content_of e1 = content_of e2.
  Proof.
    intros e1 e2 E. apply (proj1 inj_aux). left. exact E.
  Qed.

  Theorem name_injective : forall e1 e2,
    nm e1 = nm e2 -> content_of e1 = content_of e2.
  Proof.
    intros e1 e2 E. apply (proj1 inj_aux). right. exact E.
  Qed.

  (* the operands the tokenizers omit are not part of the meaning; the name prefix is part of the name *)
  Lemma blockwise_omitted : forall p p' m m' f oi dt adj na al cc kw ops,
    tok (Blockwise p f oi dt adj na al cc kw m ops) = tok (Blockwise p' f oi dt adj na al cc kw m' ops) /\
    content_of (Blockwise p f oi dt adj na al cc kw m ops) = content_of (Blockwise p' f oi dt adj na al cc kw m' ops) /\
    (nm (Blockwise p f oi dt adj na al cc kw m ops) = nm (Blockwise p' f oi dt adj na al cc kw m' ops) <-> p = p').
  Proof.
    intros. repeat split; intro E.
    - expose E nm_eq. injection E. auto.
    - subst. reflexivity.
  Qed.

  Lemma reduction_omitted : forall c p p' m m' e ch ag ax kd dt se cb cc os w,
    tok (Reduction c p e ch ag ax kd dt se cb cc os w m) = tok (Reduction c p' e ch ag ax kd dt se cb cc os w m') /\
    content_of (Reduction c p e ch ag ax kd dt se cb cc os w m) = content_of (Reduction c p' e ch ag ax kd dt se cb cc os w m').
  Proof. intros. split; reflexivity. Qed.

  Lemma partial_omitted : forall p p' m m' e f se kd dt,
    tok (PartialReduce p e f se kd dt m) = tok (PartialReduce p' e f se kd dt m') /\
    content_of (PartialReduce p e f se kd dt m) = content_of (PartialReduce p' e f se kd dt m').
  Proof. intros. split; reflexivity. Qed.

  (* Random (finding C06-A, FIXED): the parent used to see the rng state at TOKENISATION time while the values
     come from the state at DRAW time, so two draws r1, r2 from one rng object that were both used only after
     the second draw shared a token and (r1 + 1), (r2 + 1) shared a name.  With Random.__dask_tokenize__ =
     H(type, _name) two draws have different names, different tokens, and so have their parents. *)
  Definition draw (d : Z) : expr := Random 0 d 2 0 0 0 0 ANil.     (* drawn in state d, looked at in state 2 *)
  Definition plus1 (x : expr) : expr := Gen 1 1 (AChild x (ALit 1 ANil)).

  Theorem random_shared_rng_distinct : forall d1 d2, d1 <> d2 ->
    nm (draw d1) <> nm (draw d2) /\
    tok (draw d1) <> tok (draw d2) /\
    nm (plus1 (draw d1)) <> nm (plus1 (draw d2)) /\
    tok (plus1 (draw d1)) <> tok (plus1 (draw d2)).
  Proof.
    intros d1 d2 Hd.
    assert (C : content_of (draw d1) <> content_of (draw d2)).
    { cbn. intro E. injection E. exact Hd. }
    assert (C1 : content_of (plus1 (draw d1)) <> content_of (plus1 (draw d2))).
    { cbn. intro E. injection E. exact Hd. }
    split; [|split; [|split]]; intro E.
    - apply C. apply name_injective. exact E.
    - apply C. apply token_injective. exact E.
    - apply C1. apply name_injective. exact E.
    - apply C1. apply token_injective. exact E.
  Qed.

  Variable name_eqb : name hash -> name hash -> bool.
  Hypothesis name_eqb_spec : forall a b, name_eqb a b = true <-> a = b.

  Notation lookup := (lookup hash name_eqb).
  Notation remove := (remove hash name_eqb).
  Notation setdefault := (setdefault hash name_eqb).
  Notation store_ok := (store_ok hash H Hp addr pfx_getitem).
  Notation state_ok := (state_ok hash H Hp addr pfx_getitem).
  Notation step := (step hash H Hp addr pfx_getitem name_eqb).
  Notation run := (run hash H Hp addr pfx_getitem name_eqb).

  Lemma lookup_In : forall n s c, lookup n s = Some c -> In (n, c) s.
  Proof.
    intros n s c. induction s as [|[m d] r IHs]; cbn [Names.lookup]; intro E.
    - discriminate.
    - destruct (name_eqb n m) eqn:Q.
      + apply name_eqb_spec in Q. injection E as <-. subst. left. reflexivity.
      + right. auto.
  Qed.

  Lemma remove_In : forall n s x, In x (remove n s) -> In x s.
  Proof.
    intros n s x. induction s as [|[m d] r IHs]; cbn [Names.remove]; intro E.
    - exact E.
    - destruct (name_eqb n m).
      + right. auto.
      + destruct E as [E|E]; [left; exact E | right; auto].
  Qed.

  Lemma store_ok_nil : store_ok [].
  Proof. intros n c []. Qed.

  Lemma store_ok_cons : forall e s, store_ok s -> store_ok ((nm e, content_of e) :: s).
  Proof.
    intros e s Hs n c [E|E] e' Hn.
    - injection E as <- <-. apply name_injective; assumption.
    - eapply Hs; eassumption.
  Qed.

  Lemma store_ok_setdefault : forall e s, store_ok s -> store_ok (setdefault (nm e) (content_of e) s).
  Proof.
    intros e s Hs. unfold Names.setdefault. destruct (lookup (nm e) s); [exact Hs | apply store_ok_cons; assumption].
  Qed.

  Lemma store_ok_remove : forall n s, store_ok s -> store_ok (remove n s).
  Proof. intros n s Hs m c Hin. apply Hs. eapply remove_In; eassumption. Qed.

  Lemma store_ok_merge : forall l s, store_ok s ->
    store_ok (fold_left (fun g x => (nm x, content_of x) :: g) l s).
  Proof.
    induction l as [|x l IHl]; intros s Hs; cbn [fold_left].
    - exact Hs.
    - apply IHl. apply store_ok_cons; assumption.
  Qed.

  Lemma step_ok : forall st o, state_ok st -> state_ok (step st o).
  Proof.
    intros st o [Hr [Hl Hg]]. destruct o as [e|e|e|n]; cbn [Names.step]; try destruct (opts_out e);
      repeat split; cbn; auto using store_ok_setdefault, store_ok_merge, store_ok_remove.
  Qed.

  Lemma fold_ok : forall ops st, state_ok st -> state_ok (fold_left step ops st).
  Proof.
    induction ops as [|o ops IHo]; intros st Hs; cbn [fold_left].
    - exact Hs.
    - apply IHo. apply step_ok; assumption.
  Qed.

  Theorem cache_invariant : forall ops, state_ok (run ops).
  Proof.
    intros ops. unfold Names.run. apply fold_ok.
    repeat split; apply store_ok_nil.
  Qed.

  (* whatever a hit in any of the three stores hands back, it is the meaning of the expression asked for *)
  Theorem cache_dedup_sound : forall ops e c,
    (lookup (nm e) (registry hash (run ops)) = Some c \/
     lookup (nm e) (lowered hash (run ops)) = Some c \/
     lookup (nm e) (graph hash (run ops)) = Some c) ->
    c = content_of e.
  Proof.
    intros ops e c Hl. destruct (cache_invariant ops) as [Hr [Hw Hg]].
    symmetry. destruct Hl as [Hl|[Hl|Hl]]; apply lookup_In in Hl.
    - eapply Hr; [exact Hl | reflexivity].
    - eapply Hw; [exact Hl | reflexivity].
    - eapply Hg; [exact Hl | reflexivity].
  Qed.

  (* the pinned / exact-named nodes never enter the registry or the lowering cache *)
  Lemma opted_out_never_cached : forall st e, opts_out e = true ->
    step st (Build hash e) = st /\ step st (Lower hash e) = st.
  Proof. intros st e E. cbn [Names.step]. rewrite E. split; reflexivity. Qed.

  Variable H' : list (harg hash) -> hash.

  Theorem roundtrip_with_cache : forall e,
    rt_name hash H Hp addr pfx_getitem H' true e = nm e /\ rt_token hash H Hp addr pfx_getitem e = tok e.
  Proof.
    intro e. split; [|reflexivity].
    induction e; cbn [rt_name]; try reflexivity; rewrite IHe; reflexivity.
  Qed.

  Theorem roundtrip_without_cache : forall e, (forall l, H' l = H l) -> rng_unmoved e ->
    rt_name hash H Hp addr pfx_getitem H' false e = nm e.
  Proof.
    intros e HH. induction e; intro F; cbn [rt_name rng_unmoved] in *; rewrite ?HH; try reflexivity;
      try (rewrite IHe by tauto; reflexivity).
    destruct F as [-> _]. reflexivity.
  Qed.

End Facts.

(* determinism: names do not depend on object identities unless an operand is tokenised by id() *)
Section Determinism.
  Variable hash : Type.
  Variable H Hp : list (harg hash) -> hash.
  Variable pfx_getitem : Z.
  Variable addr addr' : Z -> Z.

  Lemma deterministic_aux :
    (forall e, obj_free e ->
       token_of hash H Hp addr pfx_getitem e = token_of hash H Hp addr' pfx_getitem e /\
       name_of hash H Hp addr pfx_getitem e = name_of hash H Hp addr' pfx_getitem e) /\
    (forall a, args_obj_free a -> hargs hash H Hp addr pfx_getitem a = hargs hash H Hp addr' pfx_getitem a).
  Proof.
    apply expr_args_ind; intros; cbn [obj_free args_obj_free] in *;
      repeat match goal with
             | [ F : _ /\ _ |- _ ] => destruct F
             | [ IH : ?P -> _, F : ?P |- _ ] => specialize (IH F)
             end;
      try contradiction; try split;
      (* with the clause exposed on both sides they differ only where the induction hypotheses say they agree *)
      first [ rewrite (tok_eq _ _ _ addr), (tok_eq _ _ _ addr')
            | rewrite (nm_eq _ _ _ addr), (nm_eq _ _ _ addr')
            | rewrite (hs_eq _ _ _ addr), (hs_eq _ _ _ addr') ];
      congruence.
  Qed.

  Theorem name_deterministic : forall e, obj_free e ->
    name_of hash H Hp addr pfx_getitem e = name_of hash H Hp addr' pfx_getitem e /\
    token_of hash H Hp addr pfx_getitem e = token_of hash H Hp addr' pfx_getitem e.
  Proof. intros e F. destruct (proj1 deterministic_aux e F). split; assumption. Qed.

  (* ... and an identity-tokenised operand does leak the address (the documented exception) *)
  Theorem identity_operand_leaks : (forall a b, H a = H b -> a = b) -> addr 0 <> addr' 0 ->
    name_of hash H Hp addr pfx_getitem (Gen 0 0 (AObj 0 ANil)) <> name_of hash H Hp addr' pfx_getitem (Gen 0 0 (AObj 0 ANil)).
  Proof.
    intros Hinj Hne E. cbn in E. unfold stock_token in E. injection E as E. apply Hinj in E.
    injection E as E. auto.
  Qed.
End Determinism.

(* the hypotheses are satisfiable: a free tree type is an injective "hash" *)
Inductive ftree : Type := FNode (z : Z) (l : list ftree).

Scheme token_mut := Induction for token Sort Prop
  with name_mut := Induction for name Sort Prop.
Combined Scheme token_name_ind from token_mut, name_mut.

Fixpoint enc_token (t : token ftree) : ftree :=
  match t with
  | TkHash h => FNode 1 [h]
  | TkExact n => FNode 2 [enc_name n]
  | TkExtract n p => FNode 3 [FNode p []; enc_name n]
  end
with enc_name (n : name ftree) : ftree :=
  match n with
  | NmPref p t => FNode 4 [FNode p []; enc_token t]
  | NmRegion b h => FNode 5 [h; enc_name b]
  | NmRechunkIO b h => FNode 6 [h; enc_name b]
  | NmRc1 h => FNode 7 [h]
  | NmRandom d h => FNode 8 [FNode d []; h]
  end.

Definition enc_cls (c : clsid) : ftree :=
  match c with
  | KGen c => FNode 20 [FNode c []] | KGenNC c => FNode 26 [FNode c []] | KRed c => FNode 21 [FNode c []] | KRechunk => FNode 22 []
  | KTasksRechunk => FNode 23 [] | KRandom c => FNode 24 [FNode c []] | KRootAlias => FNode 25 []
  end.

Definition enc_harg (a : harg ftree) : ftree :=
  match a with
  | HCls c => FNode 10 [enc_cls c]
  | HLit z => FNode 11 [FNode z []]
  | HObj z => FNode 12 [FNode z []]
  | HTok t => FNode 13 [enc_token t]
  | HName n => FNode 14 [enc_name n]
  | HHash h => FNode 15 [h]
  end.

Definition FHm (l : list (harg ftree)) : ftree := FNode 100 (map enc_harg l).
Definition FHp (l : list (harg ftree)) : ftree := FNode 101 (map enc_harg l).

Lemma enc_token_name_inj :
  (forall t t', enc_token t = enc_token t' -> t = t') /\
  (forall n n', enc_name n = enc_name n' -> n = n').
Proof.
  apply token_name_ind; intros;
    match goal with E : _ = _ ?x |- _ => destruct x; try discriminate E; injection E; intros; subst end;
    f_equal; auto.
Qed.

Lemma enc_cls_inj : forall c c', enc_cls c = enc_cls c' -> c = c'.
Proof. intros c c' E. destruct c, c'; try discriminate E; try reflexivity; injection E as ->; reflexivity. Qed.

Lemma enc_harg_inj : forall a b, enc_harg a = enc_harg b -> a = b.
Proof.
  intros a b E. destruct a, b; try discriminate E; injection E as E; f_equal;
    auto using enc_cls_inj, (proj1 enc_token_name_inj), (proj2 enc_token_name_inj).
Qed.

Lemma map_enc_inj : forall a b, map enc_harg a = map enc_harg b -> a = b.
Proof.
  induction a as [|x a IHa]; destruct b as [|y b]; cbn [map]; intro E; try discriminate E.
  - reflexivity.
  - injection E as E1 E2. rewrite (enc_harg_inj _ _ E1), (IHa _ E2). reflexivity.
Qed.

Lemma FHm_inj : forall a b, FHm a = FHm b -> a = b.
Proof. intros a b E. injection E as E. apply map_enc_inj. exact E. Qed.
Lemma FHp_inj : forall a b, FHp a = FHp b -> a = b.
Proof. intros a b E. injection E as E. apply map_enc_inj. exact E. Qed.

(* decidable equality of the free names (for the store lookups) *)
Fixpoint ftree_eqb (a b : ftree) : bool :=
  match a, b with
  | FNode x l, FNode y m =>
      (x =? y) &&
      (fix go (l m : list ftree) : bool :=
         match l, m with
         | [], [] => true
         | p :: l', q :: m' => ftree_eqb p q && go l' m'
         | _, _ => false
         end) l m
  end.

Fixpoint ftree_rect' (P : ftree -> Prop) (f : forall z l, Forall P l -> P (FNode z l)) (t : ftree) : P t :=
  match t with
  | FNode z l =>
      f z l ((fix go (l : list ftree) : Forall P l :=
                match l return Forall P l with
                | [] => Forall_nil P
                | x :: r => Forall_cons x (ftree_rect' P f x) (go r)
                end) l)
  end.

Lemma ftree_eqb_spec : forall a b, ftree_eqb a b = true <-> a = b.
Proof.
  intro a. induction a as [x l IHl] using ftree_rect'. intros [y m]. cbn [ftree_eqb].
  rewrite andb_true_iff, Z.eqb_eq.
  assert (L : (fix go (l m : list ftree) : bool :=
                 match l, m with
                 | [], [] => true
                 | p :: l', q :: m' => ftree_eqb p q && go l' m'
                 | _, _ => false
                 end) l m = true <-> l = m).
  { revert m. induction IHl as [|p l' Hp Hl IH]; intros [|q m']; split; intro E; try discriminate E; try reflexivity.
    - apply andb_true_iff in E. destruct E as [E1 E2]. apply Hp in E1. apply IH in E2. subst. reflexivity.
    - injection E as -> ->. apply andb_true_iff. split; [apply Hp; reflexivity | apply IH; reflexivity]. }
  rewrite L. split.
  - intros [-> ->]. reflexivity.
  - intro E. injection E as -> ->. split; reflexivity.
Qed.

Definition fname_eqb (n m : name ftree) : bool := ftree_eqb (enc_name n) (enc_name m).

Lemma fname_eqb_spec : forall a b, fname_eqb a b = true <-> a = b.
Proof.
  intros a b. unfold fname_eqb. rewrite ftree_eqb_spec. split.
  - apply (proj2 enc_token_name_inj).
  - intros ->. reflexivity.
Qed.
