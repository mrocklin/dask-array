(* Correctness of block-slice planning: _slice_1d (model: slice_1d_slice) and
   new_blockdim, for every axis length, every chunking (zero-length chunks
   included) and every normalized slice. *)
From DA Require Import PyBase PyBaseFacts Slicing NormalizeFacts Slice1dBase.
Open Scope Z_scope.

(* Normalized slices: a (slight) superset of the outputs of normalize_slice
   for a nonzero step.
   positive step:  start is None or 0 <= start <= dim,
                   stop  is None or 0 <= stop <= dim, and start <= stop;
   negative step:  start is None or 0 <= start <= dim - 1,
                   stop  is None or 0 <= stop  <= dim - 1. *)
Definition opt_between (lo hi : Z) (o : option Z) : bool :=
  match o with None => true | Some a => (lo <=? a) && (a <=? hi) end.

Definition normalized_b (idx : pslice) (dim : Z) : bool :=
  let k := step_of idx in
  if k >? 0 then
    opt_between 0 dim (s_start idx) && opt_between 0 dim (s_stop idx) &&
    match s_start idx, s_stop idx with Some a, Some b => a <=? b | _, _ => true end
  else if k <? 0 then
    opt_between 0 (dim - 1) (s_start idx) && opt_between 0 (dim - 1) (s_stop idx)
  else false.

Definition normalized (idx : pslice) (dim : Z) : Prop :=
  (0 < step_of idx /\
   (forall a, s_start idx = Some a -> 0 <= a <= dim) /\
   (forall b, s_stop idx = Some b -> 0 <= b <= dim) /\
   (forall a b, s_start idx = Some a -> s_stop idx = Some b -> a <= b))
  \/
  (step_of idx < 0 /\
   (forall a, s_start idx = Some a -> 0 <= a <= dim - 1) /\
   (forall b, s_stop idx = Some b -> 0 <= b <= dim - 1)).

Lemma opt_between_iff lo hi o : opt_between lo hi o = true <-> forall a, o = Some a -> lo <= a <= hi.
Proof.
  destruct o as [x|]; cbn [opt_between]; split; intros H.
  - intros a [= <-]. lia.
  - specialize (H x eq_refl). lia.
  - discriminate.
  - reflexivity.
Qed.

Lemma normalized_b_iff idx dim : normalized_b idx dim = true <-> normalized idx dim.
Proof.
  unfold normalized_b, normalized.
  destruct (step_of idx >? 0) eqn:E1; [|destruct (step_of idx <? 0) eqn:E2].
  - rewrite !andb_true_iff, !opt_between_iff. split.
    + intros [[H1 H2] H3]. left. split; [lia|]. split; [exact H1|]. split; [exact H2|].
      intros a b Ea Eb. rewrite Ea, Eb in H3. lia.
    + intros [(_ & H1 & H2 & H3) | (H & _)]; [|lia]. split; [split; assumption|].
      destruct (s_start idx) as [a|], (s_stop idx) as [b|]; try reflexivity.
      specialize (H3 a b eq_refl eq_refl). lia.
  - rewrite andb_true_iff, !opt_between_iff. split.
    + intros [H1 H2]. right. split; [lia|]. split; assumption.
    + intros [(H & _) | (_ & H1 & H2)]; [lia|]. split; assumption.
  - split; [discriminate|]. intros [(H & _) | (H & _)]; lia.
Qed.

Lemma normalized_opt_pos (ca cb ck : bool) a b k n :
  0 < k -> 0 <= a <= b -> b <= n -> (ck = true -> k = 1) ->
  normalized (mkslice (if ca then None else Some a) (if cb then None else Some b)
                      (if ck then None else Some k)) n.
Proof.
  intros Hk Ha Hb Hck. left. unfold step_of. cbn [s_start s_stop s_step].
  split; [destruct ck; lia|].
  repeat split; destruct ca, cb; intros; try discriminate;
    repeat match goal with H : Some _ = Some _ |- _ => injection H as <- end; lia.
Qed.

Lemma normalized_opt_neg (ca cb : bool) a b k n :
  k < 0 -> (ca = false -> 0 <= a <= n - 1) -> (cb = false -> 0 <= b <= n - 1) ->
  normalized (mkslice (if ca then None else Some a) (if cb then None else Some b) (Some k)) n.
Proof.
  intros Hk Ha Hb. right. split; [exact Hk|]. cbn [s_start s_stop].
  split; [destruct ca | destruct cb]; intros x Hx; try discriminate; injection Hx as <-; auto.
Qed.

Theorem normalize_slice_normalized s dim :
  0 <= dim -> step_of s <> 0 -> normalized (normalize_slice s dim) dim.
Proof.
  intros Hn Hk.
  destruct (indices s dim) as [[a b] k] eqn:Hi.
  pose proof (indices_bounds s dim a b k Hn Hi) as (Hstep & Hpos & Hneg).
  destruct (Z_lt_le_dec 0 k) as [Hk0|Hk0].
  - destruct Hpos as [Ha Hb]; [lia|]. rewrite (normalize_slice_pos s dim a b k) by (assumption || lia).
    destruct (b <? a) eqn:Eba.
    + apply (normalized_opt_pos false false); lia.
    + apply normalized_opt_pos; lia.
  - destruct Hneg as [Ha Hb]; [lia|]. unfold normalize_slice. rewrite Hi.
    replace (k >? 0) with false by lia. replace (k <? 0) with true by lia.
    destruct (a >=? dim - 1) eqn:Ea; [|destruct (a <? 0) eqn:Ea0].
    + apply (normalized_opt_neg true (b <? 0) a); lia.
    + apply (normalized_opt_neg false false); lia.
    + apply (normalized_opt_neg false (b <? 0)); lia.
Qed.

Lemma valid_chunks_nonneg lengths dim : valid_chunks lengths dim -> Forall nonneg lengths /\ 0 <= dim.
Proof. intros [Hnn <-]. split; [exact Hnn | apply zsum_nonneg; exact Hnn]. Qed.

Lemma sel_local_pos a b k n :
  0 < k -> 0 <= a < n -> 0 < b <= n -> sel (mkslice (Some a) (Some b) (Some k)) n = zrange a b k.
Proof.
  intros Hk Ha Hb. unfold sel.
  rewrite (indices_opt_pos false false false a b k n) by (lia || discriminate). reflexivity.
Qed.

Lemma sel_colon_explicit n : 0 <= n -> sel (mkslice (Some 0) (Some n) (Some 1)) n = sel colon n.
Proof.
  intros Hn. unfold sel, colon.
  rewrite (indices_opt_pos false false false 0 n 1 n), (indices_opt_pos true true true 0 n 1 n)
    by (lia || discriminate || reflexivity).
  reflexivity.
Qed.

Lemma abs_positions_colonize lengths i v :
  Forall nonneg lengths ->
  abs_positions lengths (colonize lengths (i, v)) = abs_positions lengths (i, LSlice v).
Proof.
  intros Hnn. unfold colonize.
  destruct (pslice_eqb v (mkslice (Some 0) (Some (nthZ lengths i)) (Some 1))) eqn:E; [|reflexivity].
  apply pslice_eqb_eq in E. subst v. unfold abs_positions. f_equal.
  symmetry. apply sel_colon_explicit. apply nthZ_nonneg. exact Hnn.
Qed.

Lemma colonize_fst lengths e : fst (colonize lengths e) = fst e.
Proof. destruct e as [k v]. unfold colonize. break_if; reflexivity. Qed.

Lemma plan_positions_cons lengths e plan :
  plan_positions lengths (e :: plan) = abs_positions lengths e ++ plan_positions lengths plan.
Proof. reflexivity. Qed.

(* the tail of _slice_1d: colonize, and the x[:0] special case.  Both loop branches of
   slice_1d_slice end in this match, so the model is [finish lengths d] by conversion. *)
Definition finish (lengths : list Z) (d : list (Z * pslice)) : list (Z * ploc) :=
  match d with
  | [] => [(0, LSlice (mkslice (Some 0) (Some 0) (Some 1)))]
  | _ => map (colonize lengths) d
  end.

Lemma finish_nil lengths : finish lengths [] = [(0, LSlice (mkslice (Some 0) (Some 0) (Some 1)))].
Proof. reflexivity. Qed.

Lemma finish_cons lengths e t : finish lengths (e :: t) = map (colonize lengths) (e :: t).
Proof. reflexivity. Qed.

Lemma plan_positions_finish lengths d :
  Forall nonneg lengths ->
  plan_positions lengths (finish lengths d) = plan_positions lengths (map (fun e => (fst e, LSlice (snd e))) d).
Proof.
  intros Hnn. destruct d as [|e0 t].
  - rewrite finish_nil. unfold plan_positions. cbn [map concat abs_positions].
    rewrite sel_same_endpoints. reflexivity.
  - rewrite finish_cons. unfold plan_positions. rewrite !map_map. f_equal. apply map_ext.
    intros [i v]. apply abs_positions_colonize. exact Hnn.
Qed.

Lemma abs_positions_at lengths pre len rest s :
  lengths = pre ++ len :: rest ->
  abs_positions lengths (lenZ pre, LSlice s) = map (fun p => zsum pre + p) (sel s len).
Proof. intros ->. unfold abs_positions. rewrite firstnZ_lenZ_app, nthZ_lenZ_app. reflexivity. Qed.

Lemma s1d_pos_stop_nonpos ls : forall i start stop step,
  Forall nonneg ls -> stop <= 0 -> s1d_pos i ls start stop step = [].
Proof.
  induction ls as [|len t IH]; intros i start stop step Hnn Hs; cbn [s1d_pos]; [reflexivity|].
  inversion Hnn as [|x l Hx Ht]; subst. unfold nonneg in Hx.
  destruct ((start <? len) && (stop >? 0)) eqn:E; [lia|].
  apply IH; [exact Ht | lia].
Qed.

(* Loop invariant of the positive-step loop.  [ls] is the segment of blocks
   still to visit; it starts at block number i = |pre|, i.e. at absolute
   offset zsum pre; [start] (>= 0) is the next selected position and [stop]
   the end of the selection, both relative to that offset.  The pieces
   emitted for the remaining blocks enumerate exactly the rest of the range,
   cut at the end of the segment. *)
Theorem s1d_pos_positions lengths :
  Forall nonneg lengths ->
  forall ls pre post i start stop step,
    lengths = pre ++ ls ++ post -> i = lenZ pre -> 0 < step -> 0 <= start ->
    plan_positions lengths (map (fun e => (fst e, LSlice (snd e))) (s1d_pos i ls start stop step)) =
    zrange (zsum pre + start) (Z.min (zsum pre + stop) (zsum pre + zsum ls)) step.
Proof.
  intros Hnn ls.
  induction ls as [|len t IH]; intros pre post i start stop step Hl Hi Hk Hs.
  - cbn [s1d_pos map zsum]. symmetry. apply zrange_nil_pos; lia.
  - destruct (segment_step lengths pre len t post i Hnn Hl Hi) as (Hl' & Hi' & Hz & Hlen & Ht).
    pose proof (zsum_nonneg t Ht) as Hzt.
    destruct (Z_le_gt_dec stop 0) as [Hstop|Hstop].
    { rewrite s1d_pos_stop_nonpos by (try constructor; assumption). cbn [map].
      symmetry. apply zrange_nil_pos; lia. }
    cbn [s1d_pos zsum].
    destruct ((start <? len) && (stop >? 0)) eqn:E.
    + cbn [map fst snd]. rewrite plan_positions_cons.
      rewrite (IH (pre ++ [len]) post (i + 1) _ _ step Hl' Hi' Hk) by (apply Z.mod_pos_bound; lia).
      rewrite Hi, (abs_positions_at lengths pre len (t ++ post)), sel_local_pos, zrange_shift, Hz
        by (assumption || lia).
      rewrite (zrange_split_pos (zsum pre + start) (Z.min (zsum pre + stop) (zsum pre + (len + zsum t)))
                 (zsum pre + len) step) by lia.
      replace (zsum pre + start - (zsum pre + len)) with (start - len) by ring.
      f_equal; f_equal; lia.
    + rewrite (IH (pre ++ [len]) post (i + 1) _ _ step Hl' Hi' Hk) by lia.
      rewrite Hz. f_equal; lia.
Qed.

Definition stop_pos (idx : pslice) (dim : Z) : Z := match s_stop idx with None => dim | Some b => b end.

Lemma model_step_of idx :
  step_of idx <> 0 ->
  match s_step idx with None => 1 | Some k => if k =? 0 then 1 else k end = step_of idx.
Proof.
  unfold step_of. destruct (s_step idx) as [k|]; [|reflexivity].
  intros H. destruct (k =? 0) eqn:E; [lia | reflexivity].
Qed.

Lemma indices_normalized_pos idx dim :
  0 <= dim -> 0 < step_of idx ->
  (forall a, s_start idx = Some a -> 0 <= a <= dim) ->
  (forall b, s_stop idx = Some b -> 0 <= b <= dim) ->
  indices idx dim = (start_or0 idx, stop_pos idx dim, step_of idx) /\
  0 <= start_or0 idx <= dim /\ 0 <= stop_pos idx dim <= dim.
Proof.
  intros Hdim Hk Ha Hb.
  assert (0 <= start_or0 idx <= dim) as Hsa.
  { unfold start_or0. destruct (s_start idx) as [a|]; [apply Ha; reflexivity | lia]. }
  assert (0 <= stop_pos idx dim <= dim /\ clip_stop (s_stop idx) dim = stop_pos idx dim) as [Hsb Hclip].
  { unfold stop_pos, clip_stop. destruct (s_stop idx) as [b|]; [specialize (Hb b eq_refl)|]; lia. }
  split; [|split; assumption].
  rewrite (indices_nonneg idx dim Hdim Hk).
  - rewrite Hclip, Z.min_l by lia. reflexivity.
  - intros x Hx. apply Ha in Hx. lia.
  - intros x Hx. apply Hb in Hx. lia.
Qed.

Lemma start_le_stop idx dim :
  0 <= start_or0 idx <= dim -> 0 <= stop_pos idx dim <= dim ->
  (forall a b, s_start idx = Some a -> s_stop idx = Some b -> a <= b) -> start_or0 idx <= stop_pos idx dim.
Proof.
  intros Hsa Hsb Hab. unfold start_or0, stop_pos in *.
  destruct (s_start idx) as [a|], (s_stop idx) as [b|]; try lia. apply Hab; reflexivity.
Qed.

(* The positive-step branch runs the loop over a segment [ls] of consecutive blocks
   that begins at or before the start (bisect_right) and ends at or after the stop
   (bisect_left), with start and stop taken relative to the offset of the segment. *)
Lemma slice_1d_slice_pos dim lengths idx :
  Forall nonneg lengths -> pslice_eqb idx colon = false -> 0 < step_of idx ->
  0 <= start_or0 idx -> 0 <= stop_pos idx dim <= zsum lengths ->
  exists pre ls post,
    lengths = pre ++ ls ++ post /\
    zsum pre <= start_or0 idx /\ stop_pos idx dim <= zsum pre + zsum ls /\
    slice_1d_slice dim lengths idx =
      finish lengths (s1d_pos (lenZ pre) ls (start_or0 idx - zsum pre) (stop_pos idx dim - zsum pre)
                              (step_of idx)).
Proof.
  intros Hnn Hne Hk Ha Hb. unfold slice_1d_slice. rewrite Hne, model_step_of by lia.
  replace (step_of idx >? 0) with true by lia.
  fold (start_or0 idx) (stop_pos idx dim). cbv beta iota zeta.
  set (a := start_or0 idx) in *. set (b := stop_pos idx dim) in *.
  replace (a <? 0) with false by lia. replace (b <? 0) with false by lia.
  pose proof (bisect_right_cumsum lengths 0 a) as (Hj & Hlo & _). fold (cumsum lengths) in *.
  set (istart := bisect_right (cumsum lengths) a) in *.
  set (istop := Z.min (bisect_left (cumsum lengths) b + 1) (lenZ lengths)).
  assert ((if istart >? 0 then nthZ (cumsum lengths) (istart - 1) else 0) = zsum (firstnZ istart lengths)) as ->.
  { destruct (istart >? 0) eqn:E; [rewrite cumsum_nthZ by lia | rewrite zsum_firstnZ_0 by lia]; reflexivity. }
  exists (firstnZ istart lengths), (firstnZ (istop - istart) (skipnZ istart lengths)),
         (skipnZ (istop - istart) (skipnZ istart lengths)).
  split; [apply split3|]. rewrite lenZ_firstnZ by lia.
  split; [lia|]. split; [|reflexivity].
  (* the blocks up to istop reach the stop *)
  pose proof (bisect_left_reach lengths b istop Hnn ltac:(lia) ltac:(lia)) as H0.
  pose proof (zsum_firstnZ_add_le lengths istart (istop - istart) Hnn ltac:(lia)) as H1.
  replace (istart + (istop - istart)) with istop in H1 by ring. lia.
Qed.

(* index == colon: every block, whole *)
Lemma all_colon_positions lengths :
  Forall nonneg lengths ->
  forall ls pre post i,
    lengths = pre ++ ls ++ post -> i = lenZ pre ->
    plan_positions lengths (all_colon_from i ls) = zrange (zsum pre) (zsum pre + zsum ls) 1.
Proof.
  intros Hnn ls. induction ls as [|len t IH]; intros pre post i Hl Hi.
  - cbn [all_colon_from zsum]. symmetry. apply zrange_nil_pos; lia.
  - destruct (segment_step lengths pre len t post i Hnn Hl Hi) as (Hl' & Hi' & Hz & Hlen & Ht).
    pose proof (zsum_nonneg t Ht) as Hzt.
    cbn [all_colon_from zsum]. rewrite plan_positions_cons.
    rewrite (IH (pre ++ [len]) post (i + 1) Hl' Hi'), Hz.
    rewrite Hi, (abs_positions_at lengths pre len (t ++ post)) by exact Hl.
    change (sel colon len) with (zrange 0 len 1). rewrite zrange_shift.
    rewrite (zrange_split_pos (zsum pre) (zsum pre + (len + zsum t)) (zsum pre + len) 1) by lia.
    rewrite Z.mod_1_r. f_equal; f_equal; lia.
Qed.

Lemma all_colon_lengths lengths :
  Forall nonneg lengths ->
  forall ls pre post i, lengths = pre ++ ls ++ post -> i = lenZ pre ->
  map (fun e => lenZ (abs_positions lengths e)) (all_colon_from i ls) = ls.
Proof.
  intros Hnn ls. induction ls as [|len t IH]; intros pre post i Hl Hi; [reflexivity|].
  destruct (segment_step lengths pre len t post i Hnn Hl Hi) as (Hl' & Hi' & _ & Hlen & _).
  cbn [all_colon_from map]. rewrite (IH (pre ++ [len]) post (i + 1) Hl' Hi'). f_equal.
  rewrite Hi, (abs_positions_at lengths pre len (t ++ post)) by exact Hl.
  unfold lenZ. rewrite map_length, sel_length. change (slice_len colon len) with (range_len 0 len 1).
  rewrite range_len_unit. lia.
Qed.

Theorem slice_1d_partition_pos dim lengths idx :
  valid_chunks lengths dim -> normalized idx dim -> 0 < step_of idx ->
  plan_positions lengths (slice_1d_slice dim lengths idx) = sel idx dim.
Proof.
  intros Hv [(Hk & Ha & Hb & Hab) | (Hk & _)] Hk'; [clear Hk' | lia].
  destruct (valid_chunks_nonneg _ _ Hv) as [Hnn Hdim]. destruct Hv as [_ Hsum].
  unfold sel. destruct (indices_normalized_pos idx dim Hdim Hk Ha Hb) as (-> & Hsa & Hsb).
  destruct (pslice_eqb idx colon) eqn:Hc.
  - apply pslice_eqb_eq in Hc. subst idx. unfold slice_1d_slice. cbn [pslice_eqb colon s_start s_stop s_step oZ_eqb andb].
    rewrite (all_colon_positions lengths Hnn lengths [] [] 0).
    + cbn [zsum]. rewrite Hsum. reflexivity.
    + rewrite app_nil_r. reflexivity.
    + reflexivity.
  - destruct (slice_1d_slice_pos dim lengths idx Hnn Hc Hk) as (pre & ls & post & Hl & Hlo & Hhi & ->); [lia | lia |].
    rewrite plan_positions_finish by exact Hnn.
    rewrite (s1d_pos_positions lengths Hnn ls pre post _ _ _ _ Hl eq_refl Hk) by lia.
    f_equal; lia.
Qed.

Definition in_window (istart istop : Z) (b : Z * Z * Z) : bool :=
  let '(i, _, _) := b in (istop <? i) && (i <=? istart).

Lemma block_bounds_from_app l1 : forall i off l2,
  block_bounds_from i off (l1 ++ l2) =
  block_bounds_from i off l1 ++ block_bounds_from (i + lenZ l1) (off + zsum l1) l2.
Proof.
  induction l1 as [|x t IH]; intros i off l2.
  - cbn [app block_bounds_from zsum]. unfold lenZ. cbn [length]. f_equal; lia.
  - cbn [app block_bounds_from zsum]. rewrite IH, lenZ_cons. f_equal. f_equal. f_equal; lia.
Qed.

Lemma filter_window_all ls : forall i off istart istop,
  istop < i -> i + lenZ ls - 1 <= istart ->
  filter (in_window istart istop) (block_bounds_from i off ls) = block_bounds_from i off ls.
Proof.
  induction ls as [|x t IH]; intros i off istart istop H1 H2; [reflexivity|].
  rewrite lenZ_cons in H2. pose proof (lenZ_nonneg t).
  cbn [block_bounds_from filter in_window].
  assert ((istop <? i) && (i <=? istart) = true) as -> by lia.
  rewrite IH by lia. reflexivity.
Qed.

Lemma filter_window_none ls : forall i off istart istop,
  istart <= istop \/ i + lenZ ls - 1 <= istop \/ istart < i ->
  filter (in_window istart istop) (block_bounds_from i off ls) = [].
Proof.
  induction ls as [|x t IH]; intros i off istart istop H; [reflexivity|].
  rewrite lenZ_cons in H. pose proof (lenZ_nonneg t).
  cbn [block_bounds_from filter in_window].
  assert ((istop <? i) && (i <=? istart) = false) as -> by lia.
  apply IH. lia.
Qed.

(* range(istart, istop, -1) visits, downwards, the segment B of blocks istop+1 .. istart *)
Lemma blocks_desc_segment lengths istart istop :
  -1 <= istop < lenZ lengths -> istart < lenZ lengths ->
  let A := firstnZ (istop + 1) lengths in
  let B := firstnZ (istart - istop) (skipnZ (istop + 1) lengths) in
  let C := skipnZ (istart - istop) (skipnZ (istop + 1) lengths) in
  lengths = A ++ B ++ C /\ lenZ A = istop + 1 /\
  blocks_desc lengths istart istop = rev (block_bounds_from (istop + 1) (zsum A) B).
Proof.
  intros H1 H2 A B C.
  assert (lengths = A ++ B ++ C) as Hl by apply split3.
  assert (lenZ A = istop + 1) as HA by (apply lenZ_firstnZ; lia).
  split; [exact Hl|]. split; [exact HA|].
  unfold blocks_desc. fold (in_window istart istop). f_equal. unfold block_bounds.
  destruct (Z_le_gt_dec istart istop) as [Hii|Hii].
  { rewrite filter_window_none by lia. unfold B, firstnZ.
    replace (Z.to_nat (istart - istop)) with 0%nat by lia. reflexivity. }
  assert (lenZ B = istart - istop) as HB by (unfold B; rewrite lenZ_firstnZ; rewrite ?lenZ_skipnZ; lia).
  rewrite Hl at 1.
  rewrite !block_bounds_from_app, !filter_app, filter_window_none, filter_window_all, filter_window_none by lia.
  rewrite app_nil_r. cbn [app]. f_equal; lia.
Qed.

Lemma s1d_neg_nil blocks : forall rstart stop step,
  rstart <= stop -> s1d_neg blocks rstart stop step = [].
Proof.
  induction blocks as [|[[i cstart] cstop] t IH]; intros rstart stop step H; [reflexivity|].
  cbn [s1d_neg].
  assert ((cstart <=? rstart) && (rstart <? cstop) && (rstart >? stop) = false) as -> by lia.
  apply IH. exact H.
Qed.

Lemma sel_local_neg a b k n :
  k < 0 -> - n <= a < 0 -> - n - 1 <= b < 0 ->
  sel (mkslice (Some a) (Some b) (Some k)) n = zrange (a + n) (b + n) k.
Proof.
  intros Hk Ha Hb. unfold sel, indices, adjust_endpoint, step_of. cbn [s_start s_stop s_step].
  f_equal; repeat break_if; lia.
Qed.

Lemma block_bounds_from_snoc ls x i off :
  rev (block_bounds_from i off (ls ++ [x])) =
  (i + lenZ ls, off + zsum ls, off + zsum ls + x) :: rev (block_bounds_from i off ls).
Proof.
  rewrite block_bounds_from_app. cbn [block_bounds_from]. rewrite rev_app_distr. reflexivity.
Qed.

(* Loop invariant of the negative-step loop.  [B] is the segment of blocks
   still to visit (they are visited from the last one down); it starts at
   block number i = |pre|, i.e. at absolute offset zsum pre.  [rstart] is the
   next selected (absolute) position, which must lie below the end of the
   segment, [stop] the (exclusive, absolute) end of the selection.  The pieces
   emitted enumerate exactly the rest of the range that lies at or above the
   start of the segment. *)
Theorem s1d_neg_positions lengths :
  forall B pre post i rstart stop step,
    lengths = pre ++ B ++ post -> i = lenZ pre -> Forall nonneg B ->
    step < 0 -> rstart < zsum pre + zsum B ->
    plan_positions lengths
      (map (fun e => (fst e, LSlice (snd e)))
           (s1d_neg (rev (block_bounds_from i (zsum pre) B)) rstart stop step)) =
    zrange rstart (Z.max stop (zsum pre - 1)) step.
Proof.
  intros B. induction B as [|x B' IH] using rev_ind; intros pre post i rstart stop step Hl Hi Hnn Hk Hr.
  - cbn [block_bounds_from rev s1d_neg map]. cbn [zsum] in Hr.
    symmetry. apply zrange_nil_neg; lia.
  - destruct (segment_last lengths pre B' x post i Hl Hi) as (Hl' & Hl2 & Hi2 & Hz).
    apply Forall_app in Hnn as [HB' Hx]. apply Forall_inv in Hx. unfold nonneg in Hx.
    pose proof (zsum_nonneg B' HB') as HzB.
    rewrite zsum_app in Hr. cbn [zsum] in Hr.
    destruct (Z_le_gt_dec rstart stop) as [Hrs|Hrs].
    { rewrite s1d_neg_nil by exact Hrs. cbn [map]. symmetry. apply zrange_nil_neg; lia. }
    rewrite block_bounds_from_snoc. cbn [s1d_neg].
    set (c := zsum pre + zsum B') in *.
    destruct ((c <=? rstart) && (rstart <? c + x) && (rstart >? stop)) eqn:E.
    + cbn [map fst snd]. rewrite plan_positions_cons.
      rewrite (IH pre (x :: post) i _ stop step Hl' Hi HB' Hk).
      2: { fold c. pose proof (Z.mod_neg_bound (rstart - (c - 1)) step Hk). lia. }
      rewrite Hi2, (abs_positions_at lengths (pre ++ B') x post), Hz, sel_local_neg, zrange_shift
        by (assumption || lia).
      rewrite (zrange_split_neg rstart (Z.max stop (zsum pre - 1)) (c - 1) step) by lia.
      f_equal; f_equal; lia.
    + apply (IH pre (x :: post) i rstart stop step Hl' Hi HB' Hk). fold c. lia.
Qed.

Definition start_neg (idx : pslice) (dim : Z) : Z := match s_start idx with None => dim - 1 | Some a => a end.
Definition stop_neg (idx : pslice) : Z := match s_stop idx with None => -1 | Some b => b end.

Lemma indices_normalized_neg idx dim :
  0 <= dim -> step_of idx < 0 ->
  (forall a, s_start idx = Some a -> 0 <= a <= dim - 1) ->
  (forall b, s_stop idx = Some b -> 0 <= b <= dim - 1) ->
  indices idx dim = (start_neg idx dim, stop_neg idx, step_of idx) /\
  -1 <= start_neg idx dim <= dim - 1 /\ -1 <= stop_neg idx <= dim - 1.
Proof.
  intros Hdim Hk Ha Hb. unfold indices. rewrite !adjust_endpoint_neg by assumption.
  split; [reflexivity|]. split.
  - unfold start_neg. destruct (s_start idx) as [a|]; [specialize (Ha a eq_refl)|]; lia.
  - unfold stop_neg. destruct (s_stop idx) as [b|]; [specialize (Hb b eq_refl)|]; lia.
Qed.

(* The negative-step branch runs the loop, downwards, over a segment [B] of consecutive
   blocks that ends above the start (block bisect_right + 1, capped at the last one)
   and begins at or below the position after the stop. *)
Lemma slice_1d_slice_neg dim lengths idx :
  valid_chunks lengths dim -> step_of idx < 0 ->
  (forall a, s_start idx = Some a -> 0 <= a <= dim - 1) ->
  (forall b, s_stop idx = Some b -> 0 <= b <= dim - 1) ->
  exists pre B post,
    lengths = pre ++ B ++ post /\ Forall nonneg B /\
    start_neg idx dim < zsum pre + zsum B /\ zsum pre - 1 <= stop_neg idx /\
    slice_1d_slice dim lengths idx =
      finish lengths (s1d_neg (rev (block_bounds_from (lenZ pre) (zsum pre) B))
                              (start_neg idx dim) (stop_neg idx) (step_of idx)).
Proof.
  intros Hv Hk Ha Hb. destruct (valid_chunks_nonneg _ _ Hv) as [Hnn Hdim]. destruct Hv as [_ Hsum].
  destruct (indices_normalized_neg idx dim Hdim Hk Ha Hb) as (_ & Hsa & Hsb).
  unfold slice_1d_slice.
  assert (pslice_eqb idx colon = false) as ->.
  { destruct (pslice_eqb idx colon) eqn:E; [|reflexivity].
    apply pslice_eqb_eq in E. subst idx. cbn in Hk. lia. }
  rewrite model_step_of by lia. replace (step_of idx >? 0) with false by lia.
  fold (start_neg idx dim). cbv beta iota zeta.
  set (t := match s_stop idx with Some b0 => b0 | None => - (dim + 1) end).
  assert ((if t <? 0 then t + dim else t) = stop_neg idx) as ->.
  { unfold t, stop_neg. destruct (s_stop idx) as [b0|]; [specialize (Hb b0 eq_refl)|]; break_if; lia. }
  assert (start_neg idx dim < 0 -> dim = 0) as Hz.
  { unfold start_neg. destruct (s_start idx) as [a0|]; [specialize (Ha a0 eq_refl)|]; lia. }
  set (a := start_neg idx dim) in *. set (b := stop_neg idx) in *.
  replace (a >=? dim) with false by lia. cbv iota.
  assert ((if a <? 0 then a + dim else a) = a) as -> by (break_if; lia).
  rewrite cumsum_lenZ.
  pose proof (bisect_right_cumsum lengths 0 a) as (Hj & _).
  pose proof (bisect_right_cumsum lengths 0 b) as (Hj' & Hjb & _).
  fold (cumsum lengths) in *.
  set (j := bisect_right (cumsum lengths) a) in *.
  set (j' := bisect_right (cumsum lengths) b) in *.
  set (istart := Z.min (j + 1) (lenZ lengths - 1)).
  set (istop := Z.max (j' - 1) (-1)).
  pose proof (lenZ_nonneg lengths) as Hlen.
  destruct (blocks_desc_segment lengths istart istop) as (Hl & HlA & ->); [lia | lia |].
  eexists _, _, _. split; [exact Hl|]. rewrite HlA.
  split; [apply Forall_firstn, Forall_skipn; exact Hnn|].
  split; [|split; [|reflexivity]].
  - (* the selection starts below the end of block istart *)
    pose proof (bisect_right_reach lengths a (istart + 1) Hnn ltac:(lia) ltac:(lia)) as U.
    pose proof (zsum_firstnZ_add_le lengths (istop + 1) (istart - istop) Hnn ltac:(lia)) as H1.
    replace (istop + 1 + (istart - istop)) with (istart + 1) in H1 by ring. lia.
  - (* it stops at or above the last position before block istop + 1 *)
    unfold istop. destruct (Z_le_gt_dec j' 0) as [H|H].
    + rewrite Z.max_r, zsum_firstnZ_0 by lia. lia.
    + rewrite Z.max_l by lia. replace (j' - 1 + 1) with j' by ring. lia.
Qed.

Theorem slice_1d_partition_neg dim lengths idx :
  valid_chunks lengths dim -> normalized idx dim -> step_of idx < 0 ->
  plan_positions lengths (slice_1d_slice dim lengths idx) = sel idx dim.
Proof.
  intros Hv [(Hk & _) | (Hk & Ha & Hb)] Hk'; [lia | clear Hk'].
  destruct (slice_1d_slice_neg dim lengths idx Hv Hk Ha Hb) as (pre & B & post & Hl & HB & Hlo & Hhi & ->).
  destruct (valid_chunks_nonneg _ _ Hv) as [Hnn Hdim].
  unfold sel. destruct (indices_normalized_neg idx dim Hdim Hk Ha Hb) as (-> & _).
  rewrite plan_positions_finish by exact Hnn.
  rewrite (s1d_neg_positions lengths B pre post _ _ _ _ Hl eq_refl HB Hk Hlo).
  f_equal. lia.
Qed.

Theorem slice_1d_partition dim lengths idx :
  valid_chunks lengths dim -> normalized idx dim ->
  plan_positions lengths (slice_1d_slice dim lengths idx) = sel idx dim.
Proof.
  intros Hv Hn.
  pose proof Hn as [(Hk & _)|(Hk & _)]; [apply slice_1d_partition_pos | apply slice_1d_partition_neg]; assumption.
Qed.

Fixpoint asc_in {A} (lo hi : Z) (l : list (Z * A)) : Prop :=
  match l with [] => True | e :: t => lo <= fst e < hi /\ asc_in (fst e + 1) hi t end.

Lemma asc_in_Forall {A} (l : list (Z * A)) : forall lo hi,
  asc_in lo hi l -> Forall (fun e => lo <= fst e < hi) l.
Proof.
  induction l as [|e t IH]; intros lo hi H; [constructor|].
  cbn [asc_in] in H. destruct H as [Hb Ht]. constructor; [exact Hb|].
  eapply Forall_impl; [|exact (IH _ _ Ht)]. cbv beta. intros; lia.
Qed.

Lemma asc_in_NoDup {A} (l : list (Z * A)) : forall lo hi, asc_in lo hi l -> NoDup (map fst l).
Proof.
  induction l as [|e t IH]; intros lo hi H; cbn [map]; [constructor|].
  cbn [asc_in] in H. destruct H as [Hb Ht]. constructor; [|exact (IH _ _ Ht)].
  intros Hin. apply in_map_iff in Hin as (e' & He' & Hin').
  pose proof (asc_in_Forall t _ _ Ht) as HF. rewrite Forall_forall in HF.
  specialize (HF e' Hin'). lia.
Qed.

Lemma asc_in_map {A B} (f : Z * A -> Z * B) (l : list (Z * A)) :
  (forall e, fst (f e) = fst e) -> forall lo hi, asc_in lo hi l -> asc_in lo hi (map f l).
Proof.
  intros Hf. induction l as [|e t IH]; intros lo hi H; [exact I|].
  cbn [map asc_in] in *. rewrite Hf. destruct H as [Hb Ht]. split; [exact Hb | exact (IH _ _ Ht)].
Qed.

Lemma asc_in_snoc {A} (l : list (Z * A)) e : forall lo hi,
  asc_in lo hi (l ++ [e]) <-> asc_in lo (fst e) l /\ lo <= fst e < hi.
Proof.
  induction l as [|h t IH]; intros lo hi; cbn [app asc_in]; [tauto|].
  rewrite IH. split; intros H; repeat split; try apply H; lia.
Qed.

(* sorted(d.items()) on a plan in ascending / descending block order *)
Lemma sort_asc {A} (l : list (Z * A)) : forall lo hi, asc_in lo hi l -> sort_by_key l = l.
Proof.
  induction l as [|e t IH]; intros lo hi H; [reflexivity|].
  cbn [asc_in] in H. destruct H as [Hb Ht].
  cbn [sort_by_key]. rewrite (IH _ _ Ht).
  destruct t as [|h t']; [reflexivity|].
  cbn [asc_in] in Ht. cbn [insert_by_key].
  assert (fst e <=? fst h = true) as -> by lia. reflexivity.
Qed.

Lemma insert_last {A} (e : Z * A) (l : list (Z * A)) :
  Forall (fun h => fst h < fst e) l -> insert_by_key e l = l ++ [e].
Proof.
  induction 1 as [|h t Hh Ht IH]; [reflexivity|].
  cbn [insert_by_key app]. assert (fst e <=? fst h = false) as -> by lia.
  rewrite IH. reflexivity.
Qed.

Lemma sort_desc {A} (l : list (Z * A)) : forall lo hi, asc_in lo hi (rev l) -> sort_by_key l = rev l.
Proof.
  induction l as [|e t IH]; intros lo hi H; [reflexivity|].
  cbn [rev] in H. apply asc_in_snoc in H as [Ht Hb].
  cbn [sort_by_key rev]. rewrite (IH _ _ Ht).
  apply insert_last. eapply Forall_impl; [|exact (asc_in_Forall _ _ _ Ht)].
  cbv beta. intros h Hh. lia.
Qed.

Lemma s1d_pos_keys ls : forall i lo hi start stop step,
  lo <= i -> i + lenZ ls <= hi -> asc_in lo hi (s1d_pos i ls start stop step).
Proof.
  induction ls as [|len t IH]; intros i lo hi start stop step Hlo Hhi; [exact I|].
  rewrite lenZ_cons in Hhi. pose proof (lenZ_nonneg t). cbn [s1d_pos].
  destruct ((start <? len) && (stop >? 0)); cbn [asc_in fst]; [split; [lia|]|]; apply IH; lia.
Qed.

Lemma s1d_neg_keys B : forall i off lo hi rstart stop step,
  lo <= i -> i + lenZ B <= hi ->
  asc_in lo hi (rev (s1d_neg (rev (block_bounds_from i off B)) rstart stop step)).
Proof.
  induction B as [|x B' IH] using rev_ind; intros i off lo hi rstart stop step Hlo Hhi; [exact I|].
  rewrite lenZ_app in Hhi. change (lenZ [x]) with 1 in Hhi. pose proof (lenZ_nonneg B').
  rewrite block_bounds_from_snoc. cbn [s1d_neg].
  destruct ((off + zsum B' <=? rstart) && (rstart <? off + zsum B' + x) && (rstart >? stop)).
  - cbn [rev]. apply asc_in_snoc. cbn [fst]. split; [apply IH; lia | lia].
  - apply IH; lia.
Qed.

Lemma all_colon_keys ls : forall i lo hi,
  lo <= i -> i + lenZ ls <= hi -> asc_in lo hi (all_colon_from i ls).
Proof.
  induction ls as [|x t IH]; intros i lo hi Hlo Hhi; [exact I|].
  rewrite lenZ_cons in Hhi. pose proof (lenZ_nonneg t). cbn [all_colon_from asc_in fst].
  split; [lia | apply IH; lia].
Qed.

(* ceil((stop - start) / step) is the length of the local range *)
Lemma ceil_div_pos a b k : 0 < k -> - k < b - a -> ceil_div (b - a) k = range_len a b k.
Proof.
  intros Hk H. unfold ceil_div. rewrite range_len_pos_step by lia.
  destruct (a <? b) eqn:E; Z.to_euclidean_division_equations; nia.
Qed.

Lemma ceil_div_neg a b k : k < 0 -> b < a -> ceil_div (b - a) k = range_len a b k.
Proof.
  intros Hk H. unfold ceil_div. rewrite range_len_neg_step by lia.
  destruct (b <? a) eqn:E; Z.to_euclidean_division_equations; nia.
Qed.

(* The endpoints a, b of a local slice with step k in a block of length len.  k > 0: a is a position of
   the block, b an exclusive end in (0, len], and a - k < b.  k < 0: negative local indices, as NumPy
   counts from the end: a in [-len, 0), b in [-len - 1, a). *)
Definition local_ends (len k a b : Z) : Prop :=
  (0 < k /\ 0 <= a < len /\ 0 < b <= len /\ - k < b - a) \/
  (k < 0 /\ - len <= a < 0 /\ - len - 1 <= b < a).

(* what the loops guarantee about each entry (i, slice(a, b, k)) *)
Definition entry_ok (lengths : list Z) (k : Z) (e : Z * pslice) : Prop :=
  exists a b, snd e = mkslice (Some a) (Some b) (Some k) /\ local_ends (nthZ lengths (fst e)) k a b.

Lemma piece_len_colonize lengths i a b k :
  piece_len lengths (colonize lengths (i, mkslice (Some a) (Some b) (Some k))) = ceil_div (b - a) k.
Proof.
  unfold colonize.
  destruct (pslice_eqb _ _) eqn:E.
  - apply pslice_eqb_eq in E. injection E as -> -> ->. reflexivity.
  - reflexivity.
Qed.

Lemma entry_len lengths k e :
  Forall nonneg lengths -> entry_ok lengths k e ->
  piece_len lengths (colonize lengths e) = lenZ (abs_positions lengths (colonize lengths e)).
Proof.
  intros Hnn (a & b & Hs & H). destruct e as [i s]. cbn [fst snd] in *. subst s.
  rewrite piece_len_colonize, abs_positions_colonize by exact Hnn.
  unfold abs_positions, lenZ. rewrite map_length.
  destruct H as [(Hk & Ha & Hb & Hab) | (Hk & Ha & Hb)].
  - rewrite sel_local_pos by lia. rewrite zrange_length. apply ceil_div_pos; lia.
  - rewrite sel_local_neg by lia. rewrite zrange_length.
    rewrite (Z.add_comm a), (Z.add_comm b), range_len_shift. apply ceil_div_neg; lia.
Qed.

Lemma s1d_pos_entries lengths :
  Forall nonneg lengths ->
  forall ls pre post i start stop step,
    lengths = pre ++ ls ++ post -> i = lenZ pre -> 0 < step -> 0 <= start ->
    start <= stop \/ start < step ->
    Forall (entry_ok lengths step) (s1d_pos i ls start stop step).
Proof.
  intros Hnn ls.
  induction ls as [|len t IH]; intros pre post i start stop step Hl Hi Hk Hs Hss; [constructor|].
  destruct (segment_step lengths pre len t post i Hnn Hl Hi) as (Hl' & Hi' & _ & Hlen & Ht).
  destruct (Z_le_gt_dec stop 0) as [Hstop|Hstop].
  { rewrite s1d_pos_stop_nonpos by (try constructor; assumption). constructor. }
  cbn [s1d_pos].
  destruct ((start <? len) && (stop >? 0)) eqn:E.
  - pose proof (Z.mod_pos_bound (start - len) step Hk) as Hm.
    constructor.
    + exists start, (Z.min stop len). split; [reflexivity|]. cbn [fst].
      rewrite Hi, Hl. cbn [app]. rewrite nthZ_lenZ_app. left. lia.
    + apply (IH (pre ++ [len]) post (i + 1) _ _ step Hl' Hi' Hk); lia.
  - apply (IH (pre ++ [len]) post (i + 1) _ _ step Hl' Hi' Hk); lia.
Qed.

Lemma s1d_neg_entries lengths :
  forall B pre post i rstart stop step,
    lengths = pre ++ B ++ post -> i = lenZ pre -> step < 0 ->
    Forall (entry_ok lengths step) (s1d_neg (rev (block_bounds_from i (zsum pre) B)) rstart stop step).
Proof.
  intros B. induction B as [|x B' IH] using rev_ind; intros pre post i rstart stop step Hl Hi Hk; [constructor|].
  destruct (segment_last lengths pre B' x post i Hl Hi) as (Hl' & Hl2 & Hi2 & _).
  rewrite block_bounds_from_snoc. cbn [s1d_neg].
  set (c := zsum pre + zsum B').
  destruct ((c <=? rstart) && (rstart <? c + x) && (rstart >? stop)) eqn:E.
  - constructor; [|apply (IH pre (x :: post) i _ stop step Hl' Hi Hk)].
    eexists _, _. split; [reflexivity|]. cbn [fst].
    rewrite Hi2, Hl2, nthZ_lenZ_app. right. lia.
  - apply (IH pre (x :: post) i rstart stop step Hl' Hi Hk).
Qed.

(* Whenever the index is not the full slice, the plan is [finish] of a list d of
   explicit entries, one for each block that holds a selected position, in
   ascending block order for a positive step and descending order for a negative one. *)
Lemma plan_structure dim lengths idx :
  valid_chunks lengths dim -> normalized idx dim -> pslice_eqb idx colon = false ->
  exists d, slice_1d_slice dim lengths idx = finish lengths d /\
    Forall (entry_ok lengths (step_of idx)) d /\
    ((0 < step_of idx /\ asc_in 0 (lenZ lengths) d) \/
     (step_of idx < 0 /\ asc_in 0 (lenZ lengths) (rev d))).
Proof.
  intros Hv Hnorm Hc. destruct (valid_chunks_nonneg _ _ Hv) as [Hnn Hdim]. pose proof Hv as [_ Hsum].
  destruct Hnorm as [(Hk & Ha & Hb & Hab) | (Hk & Ha & Hb)].
  - destruct (indices_normalized_pos idx dim Hdim Hk Ha Hb) as (_ & Hsa & Hsb).
    pose proof (start_le_stop idx dim Hsa Hsb Hab) as Hsab.
    destruct (slice_1d_slice_pos dim lengths idx Hnn Hc Hk) as (pre & ls & post & Hl & Hlo & Hhi & ->); [lia | lia |].
    eexists. split; [reflexivity|].
    split; [apply (s1d_pos_entries lengths Hnn ls pre post _ _ _ _ Hl eq_refl Hk); lia|].
    left. split; [exact Hk|]. apply s1d_pos_keys; [apply lenZ_nonneg|].
    rewrite Hl, !lenZ_app. pose proof (lenZ_nonneg post). lia.
  - destruct (slice_1d_slice_neg dim lengths idx Hv Hk Ha Hb) as (pre & B & post & Hl & HB & Hlo & Hhi & ->).
    eexists. split; [reflexivity|].
    split; [apply (s1d_neg_entries lengths B pre post _ _ _ _ Hl eq_refl Hk)|].
    right. split; [exact Hk|]. apply s1d_neg_keys; [apply lenZ_nonneg|].
    rewrite Hl, !lenZ_app. pose proof (lenZ_nonneg post). lia.
Qed.

(* sorted(d.items()) leaves the plan as it is, or reverses it *)
Lemma plan_sorted dim lengths idx :
  valid_chunks lengths dim -> normalized idx dim ->
  let plan := slice_1d_slice dim lengths idx in
  (0 < step_of idx /\ sort_by_key plan = plan) \/ (step_of idx < 0 /\ sort_by_key plan = rev plan).
Proof.
  intros Hv Hnorm plan. destruct (pslice_eqb idx colon) eqn:Hc.
  - apply pslice_eqb_eq in Hc. subst idx. left. split; [cbn; lia|].
    apply (sort_asc plan 0 (lenZ lengths)), all_colon_keys; lia.
  - destruct (plan_structure dim lengths idx Hv Hnorm Hc) as (d & Hp & _ & Hdir). unfold plan. rewrite Hp.
    destruct d as [|e d'].
    { destruct Hdir as [(Hk & _)|(Hk & _)]; [left | right]; (split; [exact Hk | reflexivity]). }
    rewrite finish_cons.
    destruct Hdir as [(Hk & Hasc)|(Hk & Hasc)]; [left | right]; (split; [exact Hk|]).
    + eapply sort_asc, asc_in_map, Hasc. apply colonize_fst.
    + eapply sort_desc. rewrite <- map_rev. eapply asc_in_map, Hasc. apply colonize_fst.
Qed.

Theorem new_blockdim_colon dim lengths : new_blockdim dim lengths colon = lengths.
Proof. reflexivity. Qed.

(* the last match of new_blockdim: reversed exactly for a negative step *)
Lemma rev_if_neg_step {A} idx (l : list A) :
  match s_step idx with Some k => if k <? 0 then rev l else l | None => l end =
  if step_of idx <? 0 then rev l else l.
Proof. unfold step_of. destruct (s_step idx) as [k|]; reflexivity. Qed.

(* new_blockdim returns the piece lengths, in plan order *)
Theorem blockdim_as_lengths dim lengths idx :
  valid_chunks lengths dim -> normalized idx dim ->
  new_blockdim dim lengths idx =
  map (fun e => lenZ (abs_positions lengths e)) (slice_1d_slice dim lengths idx).
Proof.
  intros Hv Hnorm. destruct (valid_chunks_nonneg _ _ Hv) as [Hnn _].
  destruct (pslice_eqb idx colon) eqn:Hc.
  - apply pslice_eqb_eq in Hc. subst idx. rewrite new_blockdim_colon. symmetry.
    apply (all_colon_lengths lengths Hnn lengths [] [] 0); [rewrite app_nil_r; reflexivity | reflexivity].
  - unfold new_blockdim. rewrite Hc, rev_if_neg_step. set (plan := slice_1d_slice dim lengths idx).
    assert (map (piece_len lengths) plan = map (fun e => lenZ (abs_positions lengths e)) plan) as Hlen.
    { destruct (plan_structure dim lengths idx Hv Hnorm Hc) as (d & Hp & Hent & _). unfold plan. rewrite Hp.
      destruct d as [|e d'].
      - rewrite finish_nil. cbn [map abs_positions]. rewrite sel_same_endpoints. reflexivity.
      - rewrite finish_cons, !map_map. apply map_ext_Forall. eapply Forall_impl, Hent.
        intros e' He. exact (entry_len lengths _ e' Hnn He). }
    destruct (plan_sorted dim lengths idx Hv Hnorm) as [(Hk & Hs)|(Hk & Hs)]; fold plan in Hs; rewrite Hs.
    + (* positive step: the plan is in block order already *)
      replace (step_of idx <? 0) with false by lia. exact Hlen.
    + (* negative step: sorting has reversed the plan, new_blockdim reverses the lengths back *)
      replace (step_of idx <? 0) with true by lia. rewrite map_rev, rev_involutive. exact Hlen.
Qed.

Theorem new_blockdim_lengths dim lengths idx :
  valid_chunks lengths dim -> normalized idx dim -> idx <> colon ->
  new_blockdim dim lengths idx =
  map (fun e => Z.of_nat (length (abs_positions lengths e))) (slice_1d_slice dim lengths idx).
Proof. intros Hv Hnorm _. exact (blockdim_as_lengths dim lengths idx Hv Hnorm). Qed.

Corollary new_blockdim_sum dim lengths idx :
  valid_chunks lengths dim -> normalized idx dim ->
  zsum (new_blockdim dim lengths idx) = slice_len idx dim.
Proof.
  intros Hv Hnorm. rewrite (blockdim_as_lengths dim lengths idx Hv Hnorm), zsum_map_length.
  fold (plan_positions lengths (slice_1d_slice dim lengths idx)).
  rewrite (slice_1d_partition dim lengths idx Hv Hnorm). apply sel_length.
Qed.

Definition in_block (lengths : list Z) (e : Z * ploc) : Prop :=
  0 <= fst e < lenZ lengths /\
  forall p, In p (abs_positions lengths e) ->
    zsum (firstnZ (fst e) lengths) <= p < zsum (firstnZ (fst e + 1) lengths).

Lemma in_block_slice lengths i s :
  Forall nonneg lengths -> 0 <= i < lenZ lengths -> step_of s <> 0 -> in_block lengths (i, LSlice s).
Proof.
  intros Hnn Hi Hk. split; [exact Hi|]. cbn [fst]. intros p Hp.
  unfold abs_positions in Hp. apply in_map_iff in Hp as (q & <- & Hq).
  apply sel_in_range in Hq; [|apply nthZ_nonneg; exact Hnn | exact Hk].
  rewrite zsum_firstnZ_succ by exact Hi. lia.
Qed.

Lemma in_block_colonize lengths k e :
  Forall nonneg lengths -> 0 <= fst e < lenZ lengths -> entry_ok lengths k e ->
  in_block lengths (colonize lengths e).
Proof.
  intros Hnn Hi (a & b & Hs & H). destruct e as [i s]. cbn [fst snd] in *. subst s.
  assert (k <> 0) as Hk by (destruct H as [(H & _)|(H & _)]; lia).
  unfold colonize. destruct (pslice_eqb (mkslice (Some a) (Some b) (Some k)) _).
  - (* the whole block, [:] *) apply in_block_slice; [exact Hnn | exact Hi | cbn; lia].
  - apply in_block_slice; [exact Hnn | exact Hi | exact Hk].
Qed.

Lemma all_colon_snd ls : forall i, Forall (fun e => snd e = LSlice colon) (all_colon_from i ls).
Proof.
  induction ls as [|x t IH]; intros i; constructor; [reflexivity | apply IH].
Qed.

Theorem slice_1d_pieces_in_block dim lengths idx :
  valid_chunks lengths dim -> lengths <> [] -> normalized idx dim ->
  NoDup (map fst (slice_1d_slice dim lengths idx)) /\
  Forall (in_block lengths) (slice_1d_slice dim lengths idx).
Proof.
  intros Hv Hne Hnorm. destruct (valid_chunks_nonneg _ _ Hv) as [Hnn _].
  assert (0 < lenZ lengths) as Hlen.
  { destruct lengths as [|x t]; [contradiction|]. rewrite lenZ_cons. pose proof (lenZ_nonneg t). lia. }
  destruct (pslice_eqb idx colon) eqn:Hc.
  - unfold slice_1d_slice. rewrite Hc.
    pose proof (all_colon_keys lengths 0 0 (lenZ lengths) ltac:(lia) ltac:(lia)) as Hk.
    split; [exact (asc_in_NoDup _ _ _ Hk)|].
    pose proof (asc_in_Forall _ _ _ Hk) as HF. pose proof (all_colon_snd lengths 0) as HS.
    rewrite Forall_forall in HF, HS |- *. intros [i loc] Hin.
    specialize (HF _ Hin). specialize (HS _ Hin). cbn [fst snd] in *. subst loc.
    apply in_block_slice; [exact Hnn | exact HF | cbn; lia].
  - destruct (plan_structure dim lengths idx Hv Hnorm Hc) as (d & -> & Hent & Hdir).
    assert (NoDup (map fst d) /\ Forall (fun e => 0 <= fst e < lenZ lengths) d) as [HND HR].
    { destruct Hdir as [(_ & H)|(_ & H)].
      - split; [exact (asc_in_NoDup _ _ _ H) | exact (asc_in_Forall _ _ _ H)].
      - rewrite <- (rev_involutive d), map_rev.
        split; [exact (NoDup_rev (asc_in_NoDup _ _ _ H)) | exact (Forall_rev (asc_in_Forall _ _ _ H))]. }
    destruct d as [|e0 d0].
    { rewrite finish_nil. cbn [map fst]. split; [repeat constructor; intros []|].
      constructor; [|constructor]. apply in_block_slice; [exact Hnn | lia | cbn; lia]. }
    rewrite finish_cons.
    split; [rewrite map_map, (map_ext _ fst (colonize_fst lengths)); exact HND|].
    apply Forall_map. rewrite Forall_forall in HR, Hent |- *. intros e Hin.
    apply (in_block_colonize lengths (step_of idx)); auto.
Qed.

Example valid_chunks_ex : valid_chunks [2; 0; 2; 3] 7.
Proof. split; [repeat constructor; lia | reflexivity]. Qed.

Example normalize_slice_normalized_ex :
  normalize_slice (mkslice (Some (-2)) (Some (-9)) (Some (-2))) 7 = mkslice (Some 5) None (Some (-2)) /\
  normalized (mkslice (Some 5) None (Some (-2))) 7.
Proof.
  split; [reflexivity|].
  change (mkslice (Some 5) None (Some (-2))) with (normalize_slice (mkslice (Some (-2)) (Some (-9)) (Some (-2))) 7).
  apply normalize_slice_normalized; cbn; lia.
Qed.

Example slice_1d_partition_ex_neg :
  let lengths := [2; 0; 2; 3] in
  let idx := mkslice (Some 5) None (Some (-2)) in
  valid_chunks lengths 7 /\ normalized idx 7 /\
  slice_1d_slice 7 lengths idx =
    [(3, LSlice (mkslice (Some (-2)) (Some (-4)) (Some (-2))));
     (2, LSlice (mkslice (Some (-1)) (Some (-3)) (Some (-2))));
     (0, LSlice (mkslice (Some (-1)) (Some (-3)) (Some (-2))))] /\
  plan_positions lengths (slice_1d_slice 7 lengths idx) = [5; 3; 1] /\
  sel idx 7 = [5; 3; 1].
Proof.
  cbv zeta. split; [exact valid_chunks_ex|]. split; [apply normalized_b_iff; reflexivity|].
  split; [reflexivity|]. split; reflexivity.
Qed.

Example slice_1d_partition_ex_pos :
  let lengths := [2; 0; 2; 3] in
  let idx := mkslice (Some 1) (Some 6) (Some 3) in
  valid_chunks lengths 7 /\ normalized idx 7 /\
  slice_1d_slice 7 lengths idx =
    [(0, LSlice (mkslice (Some 1) (Some 2) (Some 3)));
     (3, LSlice (mkslice (Some 0) (Some 2) (Some 3)))] /\
  plan_positions lengths (slice_1d_slice 7 lengths idx) = [1; 4] /\
  sel idx 7 = [1; 4].
Proof.
  cbv zeta. split; [exact valid_chunks_ex|]. split; [apply normalized_b_iff; reflexivity|].
  split; [reflexivity|]. split; reflexivity.
Qed.

Example slice_1d_pieces_in_block_ex :
  let lengths := [2; 0; 2; 3] in
  let idx := mkslice (Some 5) None (Some (-2)) in
  valid_chunks lengths 7 /\ lengths <> [] /\ normalized idx 7 /\
  map fst (slice_1d_slice 7 lengths idx) = [3; 2; 0].
Proof.
  cbv zeta. split; [exact valid_chunks_ex|]. split; [discriminate|].
  split; [apply normalized_b_iff; reflexivity | reflexivity].
Qed.

Example new_blockdim_lengths_ex :
  let lengths := [2; 0; 2; 3] in
  let idx := mkslice (Some 5) None (Some (-2)) in
  valid_chunks lengths 7 /\ normalized idx 7 /\ idx <> colon /\
  new_blockdim 7 lengths idx = [1; 1; 1] /\ slice_len idx 7 = 3.
Proof.
  cbv zeta. split; [exact valid_chunks_ex|]. split; [apply normalized_b_iff; reflexivity|].
  split; [discriminate|]. split; reflexivity.
Qed.

Print Assumptions normalize_slice_normalized.
Print Assumptions s1d_pos_positions.
Print Assumptions s1d_neg_positions.
Print Assumptions slice_1d_partition_pos.
Print Assumptions slice_1d_partition_neg.
Print Assumptions slice_1d_partition.
Print Assumptions slice_1d_pieces_in_block.
Print Assumptions new_blockdim_lengths.
Print Assumptions new_blockdim_sum.
