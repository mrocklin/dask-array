(* Proofs about the decision layer of unify_chunks_expr modelled in UnifyDecide.v.
   Every theorem quantifies over the two oracles of the model: [qcmp] (every float comparison of
   costs) and [pick] (set-iteration tie-break of coarse_blockdim).
   (T1)..(T4) are the clauses of Properties/C17.v and harness/c17.py; the theorems come in the order
   T1, T3, T2, T4 because the growth bound (T2) uses what `refine` guarantees (T3). *)
From DA Require Import PyBase PyBaseFacts Unify UnifyFacts UnifyDecide.
Open Scope Z_scope.

Lemma lookup_In j m c : lookup j m = Some c -> In (j, c) m.
Proof.
  induction m as [|[k d] t IH]; cbn [lookup]; [discriminate|].
  destruct (k =? j) eqn:E; intros H.
  - apply Z.eqb_eq in E. injection H as <-. subst k. left. reflexivity.
  - right. apply IH. exact H.
Qed.

Lemma lookup_some_of_key j (m : chunkmap) : In j (map fst m) -> exists c, lookup j m = Some c.
Proof.
  induction m as [|[k d] t IH]; cbn [map fst In lookup]; [contradiction|].
  intros [H|H].
  - subst k. rewrite Z.eqb_refl. eexists. reflexivity.
  - destruct (k =? j); [eexists; reflexivity | apply IH; exact H].
Qed.

Lemma lookup_nodup j c (m : chunkmap) : NoDup (map fst m) -> In (j, c) m -> lookup j m = Some c.
Proof.
  induction m as [|[k d] t IH]; cbn [map fst In lookup]; [contradiction|].
  intros Hnd [H|H].
  - injection H as -> ->. rewrite Z.eqb_refl. reflexivity.
  - inversion Hnd as [|k' t' Hk Hnd']; subst k' t'.
    destruct (k =? j) eqn:E.
    + apply Z.eqb_eq in E. subst k. exfalso. apply Hk. apply (in_map fst) in H. exact H.
    + apply IH; assumption.
Qed.

(* dask.blockwise.broadcast_dimensions: one entry per label, holding what `consolidate` returns for it *)
Lemma bd_all_spec cons ops ls m :
  bd_all cons ops ls = Some m ->
  map fst m = ls /\ forall j c, In (j, c) m -> cons j (label_dims ops j) = UOk c.
Proof.
  revert m. induction ls as [|k t IH]; intros m; cbn [bd_all].
  - intros H. injection H as <-. split; [reflexivity | intros j c []].
  - destruct (cons k (label_dims ops k)) as [r|] eqn:Ec; [|discriminate].
    destruct (bd_all cons ops t) as [m'|]; [|discriminate].
    intros H. injection H as <-. destruct (IH m' eq_refl) as [Hk Hin].
    split; [cbn [map fst]; rewrite Hk; reflexivity|].
    intros j c [E|Hjc]; [injection E as <- <-; exact Ec | apply Hin; exact Hjc].
Qed.

Lemma bd_all_lookup cons ops ls m j :
  bd_all cons ops ls = Some m -> In j ls ->
  exists r, lookup j m = Some r /\ cons j (label_dims ops j) = UOk r.
Proof.
  intros H Hj. destruct (bd_all_spec _ _ _ _ H) as [Hk Hin].
  destruct (lookup_some_of_key j m) as [r Hr]; [rewrite Hk; exact Hj|].
  exists r. split; [exact Hr | apply Hin, lookup_In, Hr].
Qed.

Lemma in_nodupZ x l : In x (nodupZ l) <-> In x l.
Proof.
  induction l as [|y t IH]; cbn [nodupZ]; [reflexivity|].
  destruct (existsb (Z.eqb y) t) eqn:E; cbn [In]; rewrite IH.
  - apply existsb_exists in E. destruct E as [z [Hz Hyz]]. apply Z.eqb_eq in Hyz. subst z.
    split; [intros H; right; exact H | intros [H|H]; [subst x; exact Hz | exact H]].
  - reflexivity.
Qed.

Lemma nodupZ_NoDup l : NoDup (nodupZ l).
Proof.
  induction l as [|y t IH]; cbn [nodupZ]; [constructor|].
  destruct (existsb (Z.eqb y) t) eqn:E; [exact IH|].
  constructor; [|exact IH].
  intros Hin. apply (proj1 (in_nodupZ y t)) in Hin.
  pose proof (existsb_false_In _ _ y E Hin). lia.
Qed.

Lemma all_axes_In ops a :
  In a (all_axes ops) <-> exists o, In o ops /\ In a (axes o).
Proof.
  unfold all_axes, parts. rewrite in_flat_map. split.
  - intros [o [Ho Ha]]. apply filter_In in Ho. exists o. split; [apply Ho | exact Ha].
  - intros [o [Ho Ha]]. exists o. split; [|exact Ha]. apply filter_In. split; [exact Ho|].
    unfold participates. unfold axes in Ha. destruct (o_ind o); [cbn in Ha; contradiction | reflexivity].
Qed.

Lemma labels_In ops j : In j (labels ops) <-> exists a, In a (all_axes ops) /\ ax_label a = j.
Proof.
  unfold labels. rewrite in_nodupZ, in_map_iff. split; intros [a [H1 H2]]; exists a; split; assumption.
Qed.

(* g[j]: the distinct layouts of the axes labelled j; g2[j] = label_dims drops the sentinel (1,) from it
   when there are several *)
Definition raw_dims (ops : list operand) (j : Z) : list (list Z) :=
  dedup (map ax_layout (filter (fun a => ax_label a =? j) (all_axes ops))).

Lemma label_dims_eq ops j :
  label_dims ops j = if (1 <? length (raw_dims ops j))%nat
                     then filter (fun d => negb (zlist_eqb d [1])) (raw_dims ops j) else raw_dims ops j.
Proof. reflexivity. Qed.

Lemma raw_dims_In ops j d :
  In d (raw_dims ops j) <-> exists a, In a (all_axes ops) /\ ax_label a = j /\ ax_layout a = d.
Proof.
  unfold raw_dims. rewrite dedup_In, in_map_iff. split.
  - intros [a [Ha Hin]]. apply filter_In in Hin. destruct Hin as [Hin Hl]. exists a. repeat split; [exact Hin | lia | exact Ha].
  - intros [a [Hin [Hl Ha]]]. exists a. split; [exact Ha|]. apply filter_In. split; [exact Hin | lia].
Qed.

(* the layouts that reach `consolidate` for label j are operand layouts of label j ... *)
Lemma label_dims_In ops j d :
  In d (label_dims ops j) -> exists a, In a (all_axes ops) /\ ax_label a = j /\ ax_layout a = d.
Proof.
  rewrite label_dims_eq. intros H. apply raw_dims_In.
  destruct (1 <? length _)%nat; [apply filter_In in H; apply H | exact H].
Qed.

(* ... and every operand layout other than the sentinel (1,) reaches it *)
Lemma label_dims_complete ops a :
  In a (all_axes ops) -> ax_layout a <> [1] -> In (ax_layout a) (label_dims ops (ax_label a)).
Proof.
  intros Hin Hne. assert (In (ax_layout a) (raw_dims ops (ax_label a))) as H.
  { apply raw_dims_In. exists a. repeat split. exact Hin. }
  rewrite label_dims_eq. destruct (1 <? length _)%nat; [|exact H].
  apply filter_In. split; [exact H|].
  destruct (zlist_eqb (ax_layout a) [1]) eqn:E; [|reflexivity].
  apply zlist_eqb_eq in E. contradiction.
Qed.

Lemma seen_dedup_incl ops : forall seen o, In o (seen_dedup seen ops) -> In o ops.
Proof.
  induction ops as [|x t IH]; intros seen o; cbn [seen_dedup]; [intros []|].
  destruct (existsb (key_eqb x) seen); cbn [In].
  - intros H. right. apply (IH _ _ H).
  - intros [H|H]; [left; exact H | right; apply (IH _ _ H)].
Qed.

(* the layouts with an opinion on label j are among those consolidated for j *)
Lemma entries_label_dims ops j : incl (map fst (entries ops j)) (label_dims ops j).
Proof.
  intros d Hd. apply in_map_iff in Hd. destruct Hd as [e [<- He]].
  unfold entries in He. apply in_flat_map in He. destruct He as [o [Ho He]].
  apply seen_dedup_incl in Ho. unfold parts in Ho. apply filter_In in Ho.
  apply in_map_iff in He. destruct He as [a [<- Ha]]. apply filter_In in Ha. destruct Ha as [Ha Hop]. cbn [fst].
  unfold has_opinion in Hop. apply andb_true_iff in Hop. destruct Hop as [Hop Hlen].
  apply andb_true_iff in Hop. destruct Hop as [Hlab Hsz].
  assert (ax_label a = j) as <- by lia.
  apply label_dims_complete.
  - apply all_axes_In. exists o. split; [apply Ho | exact Ha].
  - intros E. rewrite E in Hlen. cbn in Hlen. discriminate.
Qed.

(* the candidate layouts of the realignment are entry layouts *)
Lemma cand_add_fst src nb cs : incl (map fst (cand_add src nb cs)) (src :: map fst cs).
Proof.
  induction cs as [|[l b] t IH]; cbn [cand_add map fst]; [apply incl_refl|].
  destruct (zlist_eqb l src); cbn [map fst]; [apply incl_tl, incl_refl|].
  intros x [<-|Hx]; [right; left; reflexivity|].
  destruct (IH x Hx) as [<-|H]; [left; reflexivity | right; right; exact H].
Qed.

Lemma candidates_fst es : incl (map fst (candidates es)) (map fst es).
Proof.
  assert (forall L acc, incl (map fst es) L -> incl (map fst acc) L ->
            incl (map fst (fold_left (fun cs e => cand_add (fst e) (snd e) cs) es acc)) L) as G.
  { intros L. induction es as [|e t IH]; intros acc He Ha; cbn [fold_left]; [exact Ha|].
    apply incl_cons_inv in He. destruct He as [He Ht]. apply IH; [exact Ht|].
    eapply incl_tran; [apply cand_add_fst | apply incl_cons; assumption]. }
  apply G; [apply incl_refl | intros x []].
Qed.

Lemma feasible_fst qcmp es f : In f (feasible qcmp es) -> In (f_layout f) (map fst es).
Proof.
  unfold feasible. rewrite in_flat_map. intros [c [Hc Hf]]. apply candidates_fst.
  destruct (qcmp _ _); cbn [In] in Hf; try contradiction;
    destruct Hf as [<-|[]]; cbn [f_layout]; apply in_map; exact Hc.
Qed.

Lemma feas_min_In qcmp fs f : In (feas_min qcmp f fs) (f :: fs).
Proof. apply (fold_best_In (fun best x => feas_ltb qcmp x best)). Qed.

(* the realignment returns the layout it was given or the layout of one of the entries *)
Lemma realign_cases qcmp es t0 t r :
  realign qcmp es t0 t r = t \/ In (realign qcmp es t0 t r) (map fst es).
Proof.
  unfold realign. destruct es as [|e0 es']; [left; reflexivity|].
  set (es := e0 :: es').
  destruct (has_anchor es t0 && negb r); [left; reflexivity|].
  destruct (existsb _ es); [left; reflexivity|].
  destruct (feasible qcmp es) as [|f fs] eqn:Ef; [left; reflexivity|].
  right. apply (feasible_fst qcmp). rewrite Ef. apply feas_min_In.
Qed.

(* (T1) no invented layouts: the decided layout of label j is one of the layouts given to `consolidate` or
   their common refinement *)
Definition good (ops : list operand) (jc : Z * list Z) : Prop :=
  In (fst jc) (labels ops) /\
  (In (snd jc) (label_dims ops (fst jc)) \/ common_blockdim (label_dims ops (fst jc)) = UOk (snd jc)).

Lemma good_cons pick pol ops c0 :
  bd_all (match pol with PRefine => fun _ => common_blockdim | _ => fun j => coarse_blockdim (pick j) end)
         ops (labels ops) = Some c0 ->
  Forall (good ops) c0.
Proof.
  intros H. destruct (bd_all_spec _ _ _ _ H) as [Hk Hc]. apply Forall_forall. intros [j c] Hin.
  split; [rewrite <- Hk; apply (in_map fst _ _ Hin)|]. cbn [fst snd]. specialize (Hc j c Hin).
  assert (coarse_blockdim (pick j) (label_dims ops j) = UOk c ->
          In c (label_dims ops j) \/ common_blockdim (label_dims ops j) = UOk c) as G.
  { intros Hc'. destruct (coarse_blockdim_spec_gen _ _ _ Hc') as [Hcm|[Hr _]]; [right; exact Hcm | left; exact Hr]. }
  destruct pol; [apply G; exact Hc | apply G; exact Hc | right; exact Hc].
Qed.

Lemma fine_get ops f j :
  bd_all (fun _ => common_blockdim) ops (labels ops) = Some f -> In j (labels ops) ->
  common_blockdim (label_dims ops j) = UOk (get j f).
Proof.
  intros Hf Hj. destruct (bd_all_lookup _ _ _ _ _ Hf Hj) as [r [Hl Hr]].
  unfold get. rewrite Hl. exact Hr.
Qed.

Lemma auto_step_good qcmp ops f jc :
  good ops jc ->
  (refused_b qcmp (entries ops (fst jc)) (snd jc) = true ->
   bd_all (fun _ => common_blockdim) ops (labels ops) = Some f) ->
  good ops (auto_step qcmp ops f jc).
Proof.
  intros [Hj Hg] Hf. unfold auto_step. split; [exact Hj|]. cbn [fst snd].
  match goal with |- context [realign ?q ?es ?t0 ?t ?r] =>
    destruct (realign_cases q es t0 t r) as [E|Hin] end.
  - rewrite E. destruct (refused_b qcmp _ _) eqn:Er; [|exact Hg].
    right. apply fine_get; [apply Hf; reflexivity | exact Hj].
  - left. apply entries_label_dims. exact Hin.
Qed.

Lemma map_good ops (step : Z * list Z -> Z * list Z) c :
  Forall (good ops) c ->
  (forall jc, In jc c -> good ops jc -> good ops (step jc) /\ fst (step jc) = fst jc) ->
  Forall (good ops) (map step c) /\ map fst (map step c) = map fst c.
Proof.
  intros Hg Hstep. rewrite Forall_forall in Hg. split.
  - apply Forall_forall. intros x Hx. apply in_map_iff in Hx. destruct Hx as [jc [<- Hjc]].
    apply Hstep; [exact Hjc | apply Hg; exact Hjc].
  - rewrite map_map. apply map_ext_in. intros jc Hjc. apply Hstep; [exact Hjc | apply Hg; exact Hjc].
Qed.

Lemma auto_pass_good qcmp ops c0 c1 :
  Forall (good ops) c0 ->
  auto_pass qcmp ops c0 (bd_all (fun _ => common_blockdim) ops (labels ops)) = Some c1 ->
  Forall (good ops) c1 /\ map fst c1 = map fst c0.
Proof.
  intros Hg. unfold auto_pass. destruct (existsb _ c0) eqn:Eex.
  - destruct (bd_all _ ops (labels ops)) as [f|] eqn:Ef; [|discriminate].
    intros H. injection H as <-. apply (map_good _ _ _ Hg). intros jc _ Hgood.
    split; [apply auto_step_good; [exact Hgood | intros _; exact Ef] | reflexivity].
  - (* nothing is refused: the refinement is not consulted *)
    intros H. injection H as <-. apply (map_good _ _ _ Hg). intros jc Hjc Hgood.
    split; [apply auto_step_good; [exact Hgood|] | reflexivity].
    intros Hr. rewrite (existsb_false_In _ _ jc Eex Hjc) in Hr. discriminate.
Qed.

Lemma size_guard_good l ops c1 R :
  Forall (good ops) c1 ->
  size_guard l ops c1 (bd_all (fun _ => common_blockdim) ops (labels ops)) = Some R ->
  Forall (good ops) R /\ map fst R = map fst c1.
Proof.
  intros Hg. unfold size_guard.
  destruct (worst_bytes c1 ops >? l); [|intros H; injection H as <-; split; [exact Hg | reflexivity]].
  destruct (bd_all _ ops (labels ops)) as [f|] eqn:Ef; [|discriminate].
  intros H. injection H as <-. apply (map_good _ _ _ Hg). intros jc _ Hgood.
  destruct (length (snd jc) <? length (get (fst jc) f))%nat; [|split; [exact Hgood | reflexivity]].
  split; [|reflexivity]. split; [apply Hgood|]. right. apply fine_get; [exact Ef | apply Hgood].
Qed.

(* the limit the size guard runs with, if it runs *)
Definition guard_limit (pol : policy) (limit : option Z) : option Z :=
  match pol, limit with
  | PRefine, _ | _, None => None
  | _, Some l => if l =? 0 then None else Some l
  end.

Definition general_path (qcmp : rat -> rat -> comparison) (pick : Z -> nat) (pol : policy)
           (limit : option Z) (ops : list operand) : option chunkmap :=
  let ls := labels ops in
  let cons := match pol with PRefine => fun _ => common_blockdim | _ => fun j => coarse_blockdim (pick j) end in
  match bd_all cons ops ls with
  | None => None
  | Some c0 =>
      let fine := bd_all (fun _ => common_blockdim) ops ls in
      match (match pol with PAuto => auto_pass qcmp ops c0 fine | _ => Some c0 end) with
      | None => None
      | Some c1 => match guard_limit pol limit with None => Some c1 | Some l => size_guard l ops c1 fine end
      end
  end.

Definition early_b (ops : list operand) (o0 : operand) : bool :=
  forallb (fun o => zlist_eqb (o_ind o) (o_ind o0)) ops && forallb (fun o => zlist2_eqb (o_chunks o) (o_chunks o0)) ops.

Lemma unify_decide_cases qcmp pick pol limit ops R :
  unify_decide qcmp pick pol limit ops = Some R ->
  (ops = [] /\ R = []) \/
  (exists o0, In o0 ops /\ early_b ops o0 = true /\ R = early_map o0) \/
  general_path qcmp pick pol limit ops = Some R.
Proof.
  destruct ops as [|o0 t]; [intros H; injection H as <-; left; split; reflexivity|].
  unfold unify_decide. fold (early_b (o0 :: t) o0). destruct (early_b (o0 :: t) o0) eqn:Ee.
  - intros H. injection H as <-. right. left. exists o0. repeat split; [left; reflexivity | exact Ee].
  - intros H. right. right. rewrite <- H. unfold general_path.
    destruct (bd_all _ (o0 :: t) (labels (o0 :: t))); [|reflexivity].
    destruct (match pol with PAuto => _ | _ => _ end); [|reflexivity].
    destruct pol, limit as [l|]; try reflexivity; cbn [guard_limit]; destruct (l =? 0); reflexivity.
Qed.

Lemma general_path_inv qcmp pick pol limit ops R :
  general_path qcmp pick pol limit ops = Some R ->
  exists c1, Forall (good ops) c1 /\ map fst c1 = labels ops /\
    match guard_limit pol limit with
    | None => R = c1
    | Some l => size_guard l ops c1 (bd_all (fun _ => common_blockdim) ops (labels ops)) = Some R
    end.
Proof.
  unfold general_path.
  destruct (bd_all _ ops (labels ops)) as [c0|] eqn:E0; [|discriminate].
  pose proof (good_cons pick pol ops c0 E0) as Hg0.
  pose proof (proj1 (bd_all_spec _ _ _ _ E0)) as Hk0.
  destruct (match pol with PAuto => auto_pass qcmp ops c0 _ | _ => Some c0 end) as [c1|] eqn:E1; [|discriminate].
  intros H. exists c1.
  assert (Forall (good ops) c1 /\ map fst c1 = labels ops) as [Hg1 Hk1].
  { destruct pol; [|injection E1 as <-; split; assumption ..].
    destruct (auto_pass_good _ _ _ _ Hg0 E1) as [Ha Hb]. split; [exact Ha | congruence]. }
  split; [exact Hg1|]. split; [exact Hk1|].
  destruct (guard_limit pol limit); [exact H | injection H as <-; reflexivity].
Qed.

Lemma general_path_good qcmp pick pol limit ops R :
  general_path qcmp pick pol limit ops = Some R ->
  Forall (good ops) R /\ map fst R = labels ops.
Proof.
  intros H. destruct (general_path_inv _ _ _ _ _ _ H) as [c1 [Hg [Hk HR]]].
  destruct (guard_limit pol limit); [|subst R; split; assumption].
  destruct (size_guard_good _ _ _ _ Hg HR) as [Ha Hb]. split; [exact Ha | congruence].
Qed.

Lemma label_dims_operand_layout ops j c : In c (label_dims ops j) -> operand_layout ops j c.
Proof.
  intros H. destruct (label_dims_In _ _ _ H) as [a [Ha [Hl Hc]]].
  apply all_axes_In in Ha. destruct Ha as [o [Ho Ha]].
  exists o. split; [exact Ho|]. unfold axes in Ha.
  destruct a as [[j' c'] s]. cbn [ax_label ax_layout fst snd] in Hl, Hc. subst j' c'.
  apply in_combine_l in Ha. exact Ha.
Qed.

Lemma early_map_In o j c : In (j, c) (early_map o) -> In (j, c) (combine (o_ind o) (o_chunks o)).
Proof. unfold early_map. intros H. apply in_rev in H. exact H. Qed.

Theorem unify_decide_no_invented_layout qcmp pick pol limit ops R :
  unify_decide qcmp pick pol limit ops = Some R ->
  forall j c, In (j, c) R ->
  operand_layout ops j c \/ common_blockdim (label_dims ops j) = UOk c.
Proof.
  intros H j c Hin. destruct (unify_decide_cases _ _ _ _ _ _ H) as [[_ ->]|[[o0 [Ho0 [_ ->]]]|Hgen]].
  - destruct Hin.
  - left. exists o0. split; [exact Ho0 | apply early_map_In; exact Hin].
  - destruct (general_path_good _ _ _ _ _ _ Hgen) as [Hg _].
    rewrite Forall_forall in Hg. destruct (Hg _ Hin) as [_ [Hd|Hcm]]; [left | right; exact Hcm].
    apply label_dims_operand_layout. exact Hd.
Qed.

(* well-formed operand sets: what the callers of unify_chunks_expr establish.
   [dim j] is the length of index j; an axis either has that length or is a broadcast axis (length 1);
   layouts are non-empty, strictly positive (the zero-size chunk case is finding F23) and add up to the
   axis length; an operand does not repeat a label. *)
Definition wf_operand (dim : Z -> Z) (o : operand) : Prop :=
  length (o_ind o) = length (o_chunks o) /\ length (o_chunks o) = length (o_shape o) /\
  NoDup (o_ind o) /\ 0 <= o_itemsize o /\
  forall a, In a (axes o) ->
    ax_layout a <> [] /\ pos_layout (ax_layout a) /\ zsum (ax_layout a) = ax_size a /\
    (ax_size a = dim (ax_label a) \/ ax_size a = 1).

Lemma wf_all_axes dim ops a :
  Forall (wf_operand dim) ops -> In a (all_axes ops) ->
  ax_layout a <> [] /\ pos_layout (ax_layout a) /\ zsum (ax_layout a) = ax_size a /\
  (ax_size a = dim (ax_label a) \/ ax_size a = 1).
Proof.
  intros Hwf Ha. apply all_axes_In in Ha. destruct Ha as [o [Ho Ha]].
  rewrite Forall_forall in Hwf. destruct (Hwf o Ho) as [_ [_ [_ [_ H]]]]. apply H. exact Ha.
Qed.

Lemma pos_sum_one d : pos_layout d -> d <> [] -> zsum d = 1 -> d = [1].
Proof.
  intros Hp Hne Hs. destruct d as [|x t]; [congruence|].
  inversion Hp as [|x' t' Hx Ht]; subst x' t'. cbn [zsum] in Hs.
  pose proof (zsum_nonneg t (Forall_pos_nonneg t Ht)) as Hn.
  assert (t = []) as -> by (apply zsum_pos_nil; [exact Ht | lia]).
  cbn [zsum] in Hs. f_equal. lia.
Qed.

Lemma label_dims_wf dim ops j :
  Forall (wf_operand dim) ops ->
  Forall pos_layout (label_dims ops j) /\ exists n, forall d, In d (label_dims ops j) -> zsum d = n.
Proof.
  intros Hwf. split.
  - apply Forall_forall. intros d Hd. destruct (label_dims_In _ _ _ Hd) as [a [Ha [_ <-]]].
    apply (wf_all_axes dim ops a Hwf Ha).
  - rewrite label_dims_eq. destruct (1 <? length (raw_dims ops j))%nat eqn:E.
    + exists (dim j). intros d Hd. apply filter_In in Hd. destruct Hd as [Hd Hne].
      apply raw_dims_In in Hd. destruct Hd as [a [Ha [Hl Hla]]].
      destruct (wf_all_axes dim ops a Hwf Ha) as [Hnil [Hpos [Hsum Hsz]]].
      rewrite <- Hla, Hsum. destruct Hsz as [Hsz|Hsz]; [congruence|].
      exfalso. rewrite Hsz in Hsum. rewrite (pos_sum_one _ Hpos Hnil Hsum) in Hla. subst d.
      cbn in Hne. discriminate.
    + destruct (raw_dims ops j) as [|x [|y t]].
      * exists 0. intros d [].
      * exists (zsum x). intros d [<-|[]]. reflexivity.
      * cbn [length] in E. apply Nat.ltb_ge in E. lia.
Qed.

(* a non-broadcast axis: its label is decided, and its own layout is among those consolidated for the label *)
Lemma own_axis dim ops o a :
  Forall (wf_operand dim) ops -> In o ops -> In a (axes o) -> 1 < ax_size a ->
  In (ax_label a) (labels ops) /\ In (ax_layout a) (label_dims ops (ax_label a)) /\
  zsum (ax_layout a) = ax_size a.
Proof.
  intros Hwf Ho Ha Hsz. assert (In a (all_axes ops)) as Hin by (apply all_axes_In; exists o; split; assumption).
  destruct (wf_all_axes dim ops a Hwf Hin) as [_ [_ [Hsum _]]].
  split; [apply labels_In; exists a; split; [exact Hin | reflexivity]|]. split; [|exact Hsum].
  apply label_dims_complete; [exact Hin|]. intros E. rewrite E in Hsum. cbn in Hsum. lia.
Qed.

Lemma early_b_spec ops o0 o :
  early_b ops o0 = true -> In o ops -> o_ind o = o_ind o0 /\ o_chunks o = o_chunks o0.
Proof.
  unfold early_b. intros H Ho. apply andb_true_iff in H. destruct H as [H1 H2].
  rewrite forallb_forall in H1, H2. split.
  - apply zlist_eqb_eq. apply H1. exact Ho.
  - apply zlist2_eqb_eq. apply H2. exact Ho.
Qed.

Lemma in_combine_ex {A B} (l : list A) : forall (l' : list B) x,
  length l = length l' -> In x l -> exists y, In (x, y) (combine l l').
Proof.
  induction l as [|a t IH]; intros [|b t'] x H Hx; cbn [length] in H; try discriminate; [contradiction|].
  destruct Hx as [<-|Hx].
  - exists b. left. reflexivity.
  - destruct (IH t' x ltac:(lia) Hx) as [y Hy]. exists y. right. exact Hy.
Qed.

(* early return: chunkss[label of an axis] is that axis' own layout *)
Lemma early_get dim ops o0 o a :
  Forall (wf_operand dim) ops -> early_b ops o0 = true -> In o ops -> In a (axes o) ->
  lookup (ax_label a) (early_map o0) = Some (ax_layout a).
Proof.
  intros Hwf Ee Ho Ha. destruct (early_b_spec _ _ _ Ee Ho) as [Hi Hc].
  rewrite Forall_forall in Hwf. destruct (Hwf o Ho) as [Hl1 [_ [Hnd _]]].
  unfold early_map. rewrite <- Hi, <- Hc. apply lookup_nodup.
  - rewrite map_rev. apply NoDup_rev. rewrite map_fst_combine by exact Hl1. exact Hnd.
  - apply -> in_rev. unfold axes in Ha. destruct a as [[j c] s]. apply in_combine_l in Ha. exact Ha.
Qed.

(* (T1, second half) the decided layout of an index adds up to the length of every non-broadcast operand
   axis on that index *)
Theorem unify_decide_total_length qcmp pick pol limit ops dim R :
  Forall (wf_operand dim) ops ->
  unify_decide qcmp pick pol limit ops = Some R ->
  forall o a, In o ops -> In a (axes o) -> 1 < ax_size a ->
  exists c, lookup (ax_label a) R = Some c /\ zsum c = ax_size a.
Proof.
  intros Hwf H o a Ho Ha Hsz. destruct (own_axis dim _ o a Hwf Ho Ha Hsz) as [Hj [Hown Hsum]].
  destruct (unify_decide_cases _ _ _ _ _ _ H) as [[-> _]|[[o0 [_ [Ee ->]]]|Hgen]]; [destruct Ho | |].
  - exists (ax_layout a). split; [exact (early_get dim _ o0 o a Hwf Ee Ho Ha) | exact Hsum].
  - destruct (general_path_good _ _ _ _ _ _ Hgen) as [Hg Hk].
    destruct (lookup_some_of_key (ax_label a) R) as [c Hc]; [rewrite Hk; exact Hj|].
    exists c. split; [exact Hc|].
    rewrite Forall_forall in Hg. destruct (Hg _ (lookup_In _ _ _ Hc)) as [_ Hgood]. cbn [fst snd] in Hgood.
    destruct (label_dims_wf dim ops (ax_label a) Hwf) as [Hpos [n Hn]].
    rewrite <- Hsum, (Hn _ Hown).
    destruct Hgood as [Hin|Hcm]; [apply Hn; exact Hin|].
    apply (common_blockdim_finest _ n c Hpos Hn Hcm). intros E. rewrite E in Hown. contradiction.
Qed.

Lemma fold_max_shift t h : 0 <= h -> fold_right Z.max h t = Z.max h (fold_right Z.max 0 t).
Proof. intros Hh. induction t as [|x t IH]; cbn [fold_right]; lia. Qed.

Lemma pymax_zmax l : nonneg_layout l -> pymax l = zmax_list l.
Proof.
  intros Hl. destruct Hl as [|h t Hh _]; [reflexivity|].
  unfold pymax, zmax_list. cbn [fold_right]. apply fold_max_shift. exact Hh.
Qed.

Lemma zprod_map_le {A} (f g : A -> Z) (l : list A) :
  (forall a, In a l -> 0 <= f a <= g a) -> 0 <= zprod (map f l) <= zprod (map g l).
Proof.
  induction l as [|a t IH]; intros H; cbn [map zprod]; [lia|].
  pose proof (H a (or_introl eq_refl)) as Ha.
  assert (0 <= zprod (map f t) <= zprod (map g t)) as Ht by (apply IH; intros b Hb; apply H; right; exact Hb).
  nia.
Qed.

(* when every decided layout is the common refinement of its label, no operand's largest block grows *)
Lemma all_fine_no_growth dim ops R :
  Forall (wf_operand dim) ops -> map fst R = labels ops ->
  (forall j c, In (j, c) R -> common_blockdim (label_dims ops j) = UOk c) ->
  forall o, In o ops -> target_bytes R o <= current_bytes o.
Proof.
  intros Hwf Hk HR o Ho. unfold target_bytes, current_bytes.
  assert (0 <= o_itemsize o) as Hitem.
  { rewrite Forall_forall in Hwf. apply (Hwf o Ho). }
  apply Z.mul_le_mono_nonneg_l; [exact Hitem|].
  apply zprod_map_le. intros a Ha. apply filter_In in Ha. destruct Ha as [Ha Hsz].
  destruct (own_axis dim _ o a Hwf Ho Ha ltac:(lia)) as [Hj [Hown _]].
  destruct (lookup_some_of_key (ax_label a) R) as [c Hc]; [rewrite Hk; exact Hj|].
  unfold get. rewrite Hc. apply lookup_In, HR in Hc.
  destruct (label_dims_wf dim ops (ax_label a) Hwf) as [Hpos [n Hn]].
  destruct (common_blockdim_finest _ n c Hpos Hn Hc) as [Hcpos _].
  assert (pos_layout (ax_layout a)) as Hapos by (rewrite Forall_forall in Hpos; apply Hpos; exact Hown).
  rewrite (pymax_zmax c (Forall_pos_nonneg _ Hcpos)), (pymax_zmax _ (Forall_pos_nonneg _ Hapos)).
  split; [apply fold_max_nonneg | apply (common_blockdim_no_growth _ n c Hpos Hn Hc _ Hown)].
Qed.

(* what the size guard compares with the limit bounds every block that would grow *)
Lemma worst_bytes_ge cs ops o :
  In o ops -> target_bytes cs o <= Z.max (current_bytes o) (worst_bytes cs ops).
Proof.
  intros Ho. destruct (participates o) eqn:Ep.
  2:{ unfold participates, target_bytes, current_bytes, axes in *. destruct (o_ind o); [cbn; lia | discriminate]. }
  assert (In o (parts ops)) as Hop by (apply filter_In; split; assumption).
  unfold worst_bytes. set (step := fun w o => _).
  assert (forall l w, w <= fold_left step l w /\
            (In o l -> target_bytes cs o <= Z.max (current_bytes o) (fold_left step l w))) as G.
  { induction l as [|x t IH]; intros w; cbn [fold_left]; [split; [lia | intros []]|].
    destruct (IH (step w x)) as [IH1 IH2].
    assert (w <= step w x /\ target_bytes cs x <= Z.max (current_bytes x) (step w x)) as [Hw Hx]
      by (unfold step; destruct (_ >? _) eqn:E; lia).
    split; [lia|]. intros [<-|Hin]; [lia | apply IH2; exact Hin]. }
  apply G. exact Hop.
Qed.

(* a decided layout that is no shorter than the common refinement of its label is that refinement: an operand
   layout is refined by it, and a refinement with no more blocks is equal *)
Lemma good_not_shorter dim ops j c fj :
  Forall (wf_operand dim) ops -> good ops (j, c) ->
  common_blockdim (label_dims ops j) = UOk fj -> (length fj <= length c)%nat ->
  common_blockdim (label_dims ops j) = UOk c.
Proof.
  intros Hwf [_ [Hin|Hcm]] Hfine Hlen; [|exact Hcm]. cbn [fst snd] in Hin.
  destruct (label_dims_wf dim ops j Hwf) as [Hpos [n Hn]].
  destruct (common_blockdim_finest _ n _ Hpos Hn Hfine) as [Hfpos _].
  assert (pos_layout c) as Hcpos by (rewrite Forall_forall in Hpos; apply Hpos; exact Hin).
  rewrite <- (refines_b_short fj c Hfpos Hcpos (common_blockdim_refines _ n _ Hpos Hn Hfine _ Hin) Hlen).
  exact Hfine.
Qed.

Lemma size_guard_bound dim l ops c1 R :
  Forall (wf_operand dim) ops ->
  Forall (good ops) c1 -> map fst c1 = labels ops ->
  size_guard l ops c1 (bd_all (fun _ => common_blockdim) ops (labels ops)) = Some R ->
  forall o, In o ops -> target_bytes R o <= Z.max l (current_bytes o).
Proof.
  intros Hwf Hg Hk H o Ho. destruct (size_guard_good _ _ _ _ Hg H) as [_ HkR]. revert H.
  unfold size_guard. destruct (worst_bytes c1 ops >? l) eqn:Ew.
  - (* the guard fires: every label ends at its common refinement *)
    destruct (bd_all _ ops (labels ops)) as [f|] eqn:Ef; [|discriminate].
    intros H. apply Z.max_le_iff. right.
    apply (all_fine_no_growth dim ops R Hwf); [congruence | | exact Ho].
    injection H as <-. intros j c Hc. apply in_map_iff in Hc. destruct Hc as [[j' c'] [Heq Hjc]].
    cbn [fst snd] in Heq. rewrite Forall_forall in Hg. specialize (Hg _ Hjc).
    pose proof (fine_get ops f j' Ef (proj1 Hg)) as Hfine.
    destruct (length c' <? length (get j' f))%nat eqn:El; injection Heq as <- <-; [exact Hfine|].
    apply Nat.ltb_ge in El. apply (good_not_shorter dim ops j' c' _ Hwf Hg Hfine El).
  - intros H. injection H as <-. pose proof (worst_bytes_ge c1 ops o Ho). lia.
Qed.

Lemma early_bytes dim ops o0 o :
  Forall (wf_operand dim) ops -> early_b ops o0 = true -> In o ops ->
  target_bytes (early_map o0) o = current_bytes o.
Proof.
  intros Hwf Ee Ho. unfold target_bytes, current_bytes. f_equal. f_equal. apply map_ext_in.
  intros a Ha. apply filter_In in Ha. destruct Ha as [Ha _].
  unfold get. rewrite (early_get dim ops o0 o a Hwf Ee Ho Ha). reflexivity.
Qed.

Lemma common_blockdim_single c : c <> [] -> common_blockdim [c] = UOk c.
Proof.
  intros Hc. destruct c as [|x [|y t]]; [congruence | reflexivity | reflexivity].
Qed.

Lemma early_label_dims dim ops o0 j c :
  Forall (wf_operand dim) ops -> In o0 ops -> early_b ops o0 = true ->
  In (j, c) (combine (o_ind o0) (o_chunks o0)) ->
  label_dims ops j = [c] /\ c <> [].
Proof.
  intros Hwf Ho0 Ee Hjc. rewrite Forall_forall in Hwf.
  destruct (Hwf o0 Ho0) as [Hl1 [Hl2 [Hnd [_ Hax]]]].
  rewrite <- (map_fst_combine _ _ Hl1) in Hnd.
  assert (exists s, In (j, c, s) (axes o0)) as [s Hs].
  { unfold axes. apply in_combine_ex; [|exact Hjc]. rewrite combine_length. lia. }
  assert (raw_dims ops j = [c]) as Hraw.
  { unfold raw_dims. apply dedup_all_same.
    - intros d Hd. apply in_map_iff in Hd. destruct Hd as [a [<- Ha]].
      apply filter_In in Ha. destruct Ha as [Ha Hl].
      apply all_axes_In in Ha. destruct Ha as [o [Ho Ha]].
      destruct (early_b_spec _ _ _ Ee Ho) as [Hi Hc].
      destruct a as [[j' d] s']. cbn [ax_label ax_layout fst snd] in *.
      assert (j' = j) as -> by lia.
      unfold axes in Ha. apply in_combine_l in Ha. rewrite Hi, Hc in Ha.
      apply (lookup_nodup _ _ _ Hnd) in Ha, Hjc. congruence.
    - apply in_map_iff. exists (j, c, s). split; [reflexivity|]. apply filter_In.
      split; [apply all_axes_In; exists o0; split; assumption | apply Z.eqb_refl]. }
  split; [rewrite label_dims_eq, Hraw; reflexivity|].
  apply (Hax (j, c, s) Hs).
Qed.

(* under `refine` the general path stops at the common refinements, whatever the limit *)
Lemma general_path_refine qcmp pick limit ops R :
  general_path qcmp pick PRefine limit ops = Some R ->
  bd_all (fun _ => common_blockdim) ops (labels ops) = Some R.
Proof.
  unfold general_path. cbn [guard_limit].
  destruct (bd_all _ ops (labels ops)); [intros H; exact H | discriminate].
Qed.

(* (T3) under `refine` every decided layout is the common refinement *)
Theorem unify_decide_refine_is_common qcmp pick limit ops dim R :
  Forall (wf_operand dim) ops ->
  unify_decide qcmp pick PRefine limit ops = Some R ->
  forall j c, In (j, c) R -> common_blockdim (label_dims ops j) = UOk c.
Proof.
  intros Hwf H j c Hin. destruct (unify_decide_cases _ _ _ _ _ _ H) as [[_ ->]|[[o0 [Ho0 [Ee ->]]]|Hgen]].
  - destruct Hin.
  - apply early_map_In in Hin.
    destruct (early_label_dims dim _ o0 j c Hwf Ho0 Ee Hin) as [-> Hne].
    apply common_blockdim_single. exact Hne.
  - apply (bd_all_spec _ _ _ _ (general_path_refine _ _ _ _ _ Hgen)). exact Hin.
Qed.

(* under `refine` nothing grows, whatever the limit *)
Theorem unify_decide_refine_no_growth qcmp pick limit ops dim R :
  Forall (wf_operand dim) ops ->
  unify_decide qcmp pick PRefine limit ops = Some R ->
  forall o, In o ops -> target_bytes R o <= current_bytes o.
Proof.
  intros Hwf H o Ho. destruct (unify_decide_cases _ _ _ _ _ _ H) as [[-> _]|[[o0 [_ [Ee ->]]]|Hgen]].
  - destruct Ho.
  - rewrite (early_bytes dim _ o0 o Hwf Ee Ho). lia.
  - destruct (bd_all_spec _ _ _ _ (general_path_refine _ _ _ _ _ Hgen)) as [Hk Hin].
    apply (all_fine_no_growth dim _ R Hwf Hk Hin o Ho).
Qed.

(* (T2) THE GROWTH BOUND.  Measure: target_bytes R o = itemsize * product over the operand's non-broadcast
   axes (shape[n] > 1) of the largest decided chunk of the axis' label = the byte size of the largest block of
   the operand once rechunked to the decided layouts; current_bytes o = the same for its own chunks.
   For every policy, every NON-ZERO limit and both oracles. *)
Theorem unify_decide_growth_bound qcmp pick pol l ops dim R :
  Forall (wf_operand dim) ops -> l <> 0 ->
  unify_decide qcmp pick pol (Some l) ops = Some R ->
  forall o, In o ops -> target_bytes R o <= Z.max l (current_bytes o).
Proof.
  intros Hwf Hl H o Ho. destruct (unify_decide_cases _ _ _ _ _ _ H) as [[-> _]|[[o0 [_ [Ee ->]]]|Hgen]].
  - destruct Ho.
  - rewrite (early_bytes dim _ o0 o Hwf Ee Ho). lia.
  - (* `refine` has no guard and needs none; under the merging policies (PAuto, PCoarse: the two `all:`)
       the guard runs with limit l *)
    destruct pol; [| |pose proof (unify_decide_refine_no_growth _ _ _ _ _ _ Hwf H o Ho); lia].
    all: destruct (general_path_inv _ _ _ _ _ _ Hgen) as [c1 [Hg [Hk HR]]]; cbn [guard_limit] in HR.
    all: destruct (l =? 0) eqn:E; [lia|]; apply (size_guard_bound dim l _ c1 R Hwf Hg Hk HR o Ho).
Qed.

Lemma nodupb_NoDup l : nodupb l = true -> NoDup l.
Proof.
  induction l as [|x t IH]; cbn [nodupb]; intros H; constructor.
  - apply andb_true_iff in H. destruct H as [H _]. apply negb_true_iff in H. intros Hin.
    pose proof (existsb_false_In _ _ x H Hin). lia.
  - apply IH. apply andb_true_iff in H. apply H.
Qed.

Lemma wf_operand_b_spec dim o : wf_operand_b dim o = true -> wf_operand dim o.
Proof.
  unfold wf_operand_b, wf_operand. intros H.
  apply andb_prop in H. destruct H as [H H5]. apply andb_prop in H. destruct H as [H H4].
  apply andb_prop in H. destruct H as [H H3]. apply andb_prop in H. destruct H as [H1 H2].
  split; [lia|]. split; [lia|]. split; [apply nodupb_NoDup; exact H3|]. split; [lia|].
  intros a Ha. apply (proj1 (forallb_forall _ _) H5) in Ha.
  apply andb_prop in Ha. destruct Ha as [Ha Hd]. apply andb_prop in Ha. destruct Ha as [Ha Hs].
  apply andb_prop in Ha. destruct Ha as [Hn Hp].
  split; [intros E; rewrite E in Hn; discriminate|].
  split; [|split; lia].
  unfold all_pos in Hp. rewrite forallb_forall in Hp. apply Forall_forall. intros c Hc. specialize (Hp c Hc). lia.
Qed.

(* the limit 0 is falsy in `if limit and ...`: the guard is skipped and the bound of the property text,
   max(limit, own largest block) = own largest block, fails *)
Definition ex_zero_ops : list operand :=
  [mkop 1 [0] [[2; 2]] [4] 32 8; mkop 2 [0] [[1; 1; 1; 1]] [4] 32 8].

Theorem growth_bound_limit_zero_refuted :
  exists ops dim R o, Forall (wf_operand dim) ops /\
    unify_decide rat_cmp (fun _ => 0%nat) PCoarse (Some 0) ops = Some R /\ In o ops /\
    target_bytes R o > Z.max 0 (current_bytes o).
Proof.
  exists ex_zero_ops, (fun _ => 4), [(0, [2; 2])], (mkop 2 [0] [[1; 1; 1; 1]] [4] 32 8).
  split; [|split; [|split]].
  - apply Forall_forall. intros o [<-|[<-|[]]]; apply wf_operand_b_spec; vm_compute; reflexivity.
  - vm_compute. reflexivity.
  - right. left. reflexivity.
  - vm_compute. reflexivity.
Qed.

(* (T4) the realignment choice does not commute with reversing every layout: (1,3) and (2,2) with equal bytes
   realign to (1,3) (equal length, equal cost, equal anchor bytes: the LAYOUT TUPLE breaks the tie, and
   (1,3) < (2,2)); reversed, (3,1) and (2,2) realign to (2,2) < (3,1), which is not rev (1,3). *)
Definition ex_rev_ops : list operand :=
  [mkop 1 [0] [[1; 3]] [4] 32 8; mkop 2 [0] [[2; 2]] [4] 32 8].

Theorem realign_choice_not_stable_under_reversal :
  forall p : nat,
  unify_decide rat_cmp (fun _ => p) PAuto None ex_rev_ops = Some [(0, [1; 3])] /\
  unify_decide rat_cmp (fun _ => p) PAuto None (map rev_operand ex_rev_ops) = Some [(0, [2; 2])] /\
  rev_map [(0, [1; 3])] <> [(0, [2; 2])].
Proof.
  intros p. split; [|split].
  - destruct p as [|[|[|p]]]; vm_compute; reflexivity.
  - destruct p as [|[|[|p]]]; vm_compute; reflexivity.
  - vm_compute. discriminate.
Qed.

(* the tie-break oracle of coarse_blockdim is irrelevant for strictly positive layouts: whichever minimal-length
   candidate Python's min(.., key=len) returns from the set, the result is the same *)
Definition coarse_cands (ds : list (list Z)) : list (list Z) :=
  let nt := filter nontrivial (dedup ds) in filter (fun x => Nat.eqb (length x) (min_len nt)) nt.

Lemma min_len_attained (nt : list (list Z)) : nt <> [] -> exists x, In x nt /\ length x = min_len nt.
Proof.
  unfold min_len. destruct nt as [|h t]; [congruence|]. intros _. cbn [map].
  revert h. induction t as [|y t IH]; intros h; cbn [map fold_right].
  - exists h. split; [left; reflexivity | reflexivity].
  - destruct (IH h) as [x [Hx Hl]].
    destruct (Nat.le_gt_cases (length y) (fold_right Nat.min (length h) (map (@length Z) t))) as [Hle|Hgt].
    + exists y. split; [right; left; reflexivity | lia].
    + exists x. split; [destruct Hx as [Hx|Hx]; [left; exact Hx | right; right; exact Hx] | lia].
Qed.

Lemma coarse_cands_nonempty ds : filter nontrivial (dedup ds) <> [] -> coarse_cands ds <> [].
Proof.
  intros H. destruct (min_len_attained _ H) as [x [Hx Hl]]. unfold coarse_cands.
  intros E. assert (In x (filter (fun x => Nat.eqb (length x) (min_len (filter nontrivial (dedup ds)))) (filter nontrivial (dedup ds)))) as Hin.
  { apply filter_In. split; [exact Hx | apply Nat.eqb_eq; exact Hl]. }
  rewrite E in Hin. contradiction.
Qed.

Theorem coarse_blockdim_pick_irrelevant p q ds :
  Forall pos_layout ds ->
  (p < length (coarse_cands ds))%nat -> (q < length (coarse_cands ds))%nat ->
  coarse_blockdim p ds = coarse_blockdim q ds.
Proof.
  intros Hpos. unfold coarse_cands, coarse_blockdim.
  destruct (existsb (fun d => match d with [] => false | _ => true end) (dedup ds)); cbn [negb]; [|reflexivity].
  destruct (filter nontrivial (dedup ds)) as [|d0 [|d1 l]] eqn:Ent; [reflexivity | reflexivity |].
  destruct (forallb (fun x => zsum x =? zsum d0) (d0 :: d1 :: l)) eqn:Eall; cbn [negb]; [|reflexivity].
  assert (forall x, In x (d0 :: d1 :: l) -> pos_layout x) as Hntpos.
  { intros x Hx. rewrite <- Ent in Hx. apply nt_In in Hx. rewrite Forall_forall in Hpos. apply Hpos, Hx. }
  clear Ent. set (nt := d0 :: d1 :: l) in *.
  set (cands := filter (fun x => Nat.eqb (length x) (min_len nt)) nt).
  intros Hp Hq. apply (nth_In cands d0) in Hp, Hq.
  set (cp := nth p cands d0) in *. set (cq := nth q cands d0) in *.
  (* a candidate that every layout refines is the only candidate: the other one refines it and is no longer *)
  assert (forall a b, In a cands -> In b cands ->
                      forallb (fun x => subset_b (inner_bounds a) (inner_bounds x)) nt = true -> b = a) as Huniq.
  { intros a b Ha Hb Hall. apply filter_In in Ha, Hb. destruct Ha as [Ha Hla], Hb as [Hb Hlb].
    rewrite forallb_forall in Hall, Eall. pose proof (Eall a Ha). pose proof (Eall b Hb).
    apply (refines_b_short b a (Hntpos b Hb) (Hntpos a Ha)); [|lia].
    unfold refines_b. rewrite (Hall b Hb), andb_true_r. lia. }
  destruct (forallb (fun x => subset_b (inner_bounds cp) (inner_bounds x)) nt) eqn:Ep.
  - assert (cq = cp) as -> by (apply Huniq; assumption). rewrite Ep. reflexivity.
  - destruct (forallb (fun x => subset_b (inner_bounds cq) (inner_bounds x)) nt) eqn:Eq; [|reflexivity].
    assert (cp = cq) as E by (apply Huniq; assumption). rewrite E in Ep. congruence.
Qed.

Print Assumptions unify_decide_no_invented_layout.
Print Assumptions unify_decide_total_length.
Print Assumptions unify_decide_growth_bound.
Print Assumptions unify_decide_refine_no_growth.
Print Assumptions unify_decide_refine_is_common.
Print Assumptions growth_bound_limit_zero_refuted.
Print Assumptions realign_choice_not_stable_under_reversal.
Print Assumptions coarse_blockdim_pick_irrelevant.
