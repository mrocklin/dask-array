(* C19 — diff / gradient (DiffGrad.v): the library's plans compute the NumPy definitions *)
From DA Require Import PyBase PyBaseFacts Slicing Slice1dBase Scan Window WindowBase SlidingFacts OverlapFacts DiffGrad.
From Coq Require Import QArith.
Open Scope Z_scope.

Lemma nth_pyslice {T} (l : list T) (dd : T) lo hi i :
  Z.of_nat i < hi - lo -> nth i (pyslice l lo hi) dd = nth (Z.to_nat lo + i) l dd.
Proof.
  intros Hi. unfold pyslice. rewrite nth_firstn_lt by lia. apply nth_skipn_add.
Qed.

Lemma all_some_cons {A} (x : option A) t y r :
  x = Some y -> all_some t = Some r -> all_some (x :: t) = Some (y :: r).
Proof. intros -> H. cbn [all_some]. rewrite H. reflexivity. Qed.

Lemma all_some_head_none {A} (x : option A) t : x = None -> all_some (x :: t) = None.
Proof. intros ->. reflexivity. Qed.

(* ensure_minimum_chunksize succeeds whenever the axis is at least `size` long *)
Lemma ensure_minimum_chunksize_some size cs :
  Forall (fun c => 0 <= c) cs -> cs <> [] -> size <= zsum cs -> exists out, ensure_minimum_chunksize size cs = Some out.
Proof.
  intros Hnn Hne Hsz. unfold ensure_minimum_chunksize.
  destruct (zmin_list_ge cs 0 Hne Hnn) as (mn & -> & Hmn).
  destruct (size <=? mn) eqn:E1; [eexists; reflexivity|].
  pose proof (emc_loop_inv size cs [] 0 _ Hnn ltac:(lia) ltac:(constructor) eq_refl) as HI.
  destruct (emc_loop size cs [] 0) as [o n]. destruct HI as (I1 & I2 & I3). cbn [zsum] in I3.
  destruct (n >=? size) eqn:E2; [eexists; reflexivity|].
  destruct o as [|o0 o']; [cbn [zsum] in I3; lia | eexists; reflexivity].
Qed.

(* chunks that pass gradient's guard are left alone by overlap()'s rechunk *)
Lemma rechunk_id_ge2 cs : cs <> [] -> Forall (fun c => 2 <= c) cs -> overlap_rechunked_chunks cs 1 1 true = Some cs.
Proof.
  intros Hne HF. unfold overlap_rechunked_chunks, ensure_minimum_chunksize. change (Z.max 1 1) with 1.
  destruct (zmin_list_ge cs 2 Hne HF) as (mn & -> & Hmn).
  destruct (1 <=? mn) eqn:E1; [|lia].
  assert (E2 : match cs with c0 :: c1' :: rest => if c0 <=? 1 then (c0 + c1') :: rest else cs | _ => cs end = cs).
  { destruct cs as [|c0 [|c1' rest]]; try reflexivity. inversion HF; subst. destruct (c0 <=? 1) eqn:E; [lia | reflexivity]. }
  rewrite E2.
  assert (E3 : last cs 0 <=? 1 = false).
  { rewrite (app_removelast_last 0 Hne) in HF. apply Forall_app in HF as [_ HF]. inversion HF; subst. lia. }
  rewrite E3, andb_false_r. reflexivity.
Qed.

Section GradientFacts.
  Variables T R : Type.
  Variable d : T.
  Variable mid : T -> T -> T -> R.
  Variable lft rgt : list T -> R.
  Variable eo : Z.

  Notation grad_at := (grad_at d mid lft rgt eo).
  Notation np_g := (np_gradient_gen d mid lft rgt eo).

  (* a slice of xs that cuts off no neighbour of its position p: it reaches an end of the slice only
     where xs ends too *)
  Lemma grad_at_pyslice (xs : list T) lo hi (p : nat) :
    0 <= lo -> hi <= zlen xs -> 0 <= eo -> eo + 1 <= hi - lo -> Z.of_nat p < hi - lo ->
    (p = 0%nat -> lo = 0) -> (Z.of_nat p + 1 = hi - lo -> hi = zlen xs) ->
    grad_at (pyslice xs lo hi) p = grad_at xs (Z.to_nat lo + p).
  Proof.
    intros Hlo Hhi Heo Hlen Hp Hfirst Hlast.
    assert (Hle : length (pyslice xs lo hi) = Z.to_nat (hi - lo)).
    { pose proof (pyslice_length xs lo hi Hlo ltac:(lia) Hhi) as H. unfold zlen in H. lia. }
    unfold DiffGrad.grad_at. rewrite Hle. destruct p as [|p].
    - rewrite (Hfirst eq_refl). cbn [Z.to_nat Nat.add Nat.eqb]. f_equal.
      unfold pyslice. cbn [Z.to_nat skipn]. rewrite firstn_firstn. f_equal. lia.
    - clear Hfirst. change (S p =? 0)%nat with false.
      destruct (Nat.eqb_spec (Z.to_nat lo + S p) 0) as [E0|_]; [lia|]. cbv iota.
      destruct (Nat.eqb_spec (S (S p)) (Z.to_nat (hi - lo))) as [E|E].
      + specialize (Hlast ltac:(lia)). subst hi.
        rewrite (proj2 (Nat.eqb_eq _ _)) by (unfold zlen in *; lia). f_equal.
        rewrite lastn_pyslice by lia. rewrite <- (lastn_pyslice xs 0 (zlen xs)) by lia.
        rewrite pyslice_all. reflexivity.
      + clear Hlast. rewrite (proj2 (Nat.eqb_neq _ _)) by (unfold zlen in *; lia).
        rewrite !nth_pyslice by lia. f_equal; f_equal; lia.
  Qed.

  (* one block [a, a + c) with f / b halo elements in front / behind, none only at an end of xs:
     kernel on the extended block, then _trim = the block's part of the global gradient *)
  Lemma gradient_block (xs : list T) a c f b :
    0 <= f <= a -> 0 <= b -> a + c + b <= zlen xs ->
    (f = 0 -> a = 0) -> (b = 0 -> a + c = zlen xs) ->
    0 <= eo -> eo + 1 <= c + f + b ->
    exists g, np_g (pyslice xs (a - f) (a + c + b)) = Some g /\
              pyslice g f (zlen g - b) = pyslice (map (grad_at xs) (seq 0 (length xs))) a (a + c).
  Proof.
    intros Hf Hb Hfit Hf0 Hb0 Heo Hlen.
    set (ext := pyslice xs (a - f) (a + c + b)).
    assert (Hle : zlen ext = c + f + b) by (unfold ext; rewrite pyslice_length; lia).
    unfold np_gradient_gen. fold ext. destruct (zlen ext <? eo + 1) eqn:E; [lia|].
    eexists. split; [reflexivity|].
    assert (Hlg : zlen (map (grad_at ext) (seq 0 (length ext))) = c + f + b).
    { unfold zlen. rewrite map_length, seq_length. exact Hle. }
    rewrite Hlg. rewrite !pyslice_map_seq by (unfold zlen in *; lia).
    replace (Z.to_nat (c + f + b - b - f)) with (Z.to_nat c) by lia.
    replace (Z.to_nat (a + c - a)) with (Z.to_nat c) by lia.
    rewrite (map_seq_shift _ (Z.to_nat f)), (map_seq_shift _ (Z.to_nat a)).
    apply map_ext_in. intros t Hin. apply in_seq in Hin.
    replace (Z.to_nat a + t)%nat with (Z.to_nat (a - f) + (Z.to_nat f + t))%nat by lia.
    apply grad_at_pyslice; lia.
  Qed.

  (* all blocks: by induction over the layout, block j starting at position a *)
  Lemma gradient_blocks (xs : list T) nb : 0 <= eo ->
    forall cs a j,
      Forall (fun c => 1 <= c) cs -> 0 <= j -> j + zlen cs = nb -> a + zsum cs = zlen xs ->
      fr j 1 true <= a -> (fr j 1 true = 0 -> a = 0) ->
      Forall (fun lh => eo + 1 <= snd lh - fst lh) (trim_bounds cs a j nb 1 1 true) ->
      exists gs, all_some (map np_g (map (pys xs) (trim_bounds cs a j nb 1 1 true))) = Some gs /\ zlen gs = zlen cs /\
                 trim_loop gs j nb 1 1 true = split_blocks cs (skipn (Z.to_nat a) (map (grad_at xs) (seq 0 (length xs)))).
  Proof.
    intros Heo. induction cs as [|c t IH]; intros a j Hpos Hj Hnb Hsum Ha Ha0 Hlen.
    - exists []. repeat split.
    - inversion Hpos as [|c' t' Hc Ht]; subst c' t'. cbn [trim_bounds] in Hlen. inversion Hlen as [|lh lt Hl1 Hl2]; subst lh lt.
      cbn [fst snd] in Hl1. rewrite zlen_cons in Hnb. cbn [zsum] in Hsum.
      pose proof (fr_bounds j 1 true ltac:(lia)) as Hfr. pose proof (bk_bounds j nb 1 true ltac:(lia)) as Hbk.
      (* a halo element behind the block unless it is the last *)
      assert (Hbk' : bk j nb 1 true <= zsum t /\ (bk j nb 1 true = 0 -> zsum t = 0)).
      { destruct t as [|c2 t2].
        - change (zlen (@nil Z)) with 0 in Hnb. rewrite bk_last by lia. cbn [zsum]. lia.
        - inversion Ht as [|c2' t2' Hc2 Ht2]; subst c2' t2'. rewrite zlen_cons in Hnb. pose proof (zlen_nonneg t2).
          pose proof (zsum_nonneg_ge 1 t2 ltac:(lia) Ht2). rewrite bk_earlier by lia. cbn [zsum]. lia. }
      destruct (gradient_block xs a c (fr j 1 true) (bk j nb 1 true)) as (g & Eg & Etrim); try lia.
      pose proof (zlen_nonneg t) as Hlt.
      destruct (IH (a + c) (j + 1) Ht ltac:(lia) ltac:(lia) ltac:(lia)
                   ltac:(rewrite fr_later by lia; lia) ltac:(rewrite fr_later by lia; lia) Hl2) as (gs & Egs & Hgs & Eloop).
      exists (g :: gs). split; [|split].
      + cbn [trim_bounds map]. apply all_some_cons; [exact Eg | exact Egs].
      + rewrite !zlen_cons, Hgs. reflexivity.
      + cbn [trim_loop split_blocks]. f_equal.
        * rewrite trim_block_fr_bk, Etrim. unfold pyslice. f_equal. lia.
        * rewrite Eloop. f_equal. rewrite skipn_skipn. f_equal. lia.
  Qed.

  (* every extended block is at least edge_order + 1 long: a single block holds the whole array,
     otherwise an edge block of 2 has one neighbour and the others have two *)
  Lemma ext_lengths_from nb : eo <= 2 -> forall cs a j,
    Forall (fun c => 1 <= c) cs -> 0 <= j -> j + zlen cs = nb -> 1 < nb ->
    (j = 0 -> 1 < hd 0 cs) -> 1 < last cs 0 ->
    Forall (fun lh => eo + 1 <= snd lh - fst lh) (trim_bounds cs a j nb 1 1 true).
  Proof.
    intros Heo. induction cs as [|c t IH]; intros a j Hpos Hj Hnb Hnb1 Hhd Hlast; [constructor|].
    inversion Hpos as [|c' t' Hc Ht]; subst c' t'. rewrite zlen_cons in Hnb. pose proof (zlen_nonneg t).
    cbn [trim_bounds hd] in *. constructor.
    - cbn [fst snd]. destruct t as [|c2 t2].
      + change (zlen (@nil Z)) with 0 in Hnb. cbn [last] in Hlast.
        rewrite bk_last, fr_later by lia. lia.
      + rewrite zlen_cons in Hnb. pose proof (zlen_nonneg t2). rewrite bk_earlier by lia.
        destruct (Z.eq_dec j 0) as [->|Hj0]; [rewrite fr_first; specialize (Hhd eq_refl) | rewrite fr_later by lia]; lia.
    - destruct t as [|c2 t2]; [constructor|]. apply IH; [exact Ht | lia | lia | lia | lia | exact Hlast].
  Qed.

  Lemma ext_lengths cs nb : eo <= 2 -> zlen cs = nb ->
    Forall (fun c => 1 <= c) cs -> eo + 1 <= zsum cs ->
    (nb = 1 \/ (1 < hd 0 cs /\ 1 < last cs 0)) ->
    Forall (fun lh => eo + 1 <= snd lh - fst lh) (trim_bounds cs 0 0 nb 1 1 true).
  Proof.
    intros Heo Hnb Hpos Hsum Hedge. destruct (Z.eq_dec nb 1) as [E1|E1].
    - destruct cs as [|c0 [|c1 t]]; [constructor | | rewrite !zlen_cons in Hnb; pose proof (zlen_nonneg t); lia].
      subst nb. cbn [zsum] in Hsum. repeat constructor. cbn. lia.
    - destruct Hedge as [|[Hhd Hlast]]; [contradiction|]. pose proof (zlen_nonneg cs).
      apply ext_lengths_from; [exact Heo | exact Hpos | lia | lia | | intros _; exact Hhd | exact Hlast].
      destruct cs; [cbn in Hhd; lia | rewrite zlen_cons in Hnb; pose proof (zlen_nonneg cs); lia].
  Qed.

  (* WITHOUT the guard: the map_overlap pipeline alone (overlap()'s own rechunk merges edge blocks
     of one element) already computes numpy.gradient whenever numpy.gradient is defined, for every
     layout (blocks of any size >= 0), edge_order 0..2.  The result is laid out in the rechunked chunks. *)
  Theorem gradient_core_correct (blocks : list (list T)) G :
    0 <= eo <= 2 -> blocks <> [] ->
    np_g (concat blocks) = Some G ->
    exists cs, overlap_rechunked_chunks (map zlen blocks) 1 1 true = Some cs /\
               gradient_core d mid lft rgt eo blocks = Some (split_blocks cs G) /\
               concat (split_blocks cs G) = G /\ map zlen (split_blocks cs G) = cs.
  Proof.
    intros Heo Hne HG. set (xs := concat blocks) in *.
    unfold np_gradient_gen in HG. destruct (zlen xs <? eo + 1) eqn:Elen; [discriminate|]. injection HG as <-.
    pose proof (Forall_zlen_nonneg blocks) as Hnn0.
    pose proof (zsum_map_zlen blocks) as Hsum0. fold xs in Hsum0.
    assert (Hne0 : map zlen blocks <> []) by (destruct blocks; [congruence | discriminate]).
    assert (Hov : exists ov, overlap blocks 1 1 BNone = Some ov).
    { unfold overlap, overlap_rechunked_chunks. change (Z.max 1 1) with 1.
      destruct (ensure_minimum_chunksize_some 1 (map zlen blocks) Hnn0 Hne0 ltac:(lia)) as (c1 & ->).
      cbn [is_none]. eexists. reflexivity. }
    destruct Hov as (ov & Eov).
    destruct (overlap_none_spec blocks 1 1 ov ltac:(lia) ltac:(lia) Eov) as (cs & Ecs & Hsum & Hmin & _ & Eblk).
    change (Z.max 1 1) with 1 in Hmin. fold xs in Hsum, Eblk.
    destruct (overlap_rechunked_chunks_contract _ 1 1 true _ Hnn0 ltac:(lia) ltac:(lia) Ecs) as (_ & _ & _ & Hedge).
    specialize (Hedge eq_refl ltac:(lia)).
    pose proof (Forall_ge_le 1 0 cs ltac:(lia) Hmin) as Hnn.
    assert (Hlens : Forall (fun lh => eo + 1 <= snd lh - fst lh) (trim_bounds cs 0 0 (zlen cs) 1 1 true)).
    { apply ext_lengths; [lia | reflexivity | exact Hmin | lia | exact Hedge]. }
    destruct (gradient_blocks xs (zlen cs) ltac:(lia) cs 0 0 Hmin ltac:(lia) ltac:(lia) ltac:(lia) (Z.le_refl 0) (fun _ => eq_refl) Hlens)
      as (gs & Egs & Hl & Eloop).
    exists cs. split; [exact Ecs|].
    set (G := map (grad_at xs) (seq 0 (length xs))) in *.
    assert (HlenG : zlen G = zlen xs) by (unfold G, zlen; rewrite map_length, seq_length; reflexivity).
    split; [|split; [apply concat_split_blocks; [exact Hnn | lia] | apply map_zlen_split_blocks; [exact Hnn | lia]]].
    unfold gradient_core, gradient_ext. rewrite Eov, Eblk, Egs. f_equal.
    unfold trim_internal. rewrite Hl. exact Eloop.
  Qed.

  (* the pipeline fails exactly when numpy.gradient fails (array shorter than edge_order + 1) *)
  Theorem gradient_core_none (blocks : list (list T)) :
    np_g (concat blocks) = None -> gradient_core d mid lft rgt eo blocks = None.
  Proof.
    intros HG. unfold np_gradient_gen in HG. destruct (zlen (concat blocks) <? eo + 1) eqn:Elen; [|discriminate].
    unfold gradient_core, gradient_ext.
    destruct (overlap blocks 1 1 BNone) as [ov|] eqn:Eov; [|reflexivity].
    destruct (overlap_none_spec blocks 1 1 ov ltac:(lia) ltac:(lia) Eov) as (cs & _ & _ & _ & Hcs & ->).
    destruct cs as [|c0 t]; [congruence|].
    cbn [trim_bounds map].
    assert (Hnone : np_g (pys (concat blocks) (0 - fr 0 1 true, 0 + c0 + bk 0 (zlen (c0 :: t)) 1 true)) = None).
    { unfold np_gradient_gen. rewrite (proj2 (Z.ltb_lt _ _)); [reflexivity|].
      pose proof (pyslice_length_le (concat blocks) (0 - fr 0 1 true) (0 + c0 + bk 0 (zlen (c0 :: t)) 1 true)). rewrite pys_pair. lia. }
    rewrite (all_some_head_none _ _ Hnone). reflexivity.
  Qed.

  (* WITH the guard as gradient() checks it (every chunk >= edge_order + 1): the chunks are kept,
     and the concatenated trimmed per-block gradients are numpy.gradient of the whole array *)
  Theorem gradient_plan_correct (blocks : list (list T)) :
    1 <= eo <= 2 -> blocks <> [] -> gradient_guard eo (map zlen blocks) = true ->
    exists G, np_g (concat blocks) = Some G /\
              gradient_plan d mid lft rgt eo blocks = Some (split_blocks (map zlen blocks) G) /\
              concat (split_blocks (map zlen blocks) G) = G /\
              map zlen (split_blocks (map zlen blocks) G) = map zlen blocks.
  Proof.
    intros Heo Hne Hg.
    assert (HF : Forall (fun c => eo + 1 <= c) (map zlen blocks)).
    { unfold gradient_guard in Hg. rewrite forallb_forall in Hg. apply Forall_forall. intros c Hc.
      specialize (Hg c Hc). lia. }
    assert (Hne0 : map zlen blocks <> []) by (destruct blocks; [congruence | discriminate]).
    pose proof (zsum_ge_chunk _ (eo + 1) Hne0 ltac:(lia) HF) as Hlen. rewrite zsum_map_zlen in Hlen.
    assert (HG : exists G, np_g (concat blocks) = Some G).
    { unfold np_gradient_gen. destruct (zlen (concat blocks) <? eo + 1) eqn:E; [lia | eexists; reflexivity]. }
    destruct HG as (G & HG). exists G. split; [exact HG|].
    destruct (gradient_core_correct blocks G ltac:(lia) Hne HG) as (cs & E1 & E2 & E3 & E4).
    rewrite rechunk_id_ge2 in E1 by (assumption || exact (Forall_ge_le (eo + 1) 2 _ ltac:(lia) HF)).
    injection E1 as <-.
    unfold gradient_plan. rewrite Hg. split; [exact E2 | split; [exact E3 | exact E4]].
  Qed.

  (* the guard only rejects: when it fails the routine raises, although the pipeline would have been right *)
  Theorem gradient_plan_guard_none (blocks : list (list T)) :
    gradient_guard eo (map zlen blocks) = false -> gradient_plan d mid lft rgt eo blocks = None.
  Proof. intros H. unfold gradient_plan. rewrite H. reflexivity. Qed.
End GradientFacts.

Theorem da_gradient2_core_correct eo (blocks : list (list Z)) G :
  0 <= eo <= 2 -> blocks <> [] -> np_gradient2 eo (concat blocks) = Some G ->
  exists cs, overlap_rechunked_chunks (map zlen blocks) 1 1 true = Some cs /\
             da_gradient2_core eo blocks = Some (split_blocks cs G) /\
             concat (split_blocks cs G) = G /\ map zlen (split_blocks cs G) = cs.
Proof. apply gradient_core_correct. Qed.

Theorem da_gradient2_core_none eo (blocks : list (list Z)) :
  0 <= eo -> np_gradient2 eo (concat blocks) = None -> da_gradient2_core eo blocks = None.
Proof. intros _. apply gradient_core_none. Qed.

(* the scalar-spacing gradient is the twice-gradient over 2h, position by position *)
Theorem np_gradient_over2h eo (h : Q) (l : list Z) :
  np_gradient eo h l = option_map (map (over2h h)) (np_gradient2 eo l).
Proof.
  unfold np_gradient, np_gradient2, np_gradient_gen. destruct (zlen l <? eo + 1); [reflexivity|].
  cbn [option_map]. f_equal. rewrite map_map. apply map_ext. intros i. unfold grad_at.
  destruct (i =? 0)%nat; [reflexivity|]. destruct (S i =? length l)%nat; reflexivity.
Qed.

Lemma map2_cons {A B C} (f : A -> B -> C) x a y b : map2 f (x :: a) (y :: b) = f x y :: map2 f a b.
Proof. reflexivity. Qed.

(* the un-patched arrays: start0[j] = a_j - 1, stop0[j] = a_j + c_j + 1 *)
Lemma array_locs_raw cs : forall acc,
  combine (map2 (fun s c => s - c - 2) (map (fun s => s + 1) (cumsum_from acc cs)) cs) (map (fun s => s + 1) (cumsum_from acc cs))
  = map (fun lh => (fst lh - 1, snd lh + 1)) (trim_bounds cs acc 0 0 0 0 false).
Proof.
  induction cs as [|c t IH]; intros acc; [reflexivity|].
  cbn [cumsum_from map map2 combine trim_bounds]. f_equal.
  - rewrite fr_bounded, bk_bounded. cbn [fst snd]. f_equal; lia.
  - rewrite IH. f_equal. apply trim_bounds_depth0.
Qed.

Lemma set_last_cons2 v (x y : Z) r : set_last v (x :: y :: r) = x :: set_last v (y :: r).
Proof. reflexivity. Qed.

Lemma last_stop0 t : forall acc, t <> [] -> last (map (fun s => s + 1) (cumsum_from acc t)) 0 - 1 = acc + zsum t.
Proof.
  induction t as [|c [|c' t'] IH]; intros acc Hne; [congruence | cbn; lia |].
  specialize (IH (acc + c) ltac:(discriminate)). cbn [cumsum_from map last zsum] in *. lia.
Qed.

(* behind the first block: start0 is right, stop0 only needs its last entry patched *)
Lemma array_locs_tail nb : forall t acc j,
  0 < j -> j + zlen t = nb -> t <> [] ->
  combine (map2 (fun s c => s - c - 2) (map (fun s => s + 1) (cumsum_from acc t)) t)
          (set_last (acc + zsum t) (map (fun s => s + 1) (cumsum_from acc t)))
  = trim_bounds t acc j nb 1 1 true.
Proof.
  induction t as [|c [|c' t'] IH]; intros acc j Hj Hnb Hne; [congruence | |]; rewrite zlen_cons in Hnb.
  - change (zlen (@nil Z)) with 0 in Hnb. cbn. rewrite fr_later, bk_last by lia. do 2 f_equal; lia.
  - specialize (IH (acc + c) (j + 1) ltac:(lia) ltac:(lia) ltac:(discriminate)).
    rewrite zlen_cons in Hnb. pose proof (zlen_nonneg t').
    cbn [cumsum_from map zsum trim_bounds] in *. rewrite set_last_cons2, map2_cons. cbn [combine]. f_equal.
    + rewrite fr_later, bk_earlier by lia. f_equal; lia.
    + rewrite <- IH. do 2 f_equal. lia.
Qed.

(* for EVERY layout: the (start, stop) pairs of array_locs are the bounds of the overlapped blocks
   [a_j - front_j, a_j + c_j + back_j), front_0 = 0 = back_last, 1 otherwise *)
Theorem array_locs_bounds cs : cs <> [] ->
  combine (fst (array_locs cs)) (snd (array_locs cs)) = trim_bounds cs 0 0 (zlen cs) 1 1 true.
Proof.
  intros Hne. unfold array_locs, cumsum. rewrite (last_stop0 cs 0 Hne).
  destruct cs as [|c0 [|c1 t']]; [congruence | cbn; do 2 f_equal; lia |].
  pose proof (array_locs_tail (zlen (c0 :: c1 :: t')) (c1 :: t') (0 + c0) (0 + 1) ltac:(lia)
                ltac:(rewrite (zlen_cons c0); lia) ltac:(discriminate)) as HT.
  pose proof (zlen_nonneg t').
  cbn [cumsum_from map zsum fst snd trim_bounds] in *. rewrite set_last_cons2, map2_cons. cbn [set_first combine]. f_equal.
  - rewrite fr_first, bk_earlier by (rewrite !zlen_cons; lia). f_equal; lia.
  - rewrite <- HT. reflexivity.
Qed.

(* the coordinate windows handed to the kernel are the overlapped blocks of the coordinate array:
   block j of gradient_ext(coord in the same chunks) = coord[array_locs[0][j] : array_locs[1][j]] *)
Theorem coord_windows_overlap {A} (cblocks : list (list A)) :
  cblocks <> [] -> Forall (fun c => 2 <= c) (map zlen cblocks) ->
  gradient_ext cblocks = Some (coord_windows (concat cblocks) (map zlen cblocks)).
Proof.
  intros Hne HF. unfold gradient_ext.
  assert (Hne0 : map zlen cblocks <> []) by (destruct cblocks; [congruence | discriminate]).
  destruct (overlap cblocks 1 1 BNone) as [ov|] eqn:Eov.
  - destruct (overlap_none_spec cblocks 1 1 ov ltac:(lia) ltac:(lia) Eov) as (cs & Ecs & _ & _ & _ & ->).
    rewrite rechunk_id_ge2 in Ecs by assumption. injection Ecs as <-.
    unfold coord_windows. rewrite array_locs_bounds by exact Hne0. reflexivity.
  - exfalso. unfold overlap in Eov. cbn [is_none] in Eov. rewrite rechunk_id_ge2 in Eov by assumption. discriminate.
Qed.

Lemma pyslice_tl {A} (r : list A) : pyslice r 1 (zlen r) = tl r.
Proof.
  unfold pyslice. change (Z.to_nat 1) with 1%nat. destruct r as [|x r]; [apply firstn_nil|].
  cbn [skipn tl]. apply firstn_all2. unfold zlen. cbn [length]. lia.
Qed.

Lemma pyslice_removelast {A} (r : list A) : pyslice r 0 (zlen r - 1) = removelast r.
Proof.
  unfold pyslice. cbn [Z.to_nat skipn]. rewrite removelast_firstn_len. f_equal. unfold zlen. lia.
Qed.

(* r[1:] - r[:-1] *)
Lemma diff_step_tl r : diff_step r = map2 Z.sub (tl r) (removelast r).
Proof. unfold diff_step. rewrite pyslice_tl, pyslice_removelast. reflexivity. Qed.

Lemma diff_step_cons2 x y t : diff_step (x :: y :: t) = (y - x) :: diff_step (y :: t).
Proof. rewrite !diff_step_tl. reflexivity. Qed.

Lemma np_diff1_cons2 x y t : np_diff1 (x :: y :: t) = (y - x) :: np_diff1 (y :: t).
Proof.
  unfold np_diff1. cbn [length]. rewrite !Nat.sub_succ, !Nat.sub_0_r. cbn [seq map nth]. f_equal.
  rewrite <- seq_shift, map_map. reflexivity.
Qed.

(* one step of the loop is NumPy's first difference *)
Theorem diff_step_spec l : diff_step l = np_diff1 l.
Proof.
  induction l as [|x l IH]; [reflexivity|]. destruct l as [|y t]; [reflexivity|].
  rewrite diff_step_cons2, np_diff1_cons2, IH. reflexivity.
Qed.

Lemma diff_loop_S_out n : forall r, diff_loop (S n) r = diff_step (diff_loop n r).
Proof. induction n as [|n IH]; intros r; [reflexivity|]. cbn [diff_loop] in *. rewrite <- IH. reflexivity. Qed.

(* the loop is the n-th difference *)
Theorem diff_loop_spec n l : diff_loop n l = np_diff n l.
Proof.
  induction n as [|n IH]; [reflexivity|]. rewrite diff_loop_S_out, IH, diff_step_spec. reflexivity.
Qed.

Lemma np_diff1_length l : length (np_diff1 l) = (length l - 1)%nat.
Proof. unfold np_diff1. rewrite map_length, seq_length. reflexivity. Qed.

Theorem np_diff_length n l : length (np_diff n l) = (length l - n)%nat.
Proof. induction n as [|n IH]; cbn [np_diff]; [lia|]. rewrite np_diff1_length, IH. lia. Qed.

Lemma diff_combined_length p q a :
  zlen (diff_combined p q a) = match p with None => 0 | Some x => zlen x end + zlen a + match q with None => 0 | Some y => zlen y end.
Proof. unfold diff_combined. rewrite !zlen_app. destruct p, q; change (zlen (@nil Z)) with 0; lia. Qed.

(* diff() = numpy.diff for every n (negative: both raise; 0: the array itself, prepend / append
   ignored), with len(result) = max(0, len(prepend) + len(a) + len(append) - n) *)
Theorem da_diff_correct n p q a :
  da_diff n p q a = np_diff_full n p q a /\
  (forall r, da_diff n p q a = Some r -> n <> 0 -> zlen r = Z.max 0 (zlen (diff_combined p q a) - n)).
Proof.
  unfold da_diff, np_diff_full. destruct (n =? 0) eqn:E0.
  - split; [reflexivity|]. intros r _ Hn. lia.
  - destruct (n <? 0) eqn:E1; [split; [reflexivity | discriminate]|].
    rewrite diff_loop_spec. split; [reflexivity|]. intros r Hr _. injection Hr as <-.
    unfold zlen. rewrite np_diff_length. lia.
Qed.

Lemma zsum_seq_first (f : nat -> Z) n : zsum (map f (seq 0 (S n))) = f 0%nat + zsum (map (fun k => f (S k)) (seq 0 n)).
Proof. cbn [seq map zsum]. rewrite <- seq_shift, map_map. reflexivity. Qed.

Lemma zsum_seq_last (f : nat -> Z) n : zsum (map f (seq 0 (S n))) = zsum (map f (seq 0 n)) + f n.
Proof. rewrite seq_S, map_app, zsum_app. cbn [map zsum Nat.add]. lia. Qed.

Lemma zsum_map_sub (f g : nat -> Z) l : zsum (map (fun k => f k - g k) l) = zsum (map f l) - zsum (map g l).
Proof. induction l as [|x l IH]; cbn [map zsum]; lia. Qed.

Lemma sbinom_gt n : forall k, (n < k)%nat -> sbinom n k = 0.
Proof.
  induction n as [|n IH]; intros k Hk; destruct k as [|k]; try lia; cbn [sbinom]; [reflexivity|].
  rewrite (IH k), (IH (S k)) by lia. reflexivity.
Qed.

(* Pascal: sum_k sbinom (n+1) k a(k) = sum_k sbinom n k a(k+1) - sum_k sbinom n k a(k) *)
Lemma sbinom_sum_step (a : nat -> Z) n :
  zsum (map (fun k => sbinom (S n) k * a k) (seq 0 (S (S n)))) =
  zsum (map (fun k => sbinom n k * a (S k)) (seq 0 (S n))) - zsum (map (fun k => sbinom n k * a k) (seq 0 (S n))).
Proof.
  rewrite (zsum_seq_first (fun k => sbinom (S n) k * a k)).
  rewrite (map_ext (fun k => sbinom (S n) (S k) * a (S k)) (fun k => sbinom n k * a (S k) - sbinom n (S k) * a (S k)))
    by (intros k; cbn [sbinom]; ring).
  rewrite (zsum_map_sub (fun k => sbinom n k * a (S k)) (fun k => sbinom n (S k) * a (S k))).
  rewrite (zsum_seq_last (fun k => sbinom n (S k) * a (S k))).
  rewrite (zsum_seq_first (fun k => sbinom n k * a k)).
  rewrite (sbinom_gt n (S n)) by lia.
  destruct n; cbn [sbinom]; lia.
Qed.

(* the n-th difference is the alternating binomial combination of n + 1 consecutive samples *)
Theorem np_diff_closed_form n : forall l, np_diff n l = np_diff_closed n l.
Proof.
  induction n as [|n IH]; intros l.
  - unfold np_diff_closed. cbn [np_diff seq map zsum sbinom]. rewrite Nat.sub_0_r.
    rewrite (map_ext _ (fun i => nth i l 0)) by (intros i; rewrite Nat.add_0_r; lia).
    apply list_eq_nth_error; [reflexivity|]. intros p Hp. apply nth_error_nth'. exact Hp.
  - cbn [np_diff]. rewrite IH. unfold np_diff1, np_diff_closed at 1 3.
    rewrite map_length, seq_length. replace (length l - n - 1)%nat with (length l - S n)%nat by lia.
    apply map_ext_in. intros i Hi. apply in_seq in Hi.
    unfold np_diff_closed. rewrite !nth_map_seq by lia.
    rewrite (sbinom_sum_step (fun k => nth (i + k) l 0) n).
    f_equal. apply f_equal. apply map_ext. intros k. do 2 f_equal. lia.
Qed.

(* sbinom is the signed binomial coefficient *)
Lemma binom_gt n : forall k, (n < k)%nat -> binom n k = 0.
Proof.
  induction n as [|n IH]; intros k Hk; destruct k as [|k]; try lia; cbn [binom]; [reflexivity|].
  rewrite (IH k), (IH (S k)) by lia. reflexivity.
Qed.

Theorem sbinom_binom n : forall k, (k <= n)%nat -> sbinom n k = (-1) ^ Z.of_nat (n - k) * binom n k.
Proof.
  induction n as [|n IH]; intros k Hk.
  - assert (k = 0%nat) by lia. subst k. reflexivity.
  - destruct k as [|k].
    + cbn [sbinom binom]. rewrite (IH 0%nat) by lia. rewrite !Nat.sub_0_r.
      replace (binom n 0) with 1 by (destruct n; reflexivity).
      rewrite Nat2Z.inj_succ, Z.pow_succ_r by lia. ring.
    + cbn [sbinom binom]. rewrite Nat.sub_succ. rewrite (IH k) by lia.
      destruct (Nat.eq_dec k n) as [->|Hne].
      * rewrite (sbinom_gt n (S n)), (binom_gt n (S n)) by lia. ring.
      * rewrite (IH (S k)) by lia. replace (n - k)%nat with (S (n - S k)) by lia.
        rewrite Nat2Z.inj_succ, Z.pow_succ_r by lia. ring.
Qed.

Lemma map2_nth {A B C} (f : A -> B -> C) (da : A) (db : B) : forall (a : list A) (b : list B),
  map2 f a b = map (fun j => f (nth j a da) (nth j b db)) (seq 0 (Nat.min (length a) (length b))).
Proof.
  induction a as [|x a IH]; intros b; [reflexivity|]. destruct b as [|y b]; [reflexivity|].
  cbn [map2 length Nat.min seq map nth]. f_equal. rewrite <- seq_shift, map_map. apply IH.
Qed.

(* out[0] = one-sided; out[1:-1] = f[2:] - f[:-2] (over 2h); out[-1] = one-sided *)
Theorem np_gradient2_slices eo (l : list Z) :
  2 <= zlen l -> eo + 1 <= zlen l ->
  np_gradient2 eo l =
  Some ([lft2 eo (firstn (Z.to_nat (eo + 1)) l)]
        ++ map2 Z.sub (pyslice l 2 (zlen l)) (pyslice l 0 (zlen l - 2))
        ++ [rgt2 eo (lastn (eo + 1) l)]).
Proof.
  intros H2 Heo. unfold np_gradient2, np_gradient_gen. destruct (zlen l <? eo + 1) eqn:E; [lia|]. f_equal.
  assert (Hn : exists m, length l = S (S m)) by (exists (length l - 2)%nat; unfold zlen in H2; lia).
  destruct Hn as (m & Hm). rewrite Hm.
  replace (S (S m)) with (1 + (m + 1))%nat by lia. rewrite seq_app, seq_app. cbn [seq Nat.add]. rewrite !map_app. cbn [map app].
  f_equal. f_equal.
  - rewrite (map2_nth Z.sub 0 0). unfold pyslice.
    rewrite firstn_length, skipn_length, firstn_length, skipn_length. unfold zlen. rewrite Hm.
    replace (Nat.min (Nat.min (Z.to_nat (Z.of_nat (S (S m)) - 2)) (S (S m) - Z.to_nat 2))
                     (Nat.min (Z.to_nat (Z.of_nat (S (S m)) - 2 - 0)) (S (S m) - Z.to_nat 0))) with m by lia.
    rewrite (map_seq_shift _ 1). apply map_ext_in. intros j Hj. apply in_seq in Hj.
    unfold grad_at. rewrite Hm. cbn [Nat.add Nat.eqb].
    destruct (j =? m)%nat eqn:E1; [apply Nat.eqb_eq in E1; lia|].
    unfold mid2. rewrite !nth_firstn_lt by lia. rewrite !nth_skipn_add. cbn [Z.to_nat Nat.add Nat.sub].
    change (Pos.to_nat 2) with 2%nat. cbn [Nat.add]. rewrite ?Nat.sub_0_r. reflexivity.
  - unfold grad_at. rewrite Hm. replace (1 + m)%nat with (S m) by lia. cbn [Nat.eqb].
    rewrite Nat.eqb_refl. reflexivity.
Qed.
