From DA Require Import PyBase PyBaseFacts Rechunk.
Open Scope Z_scope.

Lemma chunksN_eqb_eq a b : chunksN_eqb a b = true <-> a = b.
Proof. apply zlist2_eqb_eq. Qed.

Lemma last_opt_snoc {A} (l : list A) x : last_opt (l ++ [x]) = Some x.
Proof. unfold last_opt. rewrite rev_app_distr. reflexivity. Qed.

Lemma last_opt_some {A} (l : list A) x : last_opt l = Some x -> exists l', l = l' ++ [x].
Proof.
  unfold last_opt. destruct (rev l) as [|y r] eqn:E; [discriminate|].
  intros H. injection H as ->. exists (rev r).
  rewrite <- (rev_involutive l), E. reflexivity.
Qed.

Lemma last_opt_none {A} (l : list A) : last_opt l = None -> l = [].
Proof.
  unfold last_opt. destruct (rev l) as [|y r] eqn:E; [|discriminate].
  intros _. rewrite <- (rev_involutive l), E. reflexivity.
Qed.

(* invariant for the while-loop of plan_rechunk: I holds of the current chunking
   and of what find_split_rechunk makes of it, P of the recorded steps *)
Lemma plan_loop_forall (I P : chunksN -> Prop) new lnum lden :
  (forall cur limit c0, I cur -> find_split_rechunk cur new limit = Some c0 -> I c0) ->
  (forall order c0 chunks hit, I c0 ->
      find_merge_rechunk order c0 new lnum lden = Some (chunks, hit) -> I chunks /\ P chunks) ->
  forall fuel orders current threshold gst fp steps r,
  I current -> Forall P steps ->
  plan_loop fuel orders current new lnum lden threshold gst fp steps = Some r -> Forall P r.
Proof.
  intros Hsplit Hmerge.
  induction fuel as [|fuel IH]; intros orders current threshold gst fp steps r Hc Hs H;
    cbn [plan_loop] in H; [discriminate|].
  destruct (_ <? gst).  (* exit: the estimated graph size is below the threshold *)
  { injection H as <-. apply Forall_rev. exact Hs. }
  destruct (if fp then Some current else _) as [c0|] eqn:Ec0; [|discriminate].
  assert (I c0) as Hc0 by (destruct fp; [injection Ec0 as <-; exact Hc|exact (Hsplit _ _ _ Hc Ec0)]).
  destruct orders as [|order orders']; [discriminate|].
  destruct (find_merge_rechunk order c0 new lnum lden) as [[chunks hit]|] eqn:Em; [|discriminate].
  destruct (Hmerge _ _ _ _ Hc0 Em) as [Hci Hcp].
  destruct (_ || _).  (* exit: chunks = current after the first pass, or chunks = new *)
  { injection H as <-. apply Forall_rev. exact Hs. }
  assert (Forall P (if chunksN_eqb chunks current then steps else chunks :: steps)) as Hs'.
  { destruct (chunksN_eqb chunks current); [exact Hs|constructor; assumption]. }
  destruct (negb hit).  (* exit: find_merge_rechunk did not reach the memory limit *)
  { injection H as <-. apply Forall_rev. exact Hs'. }
  exact (IH _ _ _ _ _ _ _ Hci Hs' H).
Qed.

Lemma bd_steps_forall (P : chunksN -> Prop) n : forall old new prev counts steps r rest,
  (forall inter cs cs',
      bd_intermediate old new cs = Some (inter, cs') ->
      largest_block_size inter <= Z.max (largest_block_size old) (largest_block_size new) ->
      P inter) ->
  Forall P steps ->
  bd_steps n old new prev counts steps = Some (r, rest) -> Forall P r.
Proof.
  induction n as [|n IH]; intros old new prev counts steps r rest HP Hs H; cbn [bd_steps] in H.
  - injection H as <- _. apply Forall_rev. exact Hs.
  - destruct (bd_intermediate old new counts) as [[inter counts']|] eqn:Ei; [|discriminate].
    destruct (largest_block_size inter >? _) eqn:El.
    + eapply IH; eauto.
    + destruct (chunksN_eqb inter prev).
      * eapply IH; eauto.
      * eapply IH; [exact HP| |exact H]. constructor; [|exact Hs].
        eapply HP; [exact Ei|lia].
Qed.

(* the shape of the result of bound_degree / bound_all: intermediates followed
   by the target *)
Lemma bound_degree_shape (P : chunksN -> Prop) old new dl oracle l rest :
  (forall inter cs cs',
      bd_intermediate old new cs = Some (inter, cs') ->
      largest_block_size inter <= Z.max (largest_block_size old) (largest_block_size new) ->
      P inter) ->
  bound_degree old new dl oracle = Some (l, rest) ->
  exists l', l = l' ++ [new] /\ Forall P l'.
Proof.
  intros HP H. unfold bound_degree in H.
  destruct (_ <=? _).
  - injection H as <- _. exists []. split; [reflexivity|constructor].
  - destruct oracle as [|nsteps oracle']; [discriminate|].
    destruct (bd_steps _ old new old oracle' []) as [[steps rest']|] eqn:Es; [|discriminate].
    pose proof (bd_steps_forall P _ _ _ _ _ _ _ _ HP (Forall_nil _) Es) as Hall.
    destruct (last_opt steps) as [x|] eqn:El.
    + destruct (chunksN_eqb x new) eqn:Ex.
      * injection H as <- _. apply chunksN_eqb_eq in Ex. subst x.
        apply last_opt_some in El. destruct El as [l' ->].
        exists l'. split; [reflexivity|].
        apply Forall_app in Hall. tauto.
      * injection H as <- _. exists steps. split; [reflexivity|exact Hall].
    + injection H as <- _. exists []. split; [reflexivity|constructor].
Qed.

(* invariant for bound_all: P holds of the end points and is kept by the capped
   intermediates *)
Lemma bound_all_forall (P : chunksN -> Prop) : forall steps prev dl oracle plan,
  (forall a b inter cs cs', P a -> P b ->
      bd_intermediate a b cs = Some (inter, cs') ->
      largest_block_size inter <= Z.max (largest_block_size a) (largest_block_size b) ->
      P inter) ->
  P prev -> Forall P steps ->
  bound_all prev steps dl oracle = Some plan -> Forall P plan.
Proof.
  induction steps as [|s t IH]; intros prev dl oracle plan HP Hprev Hs H; cbn [bound_all] in H.
  - injection H as <-. constructor.
  - inversion Hs as [|? ? Hs1 Hs2]; subst.
    destruct (bound_degree prev s dl oracle) as [[l oracle']|] eqn:Eb; [|discriminate].
    destruct (bound_all s t dl oracle') as [pl|] eqn:Ea; [|discriminate].
    cbn [option_map] in H. injection H as <-.
    apply (bound_degree_shape P) in Eb; [|intros; eapply (HP prev s); eauto].
    destruct Eb as (l' & -> & Hl').
    apply Forall_app. split.
    + apply Forall_app. split; [exact Hl'|]. constructor; [exact Hs1|constructor].
    + eapply IH; eauto.
Qed.

Lemma bound_all_last : forall steps prev dl oracle plan x,
  bound_all prev (steps ++ [x]) dl oracle = Some plan -> exists p', plan = p' ++ [x].
Proof.
  induction steps as [|s t IH]; intros prev dl oracle plan x H; cbn [bound_all app] in H.
  - destruct (bound_degree prev x dl oracle) as [[l oracle']|] eqn:Eb; [|discriminate].
    cbn [option_map] in H. injection H as <-.
    apply (bound_degree_shape (fun _ => True)) in Eb; [|auto].
    destruct Eb as (l' & -> & _). exists l'. rewrite app_nil_r. reflexivity.
  - destruct (bound_degree prev s dl oracle) as [[l oracle']|] eqn:Eb; [|discriminate].
    destruct (bound_all s (t ++ [x]) dl oracle') as [pl|] eqn:Ea; [|discriminate].
    cbn [option_map] in H. injection H as <-.
    apply IH in Ea. destruct Ea as [p' ->]. exists (l ++ p'). rewrite app_assoc. reflexivity.
Qed.

(* block_size_limit of plan_rechunk, max(bsl / itemsize, largest old, largest new), as the numerator over itemsize *)
Definition budget_num (old new : chunksN) (itemsize bsl : Z) : Z :=
  Z.max bsl (Z.max (largest_block_size old * itemsize) (largest_block_size new * itemsize)).

(* plan_rechunk: P holds of every step of the plan, which ends in new, when P holds of the end points and
   is kept by find_merge_rechunk (on chunkings satisfying I) and by the capped intermediates *)
Lemma plan_rechunk_forall (I P : chunksN -> Prop) orders oracle old new itemsize threshold bsl dl plan :
  (forall cur limit c0, I cur -> find_split_rechunk cur new limit = Some c0 -> I c0) ->
  (forall order c0 chunks hit, I c0 ->
      find_merge_rechunk order c0 new (budget_num old new itemsize bsl) itemsize = Some (chunks, hit) ->
      I chunks /\ P chunks) ->
  (forall a b inter cs cs', P a -> P b ->
      bd_intermediate a b cs = Some (inter, cs') ->
      largest_block_size inter <= Z.max (largest_block_size a) (largest_block_size b) ->
      P inter) ->
  I old -> P old -> P new ->
  plan_rechunk orders oracle old new itemsize threshold bsl dl = Some plan ->
  Forall P plan /\ exists p', plan = p' ++ [new].
Proof.
  intros Hsplit Hmerge Hcap HI Hold Hnew H. unfold plan_rechunk in H. fold (budget_num old new itemsize bsl) in H.
  match type of H with match ?s with _ => _ end = _ => destruct s as [st|] eqn:Est end; [|discriminate].
  assert (exists s, st = s ++ [new] /\ Forall P s) as (s & -> & Hs).
  { destruct (Nat.leb (length new) 1).
    - injection Est as <-. exists []. split; [reflexivity|constructor].
    - destruct (plan_loop _ _ _ _ _ _ _ _ _ _) as [s|] eqn:Ep; [|discriminate].
      cbn [option_map] in Est. injection Est as <-. exists s. split; [reflexivity|].
      exact (plan_loop_forall I P _ _ _ Hsplit Hmerge _ _ _ _ _ _ _ _ HI (Forall_nil _) Ep). }
  split; [|exact (bound_all_last _ _ _ _ _ _ H)].
  eapply (bound_all_forall P); [exact Hcap|exact Hold| |exact H].
  apply Forall_app. split; [exact Hs|]. constructor; [exact Hnew|constructor].
Qed.
