(* Soundness of the second group of rewrite rules of ExprRules.v:
   R10 slice through Concatenate, R11 slice through Stack, R12 slice of a constant array,
   R13 Elemwise._lower (chunk unification), R14 Rechunk._lower with the pushdown through Concatenate
   ([rechunk_through_concat_sound]), R15 slice through BroadcastTo, R16 rechunk through ExpandDims / Transpose.
   R10 and R11 slice along one axis of an index made of slices only: index, shape and result index are cut at that
   axis (pre ++ x :: suf), and slicing distributes over the cut.
   At the end, for C08, the [_mu] theorems of the rules above that are in [Rewrite.simp_rules], of the two rechunk
   pushdowns proved sound in ExprRulesFacts.v, and monotonicity of [mu] in a child of Concatenate / Stack. *)
From DA Require Import PyBase PyBaseFacts Slicing NormalizeFacts FuseFacts NdArray NdArrayFacts ExprRules ExprRulesFacts.
Open Scope Z_scope.

Lemma nth_mid {A} k (P : list A) x Q d : length P = k -> nth k (P ++ x :: Q) d = x.
Proof. intros <-. apply nth_middle. Qed.

Lemma set_idx_mid k P x Q v : length P = k -> set_idx k v (P ++ x :: Q) = P ++ v :: Q.
Proof. intros <-. induction P as [|y P IH]; cbn [length app set_idx]; [reflexivity | f_equal; exact IH]. Qed.

Lemma split_nth {A} (l : list A) d k : (k < length l)%nat -> l = firstn k l ++ nth k l d :: skipn (S k) l.
Proof.
  revert k. induction l as [|x l IH]; intros [|k] H; cbn [length] in H; try lia; cbn [firstn nth skipn app]; [reflexivity|].
  f_equal. apply IH. lia.
Qed.

(* a list that agrees with pre ++ x :: suf off position k *)
Lemma set_nth_eq_mid k pre x suf l : length pre = k ->
  set_nth k 0 l = set_nth k 0 (pre ++ x :: suf) -> l = pre ++ nth k l 0 :: suf.
Proof.
  intros Hk H. rewrite <- (set_nth_same k l 0) at 1.
  rewrite <- (set_nth_set_nth k _ 0 l), H, !(set_nth_mid k pre _ suf _ Hk). reflexivity.
Qed.

(* an index inside a shape that is cut at an axis is cut in the same way *)
Lemma in_bounds_mid out P n Q : in_bounds out (P ++ n :: Q) ->
  exists opre j osuf, out = opre ++ j :: osuf /\ in_bounds opre P /\ 0 <= j < n /\ in_bounds osuf Q.
Proof.
  intros H. destruct (in_bounds_cut _ _ _ H) as (opre & [|j osuf] & -> & H1 & H2); cbn [in_bounds] in H2; [tauto|].
  exists opre, j, osuf. tauto.
Qed.

Lemma all_slices_basic ix : forallb is_sliceb ix = true -> basicb ix = true.
Proof.
  unfold basicb. induction ix as [|i ix IH]; intros H; [reflexivity|]. cbn [forallb] in *.
  apply andb_true_iff in H. destruct H as [Hi H]. destruct i; try discriminate. cbn [andb]. apply IH. exact H.
Qed.

Lemma all_slices_app a b : forallb is_sliceb (a ++ b) = true -> forallb is_sliceb a = true /\ forallb is_sliceb b = true.
Proof. rewrite forallb_app. apply andb_true_iff. Qed.

Lemma all_slices_cut ix k s : forallb is_sliceb ix = true -> (k < length ix)%nat -> nth k ix INone = ISlice s ->
  exists ipre isuf, ix = ipre ++ ISlice s :: isuf /\ length ipre = k /\ forallb is_sliceb ipre = true.
Proof.
  intros Hsl Hk Hs. exists (firstn k ix), (skipn (S k) ix).
  assert (ix = firstn k ix ++ ISlice s :: skipn (S k) ix) as Hix by (rewrite <- Hs; apply split_nth; exact Hk).
  rewrite Hix in Hsl. apply all_slices_app in Hsl.
  repeat split; [exact Hix | rewrite firstn_length; lia | exact (proj1 Hsl)].
Qed.

Lemma unit_slice_len s n a b : indices s n = (a, b, 1) -> slice_len s n = Z.max 0 (b - a).
Proof. intros H. unfold slice_len. rewrite H, range_len_unit. lia. Qed.

Lemma unit_slice_nth s n a b j : indices s n = (a, b, 1) -> 0 <= j < b - a -> nthZ (sel s n) j = a + j.
Proof.
  intros H Hj. unfold nthZ, sel. rewrite H, zrange_nth by (rewrite range_len_unit, Z2Nat.id; lia).
  rewrite Z2Nat.id by lia. lia.
Qed.

(* slicing distributes over the cut: [slice_shape_app], [slice_src_app], [slice_src_length] of NdArrayFacts for a
   front part made of slices only *)
Section Slices.
  Variables (ipre : list pidx) (spre : list Z).
  Hypothesis Hlp : length ipre = length spre.
  Hypothesis Hsp : forallb is_sliceb ipre = true.

  Lemma slices_shape_app isuf ssuf : slice_shape (ipre ++ isuf) (spre ++ ssuf) = slice_shape ipre spre ++ slice_shape isuf ssuf.
  Proof. apply slice_shape_app; [apply all_slices_basic; exact Hsp | exact Hlp]. Qed.

  Lemma slices_shape_length : length (slice_shape ipre spre) = length spre.
  Proof. rewrite slice_shape_basic_length, (all_slices_nslices ipre Hsp) by (apply all_slices_basic; exact Hsp). lia. Qed.

  Lemma slices_src_app isuf ssuf opre osuf : length opre = length spre ->
    slice_src (ipre ++ isuf) (spre ++ ssuf) (opre ++ osuf) = slice_src ipre spre opre ++ slice_src isuf ssuf osuf.
  Proof.
    intros Ho. rewrite slice_src_app by (try apply all_slices_basic; assumption).
    rewrite (all_slices_nslices ipre Hsp), Hlp, <- Ho, firstn_app_l, skipn_app_l. reflexivity.
  Qed.

  Lemma slices_src_length opre : length opre = length spre -> length (slice_src ipre spre opre) = length spre.
  Proof.
    intros Ho. rewrite slice_src_length by (apply all_slices_basic; exact Hsp).
    rewrite (all_slices_nslices ipre Hsp). lia.
  Qed.

  Lemma slices_shape_mid s n a b isuf ssuf : indices s n = (a, b, 1) ->
    slice_shape (ipre ++ ISlice s :: isuf) (spre ++ n :: ssuf) =
    slice_shape ipre spre ++ Z.max 0 (b - a) :: slice_shape isuf ssuf.
  Proof. intros H. rewrite slices_shape_app. cbn [slice_shape hd tl]. rewrite (unit_slice_len s n a b H). reflexivity. Qed.

  Lemma slices_src_mid s n a b isuf ssuf opre j osuf :
    indices s n = (a, b, 1) -> length opre = length spre -> 0 <= j < b - a ->
    slice_src (ipre ++ ISlice s :: isuf) (spre ++ n :: ssuf) (opre ++ j :: osuf) =
    slice_src ipre spre opre ++ (a + j) :: slice_src isuf ssuf osuf.
  Proof.
    intros H Ho Hj. rewrite slices_src_app by exact Ho. cbn [slice_src hd tl].
    rewrite (unit_slice_nth s n a b j H Hj). reflexivity.
  Qed.
End Slices.

Section ConcatSlice.
  Variable V : Type.
  Variable axis : nat.

  Definition naxis (a : arr V) : Z := nth axis (shape a) 0.
  Definition axsum (l : list (arr V)) : Z := zsum (map naxis l).

  Lemma axsum_nil : axsum [] = 0.
  Proof. reflexivity. Qed.
  Lemma axsum_cons a l : axsum (a :: l) = naxis a + axsum l.
  Proof. reflexivity. Qed.

  (* the arrays that can be concatenated along [axis]: one shape off that axis *)
  Definition ashape (spre ssuf : list Z) (b : arr V) : Prop := shape b = spre ++ naxis b :: ssuf.

  Lemma aconcat_shape spre ssuf (a : arr V) rest : length spre = axis -> ashape spre ssuf a ->
    shape (aconcat axis a rest) = spre ++ axsum (a :: rest) :: ssuf.
  Proof.
    intros Hax Ha. cbn [aconcat shape]. unfold concat_shape, axsum. cbn [map]. rewrite map_map.
    fold naxis. rewrite Ha at 2. apply set_nth_mid. exact Hax.
  Qed.

  (* position j along the axis of the concatenation of [l], with the other coordinates P and Q:
     [concat_get] without a first array, [None] past the end *)
  Fixpoint cget (l : list (arr V)) (P : list Z) (j : Z) (Q : list Z) : option V :=
    match l with
    | [] => None
    | a :: t => if j <? naxis a then Some (get a (P ++ j :: Q)) else cget t P (j - naxis a) Q
    end.

  Lemma cget_cons a t P j Q :
    cget (a :: t) P j Q = if j <? naxis a then Some (get a (P ++ j :: Q)) else cget t P (j - naxis a) Q.
  Proof. reflexivity. Qed.

  Lemma concat_get_cget P Q : length P = axis -> forall rest a j, j < axsum (a :: rest) ->
    cget (a :: rest) P j Q = Some (concat_get axis a rest (P ++ j :: Q)).
  Proof.
    intros HP. induction rest as [|b r IH]; intros a j Hj; rewrite axsum_cons in Hj.
    - rewrite axsum_nil in Hj. cbn [cget concat_get]. destruct (j <? naxis a) eqn:E; [reflexivity | lia].
    - rewrite cget_cons. cbn [concat_get]. rewrite (nth_mid axis P j Q 0 HP), (set_nth_mid axis P j Q _ HP). fold (naxis a).
      destruct (j <? naxis a) eqn:E; [reflexivity|]. apply IH. lia.
  Qed.

  Lemma cget_congr spre ssuf P Q l l' : Forall2 aeq l l' -> Forall (ashape spre ssuf) l ->
    in_bounds P spre -> in_bounds Q ssuf -> forall j, 0 <= j -> cget l P j Q = cget l' P j Q.
  Proof.
    intros HF Hsh HP HQ. induction HF as [|a a' l l' [Hs Hg] _ IH]; intros j Hj; [reflexivity|].
    inversion Hsh as [|a0 l0 Ha Hl]; subst. cbn [cget].
    replace (naxis a') with (naxis a) by (unfold naxis; rewrite Hs; reflexivity).
    destruct (j <? naxis a) eqn:E; [|apply IH; [exact Hl | lia]].
    rewrite Hg; [reflexivity|]. rewrite Ha. apply in_bounds_app; [exact HP|]. cbn [in_bounds]. split; [lia | exact HQ].
  Qed.

  Lemma axsum_aeq l l' : Forall2 aeq l l' -> axsum l' = axsum l.
  Proof.
    intros HF. induction HF as [|a a' l l' [Hs _] _ IH]; [reflexivity|].
    rewrite !axsum_cons, IH. unfold naxis. rewrite Hs. reflexivity.
  Qed.

  Lemma aconcat_congr spre ssuf (a a' : arr V) rest rest' : length spre = axis ->
    Forall (ashape spre ssuf) (a :: rest) -> aeq a a' -> Forall2 aeq rest rest' ->
    aeq (aconcat axis a rest) (aconcat axis a' rest').
  Proof.
    intros Hax Hsh Ha Hr. split.
    - cbn [aconcat shape]. rewrite (proj1 Ha), (Forall2_aeq_shapes _ _ Hr). reflexivity.
    - intros out Ho. rewrite (aconcat_shape spre ssuf a rest Hax (Forall_inv Hsh)) in Ho.
      destruct (in_bounds_mid _ _ _ _ Ho) as (P & j & Q & -> & HP & Hj & HQ).
      pose proof (in_bounds_length _ _ HP) as HlP. rewrite Hax in HlP.
      pose proof (Forall2_cons _ _ Ha Hr) as HF.
      pose proof (cget_congr spre ssuf P Q _ _ HF Hsh HP HQ j (proj1 Hj)) as HG.
      rewrite !concat_get_cget in HG by (rewrite ?(axsum_aeq _ _ HF); lia || exact HlP).
      injection HG as HG. exact HG.
  Qed.

  Lemma aconcat_single (a : arr V) : aeq (aconcat axis a (@nil (arr V))) a.
  Proof.
    split; cbn [aconcat shape get map concat_get]; [|reflexivity].
    unfold concat_shape. cbn [map zsum]. rewrite Z.add_0_r. apply set_nth_same.
  Qed.

  (* the index, the shape of the concatenation and the result index, cut at the axis *)
  Variables (ipre isuf : list pidx) (spre ssuf : list Z).
  Hypothesis Hlp : length ipre = length spre.
  Hypothesis Hsp : forallb is_sliceb ipre = true.
  Hypothesis Hax : length spre = axis.

  (* the pieces, in coordinates relative to the first array of the list *)
  Fixpoint apieces (start stop : Z) (l : list (arr V)) : list (arr V) :=
    match l with
    | [] => []
    | a :: t =>
        let n := naxis a in
        (if Z.min stop n >? Z.max start 0 then [aslice (ipre ++ range_slice (Z.max start 0) (Z.min stop n) :: isuf) a] else [])
        ++ apieces (start - n) (stop - n) t
    end.

  Notation A := (slice_shape ipre spre).
  Notation B := (slice_shape isuf ssuf).

  Lemma piece_shape b lo hi : ashape spre ssuf b -> 0 <= lo <= hi -> hi <= naxis b ->
    shape (aslice (ipre ++ range_slice lo hi :: isuf) b) = A ++ (hi - lo) :: B.
  Proof.
    intros Hb Hlo Hhi. cbn [aslice shape]. rewrite Hb. unfold range_slice.
    rewrite (slices_shape_mid ipre spre Hlp Hsp _ _ lo hi) by (apply indices_inbounds; lia). do 2 f_equal. lia.
  Qed.

  Lemma piece_get b lo hi opre j osuf : ashape spre ssuf b -> length opre = length spre ->
    0 <= lo -> hi <= naxis b -> 0 <= j < hi - lo ->
    get (aslice (ipre ++ range_slice lo hi :: isuf) b) (opre ++ j :: osuf) =
    get b (slice_src ipre spre opre ++ (lo + j) :: slice_src isuf ssuf osuf).
  Proof.
    intros Hb Ho Hlo Hhi Hj. cbn [aslice get]. rewrite Hb. unfold range_slice.
    apply f_equal, (slices_src_mid ipre spre Hlp Hsp _ _ lo hi); [apply indices_inbounds; lia | exact Ho | exact Hj].
  Qed.

  Lemma piece_naxis b lo hi : ashape spre ssuf b -> 0 <= lo <= hi -> hi <= naxis b ->
    naxis (aslice (ipre ++ range_slice lo hi :: isuf) b) = hi - lo.
  Proof.
    intros Hb Hlo Hhi. unfold naxis at 1. rewrite (piece_shape b lo hi Hb Hlo Hhi).
    apply nth_mid. rewrite (slices_shape_length ipre spre Hlp Hsp). exact Hax.
  Qed.

  Definition okarr (b : arr V) : Prop := ashape spre ssuf b /\ 0 <= naxis b.

  Lemma okarr_nonneg l : Forall okarr l -> 0 <= axsum l.
  Proof. intros H. apply zsum_map_nonneg. intros b Hb. exact (proj2 (proj1 (Forall_forall _ _) H b Hb)). Qed.

  (* every piece has the result's shape off the axis; together the pieces are as long as what [start, stop) covers *)
  Lemma apieces_shapes l : forall start stop, Forall okarr l ->
    Forall (ashape A B) (apieces start stop l) /\
    axsum (apieces start stop l) = Z.max 0 (Z.min stop (axsum l) - Z.max start 0).
  Proof.
    induction l as [|a l IH]; intros start stop Hok; cbn [apieces]; [split; [constructor | rewrite axsum_nil; lia]|].
    inversion Hok as [|a0 l0 [Hsh Hn] Hl]; subst. pose proof (okarr_nonneg l Hl) as HT.
    destruct (IH (start - naxis a) (stop - naxis a) Hl) as [IH1 IH2]. rewrite axsum_cons.
    destruct (Z.min stop (naxis a) >? Z.max start 0) eqn:E; cbn [app]; [|split; [exact IH1 | lia]].
    pose proof (piece_naxis a (Z.max start 0) (Z.min stop (naxis a)) Hsh ltac:(lia) ltac:(lia)) as Hnp.
    split.
    - constructor; [unfold ashape; rewrite Hnp; apply piece_shape; (assumption || lia) | exact IH1].
    - rewrite axsum_cons, IH2, Hnp. lia.
  Qed.

  (* reading the concatenated pieces at j is reading the concatenation at start + j *)
  Lemma apieces_cget opre osuf : length opre = length spre -> forall l start stop j,
    Forall okarr l -> 0 <= j < Z.min stop (axsum l) - Z.max start 0 ->
    cget (apieces start stop l) opre j osuf =
    cget l (slice_src ipre spre opre) (Z.max start 0 + j) (slice_src isuf ssuf osuf).
  Proof.
    intros Ho. induction l as [|a l IH]; intros start stop j Hok Hj; [rewrite axsum_nil in Hj; lia|].
    rewrite axsum_cons in Hj. cbn [apieces].
    inversion Hok as [|a0 l0 [Hsh Hn] Hl]; subst. pose proof (okarr_nonneg l Hl) as HT.
    specialize (IH (start - naxis a) (stop - naxis a)).
    set (n := naxis a) in *. set (os := Z.max start 0) in *. set (oe := Z.min stop n) in *.
    cbn [cget]. fold n. destruct (oe >? os) eqn:E; cbn [app cget].
    - rewrite (piece_naxis a os oe Hsh) by lia.
      destruct (j <? oe - os) eqn:E1.
      + replace (os + j <? n) with true by lia. f_equal. apply piece_get; (assumption || lia).
      + replace (os + j <? n) with false by lia. rewrite IH by (assumption || lia). f_equal. lia.
    - replace (os + j <? n) with false by lia. rewrite IH by (assumption || lia). f_equal. lia.
  Qed.

  (* the slice of a concatenation is the concatenation of the sliced pieces *)
  Theorem aslice_aconcat a rest s start stop p ps :
    Forall okarr (a :: rest) -> indices s (axsum (a :: rest)) = (start, stop, 1) ->
    apieces start stop (a :: rest) = p :: ps ->
    aeq (aslice (ipre ++ ISlice s :: isuf) (aconcat axis a rest)) (aconcat axis p ps) /\ Forall (ashape A B) (p :: ps).
  Proof.
    intros Hok Hind Hp. pose proof (okarr_nonneg _ Hok) as HT. set (T := axsum (a :: rest)) in *.
    destruct (indices_bounds s T start stop 1 HT Hind) as (_ & Hpos & _). specialize (Hpos ltac:(lia)).
    destruct (apieces_shapes (a :: rest) start stop Hok) as [Hsh Hsum]. rewrite Hp in Hsh, Hsum. fold T in Hsum.
    pose proof (slices_shape_length ipre spre Hlp Hsp) as HlA.
    pose proof (aconcat_shape spre ssuf a rest Hax (proj1 (Forall_inv Hok))) as HshC. fold T in HshC.
    pose proof (aconcat_shape A B p ps ltac:(lia) (Forall_inv Hsh)) as HshP. rewrite Hsum in HshP.
    split; [|exact Hsh]. split.
    - cbn [aslice shape]. rewrite HshC, HshP, (slices_shape_mid ipre spre Hlp Hsp s T start stop isuf ssuf Hind).
      do 2 f_equal. lia.
    - cbn [aslice shape]. rewrite HshC, (slices_shape_mid ipre spre Hlp Hsp s T start stop isuf ssuf Hind). intros out Ho.
      destruct (in_bounds_mid _ _ _ _ Ho) as (opre & j & osuf & -> & Ho1 & Hj & _).
      pose proof (in_bounds_length _ _ Ho1) as Hlo. rewrite HlA in Hlo.
      cbn [aslice aconcat get]. change (concat_shape axis (shape a) (map shape rest)) with (shape (aconcat axis a rest)).
      rewrite HshC, (slices_src_mid ipre spre Hlp Hsp s T start stop isuf ssuf opre j osuf Hind Hlo) by lia.
      pose proof (apieces_cget opre osuf Hlo (a :: rest) start stop j Hok) as HG.
      rewrite Hp in HG. fold T in HG. specialize (HG ltac:(lia)).
      rewrite !concat_get_cget in HG by (rewrite ?Hsum; fold T; lia || (rewrite slices_src_length; lia || assumption)).
      injection HG as HG. rewrite HG. do 3 f_equal. lia.
  Qed.
End ConcatSlice.

Section StackSlice.
  Variable V : Type.

  Lemma astack_shape (a : arr V) rest k spre ssuf : length spre = k -> shape a = spre ++ ssuf ->
    shape (astack k a rest) = spre ++ Z.of_nat (S (length rest)) :: ssuf.
  Proof. intros Hk Ha. cbn [astack shape]. rewrite Ha. apply insert_at_mid. exact Hk. Qed.

  Lemma astack_get_mid (a : arr V) rest k P v Q : length P = k ->
    get (astack k a rest) (P ++ v :: Q) = get (nth (Z.to_nat v) (a :: rest) a) (P ++ Q).
  Proof. intros HP. cbn [astack get]. rewrite (nth_mid k P v Q 0 HP), (remove_at_mid k P Q v HP). reflexivity. Qed.

  Lemma astack_congr (a a' : arr V) rest rest' spre ssuf :
    Forall (fun b => shape b = spre ++ ssuf) (a :: rest) -> aeq a a' -> Forall2 aeq rest rest' ->
    aeq (astack (length spre) a rest) (astack (length spre) a' rest').
  Proof.
    intros Hsh Ha Hr. split.
    - cbn [astack shape]. rewrite (proj1 Ha), <- (map_length shape rest), (Forall2_aeq_shapes _ _ Hr), map_length. reflexivity.
    - intros out Ho. rewrite (astack_shape a rest _ spre ssuf eq_refl (Forall_inv Hsh)) in Ho.
      destruct (in_bounds_mid _ _ _ _ Ho) as (P & j & Q & -> & HP & Hj & HQ).
      pose proof (in_bounds_length _ _ HP) as HlP. rewrite !(astack_get_mid _ _ _ P j Q HlP).
      assert (Z.to_nat j < length (a :: rest))%nat as Hk by (cbn [length]; lia).
      apply (nth_aeq _ _ (Forall2_cons _ _ Ha Hr) _ a a' Hk).
      rewrite Forall_forall in Hsh. rewrite (Hsh _ (nth_In _ a Hk)). apply in_bounds_app; assumption.
  Qed.

  (* the arrays [start:stop], each sliced on the other axes *)
  Theorem aslice_astack (a : arr V) rest ipre s isuf spre ssuf start stop p ps :
    Forall (fun b => shape b = spre ++ ssuf) (a :: rest) ->
    length ipre = length spre -> forallb is_sliceb ipre = true ->
    indices s (Z.of_nat (S (length rest))) = (start, stop, 1) ->
    map (aslice (ipre ++ isuf)) (skipn (Z.to_nat start) (firstn (Z.to_nat stop) (a :: rest))) = p :: ps ->
    aeq (aslice (ipre ++ ISlice s :: isuf) (astack (length spre) a rest)) (astack (length spre) p ps) /\
    Forall (fun q => shape q = slice_shape ipre spre ++ slice_shape isuf ssuf) (p :: ps).
  Proof.
    intros Hsh Hlp Hsp Hind Hmap.
    set (N := Z.of_nat (S (length rest))) in *. set (l := a :: rest) in *.
    destruct (indices_bounds s N start stop 1 ltac:(lia) Hind) as (_ & Hpos & _). specialize (Hpos ltac:(lia)).
    set (sl := skipn (Z.to_nat start) (firstn (Z.to_nat stop) l)) in *.
    assert (length sl = (Z.to_nat stop - Z.to_nat start)%nat) as Hlsl.
    { unfold sl. rewrite skipn_length, firstn_length. unfold l. cbn [length]. lia. }
    assert (length sl = S (length ps)) as Hlsl2 by (rewrite <- (map_length (aslice (ipre ++ isuf)) sl), Hmap; reflexivity).
    assert (Forall (fun q => shape q = slice_shape ipre spre ++ slice_shape isuf ssuf) (p :: ps)) as Hshp.
    { rewrite <- Hmap. apply Forall_map. eapply Forall_impl; [|exact (Forall_skipn _ _ _ (Forall_firstn _ _ _ Hsh))].
      intros b Hb. cbn [aslice shape]. rewrite Hb. apply slices_shape_app; assumption. }
    split; [|exact Hshp].
    pose proof (slices_shape_length ipre spre Hlp Hsp) as HlA.
    pose proof (astack_shape a rest _ spre ssuf eq_refl (Forall_inv Hsh)) as HshL. fold N in HshL.
    pose proof (astack_shape p ps _ _ _ HlA (Forall_inv Hshp)) as HshR.
    split.
    - cbn [aslice shape]. rewrite HshL, HshR, (slices_shape_mid ipre spre Hlp Hsp s N start stop isuf ssuf Hind).
      do 2 f_equal. lia.
    - cbn [aslice shape get]. rewrite HshL, (slices_shape_mid ipre spre Hlp Hsp s N start stop isuf ssuf Hind).
      intros out Ho. destruct (in_bounds_mid _ _ _ _ Ho) as (opre & j & osuf & -> & Ho1 & Hj & _).
      pose proof (in_bounds_length _ _ Ho1) as Hlo. rewrite HlA in Hlo.
      rewrite (slices_src_mid ipre spre Hlp Hsp s N start stop isuf ssuf opre j osuf Hind Hlo) by lia.
      rewrite (astack_get_mid a rest) by (apply slices_src_length; assumption).
      rewrite (astack_get_mid p ps _ opre j osuf Hlo), <- Hmap.
      set (f := aslice (ipre ++ isuf)). rewrite (nth_indep (map f sl) p (f a)) by (rewrite map_length; lia).
      rewrite (map_nth f). unfold sl. rewrite nth_skipn_add, nth_firstn_lt by lia.
      replace (Z.to_nat start + Z.to_nat j)%nat with (Z.to_nat (start + j)) by lia.
      unfold f. cbn [aslice get]. rewrite Forall_forall in Hsh. rewrite (Hsh (nth (Z.to_nat (start + j)) l a)).
      + rewrite (slices_src_app ipre spre Hlp Hsp) by exact Hlo. reflexivity.
      + apply nth_In. unfold l. cbn [length]. lia.
  Qed.
End StackSlice.

Definition bt_index (ix : list pidx) (sa : list Z) : list pidx := zip2 bt_axis (lastn (length sa) ix) sa.

Lemma zip2_length {A B C} (f : A -> B -> C) a : forall b, length a = length b -> length (zip2 f a b) = length b.
Proof. induction a as [|x a IH]; intros [|y b] H; cbn [length] in H; try discriminate; [reflexivity|]. cbn [zip2 length]. f_equal. apply IH. lia. Qed.

Lemma zip3_zip2 {A B C D} (g : A -> B -> D) a : forall b (c : list C), length b = length c ->
  zip3 (fun x y _ => g x y) a b c = zip2 g a b.
Proof.
  induction a as [|x a IH]; intros [|y b] [|z c] H; cbn [length] in H; try discriminate; try reflexivity.
  cbn [zip3 zip2]. f_equal. apply IH. lia.
Qed.

Lemma bt_axis_bslices s n m : n = 1 \/ n = m -> step_of s <> 0 -> bslices [ISlice s] [m] [bt_axis (ISlice s) n] [n].
Proof.
  intros Hnm Hk. unfold bt_axis. destruct (n =? 1) eqn:E.
  - assert (n = 1) as -> by lia. apply bslices_colon.
  - assert (n = m) as -> by lia. apply bslices_same, Hk.
Qed.

Lemma bt_bcast ix sa o :
  bcast_into sa o -> idx_okb ix o = true -> forallb is_sliceb ix = true ->
  bcast_into (slice_shape (bt_index ix sa) sa) (slice_shape ix o) /\ length (bt_index ix sa) = length sa /\
  forall out, in_bounds out (slice_shape ix o) ->
    bidx sa (slice_src ix o out) = slice_src (bt_index ix sa) sa (bidx (slice_shape (bt_index ix sa) sa) out).
Proof.
  intros (pre & suf & -> & Hc) Hok Hsl.
  destruct (idx_okb_split ix pre suf Hok) as (ipre & isuf & -> & Hokp & Hoks).
  pose proof (compat_length _ _ Hc) as Hls. pose proof (idx_okb_length _ _ Hoks) as Hli.
  destruct (all_slices_app _ _ Hsl) as [_ Hsls]. rewrite forallb_forall in Hsls.
  unfold bt_index. rewrite lastn_app by lia.
  assert (bslices isuf suf (zip2 bt_axis isuf sa) sa) as Hb.
  { rewrite <- (zip3_zip2 bt_axis isuf sa suf Hls). apply bslices_zip3; [|exact Hc | exact Hoks].
    intros i n m Hin Hnm Hi. specialize (Hsls i Hin). destruct i; try discriminate. apply bt_axis_bslices; [exact Hnm|]. cbn [idx_okb] in Hi. lia. }
  destruct (bslices_bidx ipre pre isuf suf _ sa Hokp Hoks Hc Hb) as [H1 H2].
  split; [exact H1|]. split; [apply zip2_length; lia | exact H2].
Qed.

Lemma unit_ranges_shape ix : forall oshape ranges,
  omap (fun p => unit_range (fst p) (snd p)) (combine ix oshape) = Some ranges -> length ix = length oshape ->
  map (fun r => Z.max 0 (snd r - fst r)) ranges = slice_shape ix oshape.
Proof.
  induction ix as [|i ix IH]; intros [|n oshape] ranges H Hl; cbn [length] in Hl; try discriminate; cbn [combine omap] in H.
  - injection H as <-. reflexivity.
  - cbn [fst snd] in H. destruct (unit_range i n) as [[a b]|] eqn:Eu; [|discriminate].
    destruct (omap _ (combine ix oshape)) as [r|] eqn:Er; [|discriminate]. injection H as <-.
    cbn [map fst snd]. rewrite (IH oshape r Er) by lia.
    destruct i as [z|s|]; cbn [unit_range] in Eu; try discriminate.
    destruct (indices s n) as [[a' b'] k] eqn:Hi. destruct (k =? 1) eqn:Ek; [|discriminate]. injection Eu as <- <-.
    assert (k = 1) as -> by lia. cbn [slice_shape hd tl]. rewrite (unit_slice_len s n a' b' Hi). reflexivity.
Qed.

Lemma echunks_concat a axis rest :
  echunks (EConcat a axis rest) =
  match echunks a, omap echunks rest with
  | Some c, Some cs => Some (set_at axis (concat (map (fun d => nth axis d []) (c :: cs))) c)
  | _, _ => None
  end.
Proof.
  cbn [echunks].
  assert (forall l, (fix go (l : list expr) : option (list (list (list Z))) :=
             match l with
             | [] => Some []
             | x :: t => match echunks x, go t with Some y, Some r => Some (y :: r) | _, _ => None end
             end) l = omap echunks l) as Hgo.
  { induction l as [|x l IH]; [reflexivity|]. cbn [omap]. rewrite <- IH. reflexivity. }
  rewrite Hgo. reflexivity.
Qed.

Lemma split_parts_length sizes : forall tgt per, split_parts sizes tgt = Some per -> length per = length sizes.
Proof.
  induction sizes as [|sz sizes IH]; intros tgt per H; cbn [split_parts] in H.
  - destruct tgt; [injection H as <-; reflexivity | discriminate].
  - destruct (split_part sz tgt) as [p r]. destruct (split_parts sizes r) as [q|] eqn:E; [|discriminate].
    injection H as <-. cbn [length]. f_equal. apply (IH r). exact E.
Qed.

Lemma set_at_overflow {A} k (v : A) l : (length l <= k)%nat -> set_at k v l = l.
Proof. revert k. induction l as [|x l IH]; intros [|k] H; cbn [length] in H; cbn [set_at]; try reflexivity; try lia. f_equal. apply IH. lia. Qed.

Lemma set_at_set_at {A} k (v w : A) l : set_at k v (set_at k w l) = set_at k v l.
Proof. revert k. induction l as [|x l IH]; intros [|k]; cbn [set_at]; try reflexivity. f_equal. apply IH. Qed.

Lemma set_at_same {A} k (d : A) l : set_at k (nth k l d) l = l.
Proof. revert k. induction l as [|x l IH]; intros [|k]; cbn [set_at nth]; try reflexivity. f_equal. apply IH. Qed.

Lemma nth_set_at {A} k (v d : A) l : (k < length l)%nat -> nth k (set_at k v l) d = v.
Proof. revert k. induction l as [|x l IH]; intros [|k] H; cbn [length] in H; cbn [set_at nth]; try lia; [reflexivity | apply IH; lia]. Qed.

(* parts that take the target off the axis and share out its axis entry advertise the target when concatenated *)
Lemma concat_specs_chunks axis target (p0 : list Z) per : concat (p0 :: per) = nth axis target [] ->
  set_at axis (concat (map (fun d => nth axis d []) (map (fun p => set_at axis p target) (p0 :: per))))
         (set_at axis p0 target) = target.
Proof.
  intros Hc. destruct (Nat.lt_ge_cases axis (length target)) as [Hlt|Hge].
  - rewrite set_at_set_at, map_map, (map_ext _ (fun p => p)) by (intros p; apply nth_set_at; exact Hlt).
    rewrite map_id, Hc. apply set_at_same.
  - rewrite (set_at_overflow axis p0 target) by lia. apply set_at_overflow. exact Hge.
Qed.

Section Sound2.
  Variable V : Type.
  Variable leafv : Z -> list Z -> V.
  Variable constv : Z -> V.
  Variable fop : Z -> list V -> V.
  Variable inj : Z -> V.
  Notation D := (den V leafv constv fop inj).
  Notation dshape := (den_shape V leafv constv fop inj).

  Lemma naxis_den axis x : naxis V axis (D x) = nth axis (eshape x) 0.
  Proof. unfold naxis. rewrite dshape. reflexivity. Qed.

  Lemma concat_pieces_sound axis ipre i isuf : length ipre = axis -> forall arrays start stop cum ys,
    concat_pieces axis (ipre ++ i :: isuf) start stop cum arrays = Some ys ->
    Forall (fun a => wfb a = true /\ length (ipre ++ i :: isuf) = endim a) arrays ->
    Forall2 aeq (map D ys) (apieces V axis ipre isuf (start - cum) (stop - cum) (map D arrays)).
  Proof.
    (* concat_pieces counts positions from the start of the concatenation, apieces from the start of the current array *)
    intros Hax. induction arrays as [|arr t IH]; intros start stop cum ys H Hw; cbn [concat_pieces] in H.
    - injection H as <-. constructor.
    - inversion Hw as [|a0 l0 [Hwa Hla] Hwt]; subst a0 l0. cbn [map apieces].
      set (n := nth axis (eshape arr) 0) in *.
      rewrite !naxis_den. fold n.
      replace (start - cum - n) with (start - (cum + n)) by lia.
      replace (stop - cum - n) with (stop - (cum + n)) by lia.
      replace (Z.min (stop - cum) n >? Z.max (start - cum) 0) with (Z.min stop (cum + n) >? Z.max start cum) by lia.
      destruct (Z.min stop (cum + n) >? Z.max start cum) eqn:E; [|cbn [app]; apply IH; assumption].
      rewrite (set_idx_mid axis ipre i isuf _ Hax) in H.
      destruct (mk_getitem arr _) as [y|] eqn:Ey; [|discriminate].
      destruct (concat_pieces _ _ start stop (cum + n) t) as [r|] eqn:Er; [|discriminate].
      injection H as <-. cbn [map app]. constructor; [|apply IH; assumption].
      replace (Z.max (start - cum) 0) with (Z.max start cum - cum) by lia.
      replace (Z.min (stop - cum) n) with (Z.min stop (cum + n) - cum) by lia.
      refine (proj1 (mk_getitem_sound V leafv constv fop inj arr _ y Hwa _ Ey)).
      rewrite <- Hla, !app_length. reflexivity.
  Qed.

  Theorem rule_slice_concat_sound e e' :
    rule_slice_concat e = Some e' -> wfb e = true -> aeq (D e) (D e').
  Proof.
    destruct e as [| |y ix o| | | | | | | | | | |]; try discriminate.
    destruct y as [| | | | | | |a axis rest| | | | | |]; try discriminate.
    cbn [rule_slice_concat wfb]. intros H Hw.
    rewrite !andb_true_iff in Hw. destruct Hw as [[[[Hwa Hwr] Hax] Hoff] Hok]. apply Nat.ltb_lt in Hax.
    assert (endim (EConcat a axis rest) = endim a) as Hnd
      by (unfold endim; cbn [eshape]; unfold concat_shape; apply set_nth_length).
    pose proof (idx_okb_length _ _ Hok) as Hlix. fold (endim (EConcat a axis rest)) in Hlix. rewrite Hnd in Hlix.
    rewrite Hnd, (pad_index_full ix (endim a) Hlix) in H.
    destruct (existsb is_int ix) eqn:Ei; [discriminate|].
    destruct (existsb is_none ix); [discriminate|].
    destruct (nth axis ix INone) as [z|s|] eqn:Es; try discriminate.
    (* the index and the shapes, cut at the axis *)
    destruct (all_slices_cut ix axis s (no_int_all_slices ix (idx_okb_basic _ _ Hok) Ei) ltac:(lia) Es) as (ipre & isuf & -> & Hlip & Hsp).
    set (spre := firstn axis (eshape a)). set (ssuf := skipn (S axis) (eshape a)).
    pose proof (split_nth (eshape a) 0 axis Hax) as Hsa. fold spre ssuf in Hsa.
    assert (length spre = axis) as Hlsp by (unfold spre; rewrite firstn_length; unfold endim in Hax; lia).
    assert (Forall (fun x => wfb x = true /\ eshape x = spre ++ nth axis (eshape x) 0 :: ssuf) (a :: rest)) as Hall.
    { constructor; [split; assumption|]. apply Forall_forall. intros r Hr. rewrite forallb_forall in Hwr, Hoff.
      split; [apply Hwr; exact Hr|]. apply (set_nth_eq_mid axis spre (nth axis (eshape a) 0) ssuf _ Hlsp).
      rewrite <- Hsa. apply zlist_eqb_eq. apply Hoff. exact Hr. }
    set (As := map D (a :: rest)).
    assert (Forall (okarr V axis spre ssuf) As) as Hok'.
    { apply Forall_map. eapply Forall_impl; [|exact Hall]. intros x [Hwx Hsx]. unfold okarr, ashape. rewrite naxis_den, dshape.
      split; [exact Hsx | apply nth_nonneg; apply wfb_nonneg; exact Hwx]. }
    replace (zsum (map (fun x => nth axis (eshape x) 0) (a :: rest))) with (axsum V axis As) in H.
    2:{ unfold As, axsum. rewrite map_map. f_equal. apply map_ext. intros x. apply naxis_den. }
    destruct (indices s (axsum V axis As)) as [[start stop] step] eqn:Hind.
    destruct (step =? 1) eqn:Est; [|discriminate]. cbn [negb] in H. assert (step = 1) as -> by lia.
    destruct (concat_pieces _ _ start stop 0 (a :: rest)) as [ys|] eqn:Ep; [|discriminate].
    assert (Forall2 aeq (map D ys) (apieces V axis ipre isuf start stop As)) as HF.
    { rewrite <- (Z.sub_0_r start), <- (Z.sub_0_r stop). apply (concat_pieces_sound axis ipre _ isuf Hlip _ _ _ _ _ Ep).
      eapply Forall_impl; [|exact Hall]. intros x [Hwx Hsx]. split; [exact Hwx|]. unfold endim in *.
      rewrite Hlix, Hsa, Hsx, !app_length. reflexivity. }
    destruct ys as [|x xs]; [discriminate|]. cbn [map] in HF.
    inversion HF as [|x0 p l0 ps Hxp Hxs Hpe Hpp]; subst x0 l0.
    change (D (ESlice (EConcat a axis rest) (ipre ++ ISlice s :: isuf) o))
      with (aslice (ipre ++ ISlice s :: isuf) (aconcat axis (D a) (map D rest))).
    destruct (aslice_aconcat V axis ipre isuf spre ssuf ltac:(lia) Hsp Hlsp (D a) (map D rest) s start stop p ps Hok' Hind
                (eq_sym Hpp)) as [Hmain Hshp].
    apply (aeq_trans _ (aconcat axis p ps)); [exact Hmain|].
    assert (aeq (aconcat axis p ps) (aconcat axis (D x) (map D xs))) as Hc.
    { apply (aconcat_congr V axis (slice_shape ipre spre) (slice_shape isuf ssuf));
        [rewrite slices_shape_length; lia || exact Hsp | exact Hshp | apply aeq_sym; exact Hxp | apply Forall2_aeq_sym; exact Hxs]. }
    destruct xs as [|x2 xs]; injection H as <-; [|exact Hc].
    apply (aeq_trans _ _ _ Hc). apply aconcat_single.
  Qed.

  (* the selected arrays, each sliced on the other axes unless every slice is slice(None) *)
  Lemma stack_operands_sound other shp : forall sel ys,
    omap (fun arr => if negb (forallb is_colon other) then mk_getitem arr other else Some arr) sel = Some ys ->
    Forall (fun r => wfb r = true /\ eshape r = shp) sel -> length other = length shp ->
    Forall2 aeq (map D ys) (map (aslice other) (map D sel)).
  Proof.
    intros sel ys Eo Hsel Hlo. apply omap_Forall2 in Eo.
    induction Eo as [|r y l l' Hy _ IH]; cbn [map]; [constructor|].
    inversion Hsel as [|r0 l0 [Hwr Hsr] Hsl]; subst. constructor; [|apply IH; exact Hsl].
    destruct (negb (forallb is_colon other)) eqn:En.
    - exact (proj1 (mk_getitem_sound V leafv constv fop inj r other y Hwr Hlo Hy)).
    - injection Hy as <-. apply negb_false_iff in En.
      apply aeq_sym, aslice_all_colon; rewrite ?dshape; [apply wfb_nonneg, Hwr | exact Hlo | exact En].
  Qed.

  Theorem rule_slice_stack_sound e e' :
    rule_slice_stack e = Some e' -> wfb e = true -> aeq (D e) (D e').
  Proof.
    destruct e as [| |y ix o| | | | | | | | | | |]; try discriminate.
    destruct y as [| | | | | | | | | | |a axis rest| |]; try discriminate.
    cbn [rule_slice_stack wfb]. intros H Hw.
    rewrite !andb_true_iff in Hw. destruct Hw as [[[[Hwa Hwr] Hax] Hsame] Hok]. apply Nat.leb_le in Hax.
    assert (endim (EStack a axis rest) = S (endim a)) as Hnd by (unfold endim; cbn [eshape]; apply insert_at_length).
    pose proof (idx_okb_length _ _ Hok) as Hlix. fold (endim (EStack a axis rest)) in Hlix. rewrite Hnd in Hlix.
    rewrite Hnd, (pad_index_full ix (S (endim a)) Hlix) in H.
    destruct (existsb is_int ix) eqn:Ei; [discriminate|].
    destruct (existsb is_none ix); [discriminate|].
    destruct (nth axis ix INone) as [z|s|] eqn:Es; try discriminate.
    (* the index and the shape, cut at the stacked axis *)
    destruct (all_slices_cut ix axis s (no_int_all_slices ix (idx_okb_basic _ _ Hok) Ei) ltac:(lia) Es) as (ipre & isuf & -> & Hlip & Hsp).
    rewrite (remove_at_mid axis ipre isuf _ Hlip) in H. set (other := ipre ++ isuf) in *.
    set (spre := firstn axis (eshape a)). set (ssuf := skipn axis (eshape a)).
    assert (eshape a = spre ++ ssuf) as Hsa by (symmetry; apply firstn_skipn).
    assert (length spre = axis) as Hlsp by (unfold spre; rewrite firstn_length; unfold endim in Hax; lia).
    assert (length other = endim a) as Hlo by (unfold other; rewrite app_length in Hlix |- *; cbn [length] in Hlix; lia).
    destruct (indices s (Z.of_nat (S (length rest)))) as [[start stop] step] eqn:Hind.
    destruct (step =? 1) eqn:Est; [|discriminate]. cbn [negb] in H. assert (step = 1) as -> by lia.
    set (sel := skipn (Z.to_nat start) (firstn (Z.to_nat stop) (a :: rest))) in *.
    destruct (omap _ sel) as [ys|] eqn:Eo; [|discriminate]. destruct ys as [|x xs]; [discriminate|]. injection H as <-.
    assert (Forall (fun r => wfb r = true /\ eshape r = spre ++ ssuf) (a :: rest)) as Hall.
    { constructor; [split; assumption|]. apply Forall_forall. intros r Hr. rewrite forallb_forall in Hwr, Hsame.
      split; [apply Hwr; exact Hr | rewrite <- Hsa; apply zlist_eqb_eq; apply Hsame; exact Hr]. }
    assert (Forall2 aeq (map D (x :: xs)) (map (aslice other) (map D sel))) as HF.
    { apply (stack_operands_sound other (spre ++ ssuf)); [exact Eo | apply Forall_skipn, Forall_firstn, Hall | rewrite <- Hsa; exact Hlo]. }
    assert (map D sel = skipn (Z.to_nat start) (firstn (Z.to_nat stop) (D a :: map D rest))) as Hmsel
      by (unfold sel; rewrite <- skipn_map, <- firstn_map; reflexivity).
    destruct (map (aslice other) (map D sel)) as [|p ps] eqn:Emap; [inversion HF|]. rewrite Hmsel in Emap.
    destruct (aslice_astack V (D a) (map D rest) ipre s isuf spre ssuf start stop p ps) as [Hmain Hshp];
      [| lia | exact Hsp | rewrite map_length; exact Hind | exact Emap |].
    { apply (Forall_map D _ (a :: rest)). eapply Forall_impl; [|exact Hall]. intros r [_ Hr]. rewrite dshape. exact Hr. }
    change (D (ESlice (EStack a axis rest) (ipre ++ ISlice s :: isuf) o))
      with (aslice (ipre ++ ISlice s :: isuf) (astack axis (D a) (map D rest))).
    rewrite Hlsp in Hmain. apply (aeq_trans _ _ _ Hmain).
    cbn [map] in HF. inversion HF as [|x0 p0 l0 ps0 Hxp Hxs]; subst x0 p0 l0 ps0.
    pose proof (astack_congr V p (D x) ps (map D xs) _ _ Hshp (aeq_sym _ _ Hxp) (Forall2_aeq_sym _ _ Hxs)) as Hc.
    rewrite slices_shape_length, Hlsp in Hc by (lia || exact Hsp). exact Hc.
  Qed.

  Theorem rule_slice_full_sound e e' :
    rule_slice_full e = Some e' -> aeq (D e) (D e') /\ eshape e' = eshape e /\ echunks e' = echunks e.
  Proof.
    destruct e as [| |y ix o| | | | | | | | | | |]; try discriminate.
    destruct y as [| | | | | | | | | | | |id shp c|]; try discriminate.
    cbn [rule_slice_full]. intros H. injection H as <-.
    split; [|split; reflexivity]. split; cbn [den aslice afull shape get]; [reflexivity|]. intros; reflexivity.
  Qed.

  Theorem rule_slice_broadcast_to_sound e e' :
    rule_slice_broadcast_to e = Some e' -> wfb e = true -> aeq (D e) (D e') /\ eshape e' = eshape e.
  Proof.
    destruct e as [| |y ix o| | | | | | | | | | |]; try discriminate.
    destruct y as [| | | | | | | |x oshape ochunks| | | | |]; try discriminate.
    cbn [rule_slice_broadcast_to wfb]. intros H Hw.
    rewrite !andb_true_iff in Hw. destruct Hw as [[[Hwx Hno] Hbc] Hok]. apply bcast_intob_spec in Hbc.
    pose proof (idx_okb_length _ _ Hok) as Hlix.
    rewrite (pad_index_full ix (length oshape) Hlix) in H.
    destruct (existsb is_int ix) eqn:Ei; [discriminate|].
    destruct (existsb is_none ix); [discriminate|].
    destruct (omap _ (combine ix oshape)) as [ranges|] eqn:Er; [|discriminate].
    pose proof (unit_ranges_shape ix oshape ranges Er Hlix) as Hshape.
    set (sx := eshape x) in *.
    replace (zip2 bt_axis (skipn (length oshape - endim x) ix) sx) with (bt_index ix sx) in H
      by (unfold bt_index, lastn, endim; fold sx; rewrite Hlix; reflexivity).
    destruct (bt_bcast ix sx oshape Hbc Hok (no_int_all_slices ix (idx_okb_basic _ _ Hok) Ei)) as (Hbc2 & Hlbt & Hidx).
    destruct (match bt_index ix sx with [] => Some x | _ :: _ => mk_getitem x (bt_index ix sx) end) as [sliced|] eqn:Es; [|discriminate].
    destruct (echunks sliced); [|discriminate]. injection H as <-.
    assert (aeq (D sliced) (aslice (bt_index ix sx) (D x))) as Hsliced.
    { destruct (bt_index ix sx) as [|i0 l0] eqn:Eb.
      - injection Es as <-. split; cbn [aslice shape get slice_shape slice_src]; [reflexivity | intros; reflexivity].
      - rewrite <- Eb in *. exact (proj1 (mk_getitem_sound V leafv constv fop inj x _ sliced Hwx Hlbt Es)). }
    split; [|cbn [eshape]; exact Hshape].
    change (D (ESlice (EBroadcastTo x oshape ochunks) ix o)) with (aslice ix (abroadcast_to oshape (D x))).
    change (D (EBroadcastTo sliced (map (fun r => Z.max 0 (snd r - fst r)) ranges) _))
      with (abroadcast_to (map (fun r => Z.max 0 (snd r - fst r)) ranges) (D sliced)).
    rewrite Hshape.
    apply (aeq_trans _ (abroadcast_to (slice_shape ix oshape) (aslice (bt_index ix sx) (D x)))).
    - split; cbn [aslice abroadcast_to shape get]; [reflexivity|].
      intros out Ho. rewrite !dshape. fold sx. f_equal. apply Hidx. exact Ho.
    - apply aeq_sym. apply abroadcast_to_congr; [exact Hsliced|].
      destruct Hsliced as [Hs _]. rewrite Hs. cbn [aslice shape]. rewrite dshape. exact Hbc2.
  Qed.

  (* R13: Elemwise._lower — operands are rechunked to the unified layout, values untouched *)
  Lemma lower_arg_cases target a p : lower_arg target a = Some p ->
    fst p = a \/ fst p = ERechunk a 0 (unify_arg_chunks (eshape a) target) 0 false false.
  Proof.
    unfold lower_arg. destruct (is_const a); [intros H; injection H as <-; left; reflexivity|].
    destruct (echunks a) as [ca|]; [|discriminate].
    destruct (_ && _); intros H; injection H as <-; [right | left]; reflexivity.
  Qed.

  Lemma lower_arg_aligned target a p : lower_arg target a = Some p ->
    is_const a = true \/
    forall ca, echunks a = Some ca -> forallb (fun d => negb (Nat.eqb (length d) 0)) ca = true ->
               echunks (fst p) = Some (unify_arg_chunks (eshape a) target).
  Proof.
    unfold lower_arg. intros Hp. destruct (is_const a); [left; reflexivity|]. right.
    destruct (echunks a) as [ca0|] eqn:Ea; [|discriminate]. intros ca Hca Hne. injection Hca as <-.
    rewrite Hne, andb_true_r in Hp.
    destruct (zll_eqb (unify_arg_chunks (eshape a) target) ca0) eqn:E; cbn [negb] in Hp; injection Hp as <-; cbn [fst].
    - apply zlist2_eqb_eq in E. rewrite E. exact Ea.
    - reflexivity.
  Qed.

  (* what holds of every operand and what [lower_arg] makes of it holds of the operand lists *)
  Lemma elemwise_lower_operands (R : expr -> expr -> Prop) target :
    (forall a p, lower_arg target a = Some p -> R a (fst p)) ->
    forall op args e', rule_elemwise_lower target (EElemwise op args) = Some e' ->
    exists args', e' = EElemwise op args' /\ Forall2 R args args'.
  Proof.
    intros HR op args e'. cbn [rule_elemwise_lower].
    destruct (omap (lower_arg target) args) as [r|] eqn:Eo; [|discriminate].
    destruct (existsb snd r); [|discriminate]. intros H. injection H as <-.
    exists (map fst r). split; [reflexivity|]. apply omap_Forall2 in Eo.
    induction Eo as [|a p l l' Hp _ IH]; cbn [map]; constructor; [exact (HR a p Hp) | exact IH].
  Qed.

  Theorem rule_elemwise_lower_args target op args e' :
    rule_elemwise_lower target (EElemwise op args) = Some e' ->
    exists args', e' = EElemwise op args' /\
      Forall2 (fun a a' => a' = a \/ a' = ERechunk a 0 (unify_arg_chunks (eshape a) target) 0 false false) args args'.
  Proof. apply elemwise_lower_operands. exact (lower_arg_cases target). Qed.

  (* after the rule, every array operand (with no empty chunk tuple) advertises the layout the unification assigns to it *)
  Theorem rule_elemwise_lower_aligned target op args e' :
    rule_elemwise_lower target (EElemwise op args) = Some e' ->
    exists args', e' = EElemwise op args' /\
      Forall2 (fun a a' => is_const a = true \/
                 forall ca, echunks a = Some ca -> forallb (fun d => negb (Nat.eqb (length d) 0)) ca = true ->
                            echunks a' = Some (unify_arg_chunks (eshape a) target)) args args'.
  Proof. apply elemwise_lower_operands. exact (lower_arg_aligned target). Qed.

  Theorem rule_elemwise_lower_sound target e e' :
    rule_elemwise_lower target e = Some e' -> aeq (D e) (D e') /\ eshape e' = eshape e.
  Proof.
    destruct e as [| | | |op args| | | | | | | | |]; try discriminate. intros H.
    destruct (rule_elemwise_lower_args target op args e' H) as (args' & -> & HF).
    assert (map D args' = map D args /\ map eshape args' = map eshape args) as [H1 H2].
    { clear H. induction HF as [|a a' l l' Ha _ [IH1 IH2]]; [split; reflexivity|]. cbn [map].
      destruct Ha as [->| ->]; cbn [den eshape arechunk]; rewrite IH1, IH2; split; reflexivity. }
    cbn [den eshape]. rewrite H1, H2. split; [apply aeq_refl | reflexivity].
  Qed.

  Lemma mk_rechunk_spec a ch y : mk_rechunk a ch = Some y ->
    D y = D a /\ eshape y = eshape a /\ echunks y = Some ch.
  Proof.
    unfold mk_rechunk. destruct (echunks a) as [c|] eqn:Ec; [|discriminate].
    destruct (zll_eqb ch c) eqn:E; intros H; injection H as <-.
    - apply zlist2_eqb_eq in E. subst c. repeat split. exact Ec.
    - repeat split.
  Qed.

  Lemma mk_rechunks_spec l : forall specs ys, length specs = length l ->
    Forall2 (fun p y => mk_rechunk (fst p) (snd p) = Some y) (combine l specs) ys ->
    map D ys = map D l /\ map eshape ys = map eshape l /\ omap echunks ys = Some specs.
  Proof.
    induction l as [|b l IH]; intros [|sp specs] ys Hl HF; cbn [length] in Hl; try discriminate; cbn [combine] in HF.
    - inversion HF; subst. repeat split.
    - inversion HF as [|p y l0 ys' Hy HF']; subst. cbn [fst snd] in Hy.
      destruct (mk_rechunk_spec _ _ _ Hy) as (H1 & H2 & H3).
      destruct (IH specs ys' ltac:(lia) HF') as (I1 & I2 & I3).
      cbn [map omap]. rewrite H1, H2, H3, I1, I2, I3. repeat split.
  Qed.

  (* Rechunk._pushdown_through_concatenate *)
  Theorem rechunk_through_concat_sound e e' :
    rechunk_through_concat e = Some e' ->
    aeq (D e) (D e') /\ eshape e' = eshape e /\ echunks e' = echunks e.
  Proof.
    destruct e as [| | | | |y spec target prm bal pp| | | | | | | |]; try discriminate.
    destruct y as [| | | | | | |a axis rest| | | | | |]; try discriminate.
    cbn [rechunk_through_concat]. destruct pp; [discriminate|].
    set (arrays := a :: rest).
    destruct (omap echunks arrays) as [cs|] eqn:Ecs; [|discriminate].
    set (part_dims := map (fun c => nth axis c []) cs). set (taxis := nth axis target []).
    destruct (if negb (list_eqb Z.eqb taxis (concat part_dims)) then _ else Some part_dims) as [per_part|] eqn:Epp; [|discriminate].
    assert (length per_part = length arrays) as Hlpp.
    { rewrite (Forall2_length _ _ _ (omap_Forall2 _ _ _ Ecs)). destruct (negb _).
      - destruct (_ || _); [discriminate|]. rewrite (split_parts_length _ _ _ Epp). unfold part_dims. rewrite !map_length. reflexivity.
      - injection Epp as <-. unfold part_dims. apply map_length. }
    set (specs := map (fun p => set_at axis p target) per_part).
    destruct (list_eqb zll_eqb specs cs); [discriminate|].
    destruct (negb (list_eqb Z.eqb taxis (concat part_dims)) && _); [discriminate|].
    destruct (omap _ (combine arrays specs)) as [ys|] eqn:Eys; [|discriminate].
    destruct ys as [|x xs]; [discriminate|].
    assert (length specs = length arrays) as Hls by (unfold specs; rewrite map_length; exact Hlpp).
    destruct (mk_rechunks_spec arrays specs (x :: xs) Hls (omap_Forall2 _ _ _ Eys)) as (HD & HS & HC).
    unfold arrays in HD, HS. cbn [map] in HD, HS. injection HD as HD1 HD2. injection HS as HS1 HS2.
    assert (aeq (D (ERechunk (EConcat a axis rest) spec target prm bal false)) (D (EConcat x axis xs)) /\
            eshape (EConcat x axis xs) = eshape (ERechunk (EConcat a axis rest) spec target prm bal false)) as [Hv Hsh].
    { cbn [den eshape arechunk]. rewrite HD1, HD2, HS1, HS2. split; [apply aeq_refl | reflexivity]. }
    destruct (list_eqb Z.eqb (concat per_part) taxis) eqn:Eax; intros H; injection H as <-;
      (split; [exact Hv|]); (split; [exact Hsh|]); [|reflexivity].
    rewrite echunks_concat. cbn [omap] in HC.
    destruct (echunks x) as [c0|]; [|discriminate]. destruct (omap echunks xs) as [cr|]; [|discriminate].
    destruct per_part as [|p0 per]; [discriminate Hlpp|].
    unfold specs in HC. cbn [map] in HC. injection HC as -> ->. cbn [echunks]. f_equal.
    apply (concat_specs_chunks axis target p0 per). apply zlist_eqb_eq. exact Eax.
  Qed.

  (* R16: rechunk pushdown through ExpandDims / Transpose *)
  Theorem rule_rechunk_expand_dims_sound e e' :
    rule_rechunk_expand_dims e = Some e' -> aeq (D e) (D e') /\ eshape e' = eshape e.
  Proof.
    destruct e as [| | | | |y spec c prm bal pp| | | | | | | |]; try discriminate.
    destruct y as [| | | | | |x axes| | | | | | |]; try discriminate.
    cbn [rule_rechunk_expand_dims]. intros H. injection H as <-. split; [apply aeq_refl | reflexivity].
  Qed.

  Theorem rule_rechunk_transpose_sound e e' :
    rule_rechunk_transpose e = Some e' -> aeq (D e) (D e') /\ eshape e' = eshape e.
  Proof.
    destruct e as [| | | | |y spec c prm bal pp| | | | | | | |]; try discriminate.
    destruct y as [| | |x axes| | | | | | | | | |]; try discriminate.
    cbn [rule_rechunk_transpose]. destruct (negb (spec =? 0)); [discriminate|].
    destruct (mk_rechunk x _) as [x'|] eqn:Ex; [|discriminate]. intros H. injection H as <-.
    destruct (mk_rechunk_spec _ _ _ Ex) as (H1 & H2 & _).
    cbn [den eshape arechunk]. rewrite H1, H2. split; [apply aeq_refl | reflexivity].
  Qed.

  (* R14: Rechunk._lower *)
  Theorem rule_rechunk_lower_sound p2p e e' :
    rule_rechunk_lower p2p e = Some e' -> wfb e = true ->
    aeq (D e) (D e') /\ eshape e' = eshape e /\ (is_slice e' = false -> echunks e' = echunks e).
  Proof.
    destruct e as [| | | | |x spec c prm bal pp| | | | | | | |]; try discriminate.
    cbn [rule_rechunk_lower wfb]. intros H Hw.
    destruct (negb (prm =? 0) || pp); [discriminate|].
    destruct (echunks x) as [cx|] eqn:Ex; [|discriminate].
    destruct (negb bal && zll_eqb c cx) eqn:En.
    { injection H as <-. apply andb_true_iff in En. destruct En as [_ En]. apply zlist2_eqb_eq in En. subst cx.
      split; [apply aeq_refl|]. split; [reflexivity|]. intros _. exact Ex. }
    destruct (is_source x) eqn:Esrc.
    { destruct (rule_rechunk_fromarray_sound V leafv constv fop inj _ _ H) as [Ha Hc]. split; [exact Ha|]. split; [|intros _; exact Hc].
      destruct x; try discriminate. cbn [rule_rechunk_fromarray] in H. destruct (_ || _); [discriminate|]. injection H as <-. reflexivity. }
    destruct (if is_concat x then rechunk_through_concat (ERechunk x spec c prm bal pp)
              else if is_slice x then rechunk_through_slice p2p x c else None) as [r|] eqn:Er.
    - injection H as <-. destruct (is_concat x) eqn:Ecc.
      { destruct (rechunk_through_concat_sound _ _ Er) as (Ha & Hs & Hc). split; [exact Ha|]. split; [exact Hs|]. intros _. exact Hc. }
      destruct x as [| |y ix0 o| | | | | | | | | | |]; cbn [is_slice rechunk_through_slice] in Er; try discriminate.
      cbn [wfb] in Hw. apply andb_true_iff in Hw. destruct Hw as [Hwy Hok].
      rewrite (pad_index_full ix0 (endim y)) in Er by (apply idx_okb_length; exact Hok).
      destruct (negb (Nat.eqb _ _)); [discriminate|]. destruct (echunks y); [|discriminate].
      destruct (expand_chunks _ _ _ _) as [[expanded aligned]|]; [|discriminate].
      destruct aligned; [discriminate|]. destruct (existsb _ c); [discriminate|].
      destruct (_ >? _); [discriminate|]. destruct p2p; [discriminate|]. injection Er as <-.
      split; [apply aeq_refl|]. split; [reflexivity|]. discriminate.
    - destruct p2p; [discriminate|]. injection H as <-.
      split; [apply aeq_refl|]. split; [reflexivity|]. intros _. reflexivity.
  Qed.
End Sound2.

(* C08: the rules of this file that are in [Rewrite.simp_rules], and the rechunk pushdowns [rule_rechunk_elemwise] and
   [rule_rechunk_fromarray] of ExprRulesFacts.v, strictly decrease the measure [mu] *)
Lemma mu_concat a axis rest : mu (EConcat a axis rest) = S (mu a + mu_sum rest).
Proof. reflexivity. Qed.

Lemma mu_stack a axis rest : mu (EStack a axis rest) = S (mu a + mu_sum rest).
Proof. reflexivity. Qed.

Lemma concat_pieces_mu axis full : forall arrays start stop cum ys,
  concat_pieces axis full start stop cum arrays = Some ys -> (mu_sum ys <= 3 * mu_sum arrays)%nat.
Proof.
  induction arrays as [|arr t IH]; intros start stop cum ys H; cbn [concat_pieces] in H.
  - injection H as <-. cbn [mu_sum]. lia.
  - cbn [mu_sum]. destruct (_ >? _).
    + destruct (mk_getitem arr _) as [y|] eqn:Ey; [|discriminate].
      destruct (concat_pieces axis full start stop _ t) as [r|] eqn:Er; [|discriminate].
      injection H as <-. cbn [mu_sum]. pose proof (mk_getitem_mu _ _ _ Ey). specialize (IH _ _ _ _ Er). lia.
    + specialize (IH _ _ _ _ H). lia.
Qed.

Theorem rule_slice_concat_mu e e' : rule_slice_concat e = Some e' -> (mu e' < mu e)%nat.
Proof.
  destruct e as [| |y ix o| | | | | | | | | | |]; try discriminate.
  destruct y as [| | | | | | |a axis rest| | | | | |]; try discriminate.
  cbn [rule_slice_concat]. destruct (existsb is_int _); [discriminate|]. destruct (existsb is_none _); [discriminate|].
  destruct (nth axis _ INone) as [z|s|]; try discriminate.
  destruct (indices s _) as [[start stop] step]. destruct (negb _); [discriminate|].
  destruct (concat_pieces _ _ _ _ _ _) as [ys|] eqn:Ep; [|discriminate].
  pose proof (concat_pieces_mu _ _ _ _ _ _ _ Ep) as Hm. cbn [mu_sum] in Hm.
  change (mu (ESlice (EConcat a axis rest) ix o)) with (3 * mu (EConcat a axis rest))%nat. rewrite mu_concat.
  destruct ys as [|x [|x2 xs]]; [discriminate| |]; intros H; injection H as <-.
  - cbn [mu_sum] in Hm. lia.
  - rewrite mu_concat. cbn [mu_sum] in *. lia.
Qed.

Lemma mu_sum_skipn_firstn l s t : (mu_sum (skipn s (firstn t l)) <= mu_sum l)%nat.
Proof.
  rewrite <- (firstn_skipn t l) at 2. rewrite mu_sum_app.
  rewrite <- (firstn_skipn s (firstn t l)) at 2. rewrite mu_sum_app. lia.
Qed.

Theorem rule_slice_stack_mu e e' : rule_slice_stack e = Some e' -> (mu e' < mu e)%nat.
Proof.
  destruct e as [| |y ix o| | | | | | | | | | |]; try discriminate.
  destruct y as [| | | | | | | | | | |a axis rest| |]; try discriminate.
  cbn [rule_slice_stack]. destruct (existsb is_int _); [discriminate|]. destruct (existsb is_none _); [discriminate|].
  destruct (nth axis _ INone) as [z|s|]; try discriminate.
  destruct (indices s _) as [[start stop] step]. destruct (negb (step =? 1)); [discriminate|].
  set (sel := skipn _ (firstn _ (a :: rest))).
  destruct (omap _ sel) as [ys|] eqn:Eo; [|discriminate]. destruct ys as [|x xs]; [discriminate|].
  intros H. injection H as <-.
  change (mu (ESlice (EStack a axis rest) ix o)) with (3 * mu (EStack a axis rest))%nat. rewrite !mu_stack.
  assert (mu_sum (x :: xs) <= 3 * mu_sum sel)%nat as Hm.
  { apply omap_Forall2 in Eo. induction Eo as [|r y l l' Hy _ IH]; [cbn; lia|]. cbn [mu_sum].
    assert (mu y <= 3 * mu r)%nat by (destruct (negb _); [apply (mk_getitem_mu _ _ _ Hy) | injection Hy as <-; lia]). lia. }
  pose proof (mu_sum_skipn_firstn (a :: rest) (Z.to_nat start) (Z.to_nat stop)) as Hs. fold sel in Hs.
  cbn [mu_sum] in *. lia.
Qed.

Theorem rule_slice_full_mu e e' : rule_slice_full e = Some e' -> (mu e' < mu e)%nat.
Proof.
  destruct e as [| |y ix o| | | | | | | | | | |]; try discriminate.
  destruct y as [| | | | | | | | | | | |id shp c|]; try discriminate.
  cbn [rule_slice_full]. intros H. injection H as <-. cbn [mu]. lia.
Qed.

Theorem mu_monotone_concat e e' :
  (mu e' < mu e)%nat ->
  (forall axis rest, mu (EConcat e' axis rest) < mu (EConcat e axis rest))%nat /\
  (forall a axis l1 l2, mu (EConcat a axis (l1 ++ e' :: l2)) < mu (EConcat a axis (l1 ++ e :: l2)))%nat /\
  (forall axis rest, mu (EStack e' axis rest) < mu (EStack e axis rest))%nat /\
  (forall a axis l1 l2, mu (EStack a axis (l1 ++ e' :: l2)) < mu (EStack a axis (l1 ++ e :: l2)))%nat.
Proof.
  intros H. repeat split; intros; rewrite ?mu_concat, ?mu_stack, ?mu_sum_app; cbn [mu_sum]; lia.
Qed.

Theorem rule_slice_broadcast_to_mu e e' : rule_slice_broadcast_to e = Some e' -> (mu e' < mu e)%nat.
Proof.
  destruct e as [| |y ix o| | | | | | | | | | |]; try discriminate.
  destruct y as [| | | | | | | |x oshape ochunks| | | | |]; try discriminate.
  cbn [rule_slice_broadcast_to]. destruct (existsb is_int _); [discriminate|]. destruct (existsb is_none _); [discriminate|].
  destruct (omap _ (combine _ _)) as [ranges|]; [|discriminate].
  destruct (match zip2 bt_axis _ _ with [] => Some x | _ :: _ => _ end) as [sliced|] eqn:Es; [|discriminate].
  assert (mu sliced <= 3 * mu x)%nat as Hm.
  { destruct (zip2 bt_axis _ _); [injection Es as <-; lia | apply (mk_getitem_mu _ _ _ Es)]. }
  destruct (echunks sliced); [|discriminate]. intros H. injection H as <-. cbn [mu]. lia.
Qed.

(* rechunks sink towards the leaves: [Rechunk](x) = 2x + 1 makes every rechunk pushdown decrease the measure *)
Lemma mk_rechunk_mu a ch y : mk_rechunk a ch = Some y -> (mu y <= S (2 * mu a))%nat.
Proof.
  unfold mk_rechunk. destruct (echunks a); [|discriminate]. destruct (zll_eqb ch l); intros H; injection H as <-; cbn [mu]; lia.
Qed.

Theorem rule_rechunk_elemwise_mu e e' : rule_rechunk_elemwise e = Some e' -> (mu e' < mu e)%nat.
Proof.
  destruct e as [| | | | |y spec c prm bal pp| | | | | | | |]; try discriminate.
  destruct y as [| | | |op args| | | | | | | | |]; try discriminate. cbn [rule_rechunk_elemwise].
  destruct (negb (spec =? 0)); [discriminate|].
  destruct (omap _ args) as [args'|] eqn:Eo; [|discriminate]. intros H. injection H as <-.
  apply omap_Forall2 in Eo.
  change (mu (ERechunk (EElemwise op args) spec c prm bal pp)) with (S (2 * mu (EElemwise op args))).
  rewrite !mu_elemwise.
  assert (mu_sum args' <= 2 * mu_sum args + length args /\ length args' = length args)%nat as [Hs Hl].
  { induction Eo as [|a a' l l' Ha _ [IH1 IH2]]; [cbn; lia|]. cbn [mu_sum length].
    assert (mu a' <= S (2 * mu a))%nat.
    { destruct (is_const a); [injection Ha as <-; lia | apply (mk_rechunk_mu _ _ _ Ha)]. }
    lia. }
  lia.
Qed.

Theorem rule_rechunk_fromarray_mu e e' : rule_rechunk_fromarray e = Some e' -> (mu e' < mu e)%nat.
Proof.
  destruct e as [| | | | |y spec c prm bal pp| | | | | | | |]; try discriminate.
  destruct y as [| | | | | | | | | |s chunks region nd isz other| | |]; try discriminate. cbn [rule_rechunk_fromarray].
  destruct (pp || negb nd); [discriminate|]. intros H. injection H as <-. cbn [mu]. lia.
Qed.

Theorem rule_rechunk_expand_dims_mu e e' : rule_rechunk_expand_dims e = Some e' -> (mu e' < mu e)%nat.
Proof.
  destruct e as [| | | | |y spec c prm bal pp| | | | | | | |]; try discriminate.
  destruct y as [| | | | | |x axes| | | | | | |]; try discriminate.
  cbn [rule_rechunk_expand_dims]. intros H. injection H as <-. cbn [mu]. lia.
Qed.

Theorem rule_rechunk_transpose_mu e e' : rule_rechunk_transpose e = Some e' -> (mu e' < mu e)%nat.
Proof.
  destruct e as [| | | | |y spec c prm bal pp| | | | | | | |]; try discriminate.
  destruct y as [| | |x axes| | | | | | | | | |]; try discriminate.
  cbn [rule_rechunk_transpose]. destruct (negb (spec =? 0)); [discriminate|].
  destruct (mk_rechunk x _) as [x'|] eqn:Ex; [|discriminate]. intros H. injection H as <-.
  pose proof (mk_rechunk_mu _ _ _ Ex). cbn [mu]. lia.
Qed.
