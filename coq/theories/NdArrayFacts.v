(* Facts about N-d arrays as index functions (NdArray.v): the setoid, in-bounds
   preservation and congruence of slicing, transposition, element-wise
   application and broadcasting, permutations of axes, broadcasting as a relation between shapes
   ([compat], [bcast_into]), and the index algebra of basic slicing lifted from
   one axis (FuseFacts / NormalizeFacts) to N axes. *)
From DA Require Import PyBase PyBaseFacts Slicing NormalizeFacts FuseFacts NdArray.
Open Scope Z_scope.

Lemma in_bounds_length idx : forall shp, in_bounds idx shp -> length idx = length shp.
Proof.
  induction idx as [|i idx IH]; intros [|n shp] H; cbn [in_bounds] in H; try tauto.
  cbn [length]. f_equal. apply IH. tauto.
Qed.

Lemma in_boundsb_iff idx : forall shp, in_boundsb idx shp = true <-> in_bounds idx shp.
Proof.
  induction idx as [|i idx IH]; intros [|n shp]; cbn [in_bounds in_boundsb]; try (split; [discriminate | tauto]).
  - tauto.
  - rewrite !andb_true_iff, IH, Z.leb_le, Z.ltb_lt. tauto.
Qed.

Lemma in_bounds_nth idx : forall shp k, in_bounds idx shp -> (k < length shp)%nat ->
  0 <= nth k idx 0 < nth k shp 0.
Proof.
  induction idx as [|i idx IH]; intros [|n shp] k H Hk; cbn [in_bounds] in H; try tauto.
  - cbn [length] in Hk. lia.
  - destruct k as [|k]; cbn [nth]; [tauto|]. apply IH; [tauto|]. cbn [length] in Hk. lia.
Qed.

Lemma in_bounds_of_nth idx : forall shp, length idx = length shp ->
  (forall k, (k < length shp)%nat -> 0 <= nth k idx 0 < nth k shp 0) -> in_bounds idx shp.
Proof.
  induction idx as [|i idx IH]; intros [|n shp] Hl H; cbn [length] in Hl; try discriminate; cbn [in_bounds]; [exact I|].
  split.
  - apply (H O). cbn [length]. lia.
  - apply IH; [lia|]. intros k Hk. apply (H (S k)). cbn [length]. lia.
Qed.

Lemma in_bounds_app a : forall s1 b s2, in_bounds a s1 -> in_bounds b s2 -> in_bounds (a ++ b) (s1 ++ s2).
Proof.
  induction a as [|i a IH]; intros [|n s1] b s2 Ha Hb; cbn [in_bounds] in Ha; try (exfalso; tauto).
  - exact Hb.
  - cbn [app in_bounds]. split; [tauto|]. apply IH; tauto.
Qed.

Lemma in_bounds_cut P : forall out Q, in_bounds out (P ++ Q) ->
  exists opre osuf, out = opre ++ osuf /\ in_bounds opre P /\ in_bounds osuf Q.
Proof.
  induction P as [|n P IH]; intros out Q H.
  - exists [], out. split; [reflexivity|]. split; [exact I | exact H].
  - destruct out as [|i out]; cbn [app in_bounds] in H; [tauto|]. destruct H as [Hi H].
    destruct (IH out Q H) as (opre & osuf & -> & H1 & H2).
    exists (i :: opre), osuf. split; [reflexivity|]. split; [split; assumption | exact H2].
Qed.

Lemma in_bounds_nonneg idx : forall shp, in_bounds idx shp -> Forall (fun n => 0 < n) shp.
Proof.
  induction idx as [|i idx IH]; intros [|n shp] H; cbn [in_bounds] in H; try tauto; constructor.
  - lia.
  - apply IH. tauto.
Qed.

Section Setoid.
  Context {V : Type}.
  Lemma aeq_refl (a : arr V) : aeq a a.
  Proof. split; [reflexivity|]. intros; reflexivity. Qed.
  Lemma aeq_sym (a b : arr V) : aeq a b -> aeq b a.
  Proof. intros [Hs Hg]. split; [symmetry; exact Hs|]. intros idx Hi. symmetry. apply Hg. rewrite Hs. exact Hi. Qed.
  Lemma aeq_trans (a b c : arr V) : aeq a b -> aeq b c -> aeq a c.
  Proof.
    intros [Hs1 Hg1] [Hs2 Hg2]. split; [congruence|]. intros idx Hi.
    rewrite Hg1 by exact Hi. apply Hg2. rewrite <- Hs1. exact Hi.
  Qed.
End Setoid.

Lemma slice_len_length s n : Z.of_nat (length (sel s n)) = slice_len s n.
Proof. unfold sel, slice_len. destruct (indices s n) as [[a b] k]. apply zrange_length. Qed.

Lemma slice_len_nonneg s n : 0 <= slice_len s n.
Proof. rewrite <- slice_len_length. lia. Qed.

(* one axis: positions selected by a slice are positions of the axis *)
Lemma sel_nth_range s n j :
  0 <= n -> step_of s <> 0 -> 0 <= j < slice_len s n -> 0 <= nthZ (sel s n) j < n.
Proof.
  intros Hn Hk Hj. unfold nthZ, sel, slice_len in *.
  destruct (indices s n) as [[a b] k] eqn:Hi.
  destruct (indices_bounds s n a b k Hn Hi) as (Hstep & Hpos & Hneg).
  rewrite zrange_nth by (rewrite Z2Nat.id; lia). rewrite Z2Nat.id by lia.
  destruct (Z_lt_le_dec 0 k) as [Hkp|Hkn].
  - specialize (Hpos Hkp).
    assert (a < b) as Hab.
    { destruct (Z_lt_le_dec a b) as [?|Hba]; [assumption|].
      rewrite (range_len_empty_pos a b k Hkp Hba) in Hj. lia. }
    pose proof (range_len_pos_last a b k Hkp Hab). nia.
  - assert (k < 0) as Hk0 by lia. specialize (Hneg Hk0).
    assert (b < a) as Hab.
    { destruct (Z_lt_le_dec b a) as [?|Hba]; [assumption|].
      rewrite (range_len_empty_neg a b k Hk0 Hba) in Hj. lia. }
    pose proof (range_len_neg_last a b k Hk0 Hab). nia.
Qed.

Lemma slice_len_colon n : 0 <= n -> slice_len colon n = n.
Proof. intros Hn. apply (sel_colon n Hn). Qed.

Lemma slice_len_le s n : 0 <= n -> step_of s <> 0 -> slice_len s n <= n.
Proof.
  intros Hn Hk. unfold slice_len. destruct (indices s n) as [[a b] k] eqn:Hi.
  destruct (indices_bounds s n a b k Hn Hi) as (Hstep & Hpos & Hneg).
  destruct (Z_lt_le_dec 0 k) as [Hkp|Hkn].
  - specialize (Hpos Hkp). rewrite range_len_pos_step by exact Hkp. destruct (a <? b) eqn:E; [|lia].
    Z.to_euclidean_division_equations. nia.
  - assert (k < 0) as Hk0 by lia. specialize (Hneg Hk0). rewrite range_len_neg_step by exact Hk0.
    destruct (b <? a) eqn:E; [|lia]. Z.to_euclidean_division_equations. nia.
Qed.

Lemma slice_len_1 s : step_of s <> 0 -> slice_len s 1 = 0 \/ slice_len s 1 = 1.
Proof. intros Hk. pose proof (slice_len_le s 1 ltac:(lia) Hk). pose proof (slice_len_nonneg s 1). lia. Qed.

Lemma nthZ_sel_colon n j : 0 <= j < n -> nthZ (sel colon n) j = j.
Proof.
  intros Hj. destruct (sel_colon n) as [Hs _]; [lia|]. rewrite Hs. unfold nthZ.
  rewrite zrange_nth by (rewrite Z2Nat.id, range_len_unit; lia). rewrite Z2Nat.id by lia. lia.
Qed.

Lemma posify_range n i : check_int n i = true -> 0 <= posify_int n i < n.
Proof. unfold check_int, posify_int. intros H. destruct (i <? 0) eqn:E; lia. Qed.

Lemma posify_idem n i : check_int n i = true -> posify_int n (posify_int n i) = posify_int n i.
Proof. intros H. pose proof (posify_range n i H) as Hr. unfold posify_int at 1. destruct (posify_int n i <? 0) eqn:E; lia. Qed.

Lemma check_int_posify n i : check_int n i = true -> check_int n (posify_int n i) = true.
Proof. intros H. pose proof (posify_range n i H) as Hr. unfold check_int. lia. Qed.

Definition nonneg_shape (shp : list Z) : Prop := Forall (fun n => 0 <= n) shp.

Lemma nonneg_shape_cons n s : nonneg_shape (n :: s) <-> 0 <= n /\ nonneg_shape s.
Proof. split; [intros H; inversion H; split; assumption | intros [H0 H]; constructor; assumption]. Qed.

Lemma nonneg_shape_tl s : nonneg_shape s -> nonneg_shape (tl s).
Proof. intros H. destruct s; [exact H | apply nonneg_shape_cons in H; apply H]. Qed.

Lemma nonnegb_iff shp : forallb (fun n => 0 <=? n) shp = true <-> nonneg_shape shp.
Proof.
  unfold nonneg_shape. rewrite forallb_forall, Forall_forall. split; intros H x Hx; specialize (H x Hx); lia.
Qed.

(* induction over a valid basic index and its shape *)
Lemma idx_okb_ind (P : list pidx -> list Z -> Prop) :
  P [] [] ->
  (forall z ix n shp, check_int n z = true -> idx_okb ix shp = true -> P ix shp -> P (IInt z :: ix) (n :: shp)) ->
  (forall s ix n shp, step_of s <> 0 -> idx_okb ix shp = true -> P ix shp -> P (ISlice s :: ix) (n :: shp)) ->
  forall ix shp, idx_okb ix shp = true -> P ix shp.
Proof.
  intros H0 Hint Hsl. induction ix as [|i ix IH]; intros [|n shp] H; cbn [idx_okb] in H; try discriminate; [exact H0| |].
  - destruct i; discriminate.
  - destruct i as [z|s|]; try discriminate; apply andb_true_iff in H; destruct H as [Hi H].
    + apply Hint; [exact Hi | exact H | apply IH; exact H].
    + apply Hsl; [lia | exact H | apply IH; exact H].
Qed.

(* an index of integers and slices only, and induction over one *)
Definition basicb (ix : list pidx) : bool := forallb (fun i => match i with INone => false | _ => true end) ix.

Lemma basicb_ind (P : list pidx -> Prop) :
  P [] ->
  (forall z ix, basicb ix = true -> P ix -> P (IInt z :: ix)) ->
  (forall s ix, basicb ix = true -> P ix -> P (ISlice s :: ix)) ->
  forall ix, basicb ix = true -> P ix.
Proof.
  intros H0 Hint Hsl. induction ix as [|i ix IH]; intros H; [exact H0|].
  apply andb_true_iff in H. destruct H as [Hi H].
  destruct i; try discriminate; [apply Hint | apply Hsl]; try apply IH; exact H.
Qed.

Lemma idx_okb_basic ix shp : idx_okb ix shp = true -> basicb ix = true.
Proof. revert ix shp. apply idx_okb_ind; [reflexivity | |]; intros; assumption. Qed.

Lemma idx_okb_length ix shp : idx_okb ix shp = true -> length ix = length shp.
Proof. revert ix shp. apply idx_okb_ind; [reflexivity | |]; intros; cbn [length]; congruence. Qed.

Lemma nslices_cons i ix : nslices (i :: ix) = ((if is_sliceb i then 1 else 0) + nslices ix)%nat.
Proof. unfold nslices. cbn [filter]. destruct (is_sliceb i); reflexivity. Qed.
Lemma nslices_int z ix : nslices (IInt z :: ix) = nslices ix.
Proof. reflexivity. Qed.
Lemma nslices_slice s ix : nslices (ISlice s :: ix) = S (nslices ix).
Proof. reflexivity. Qed.

Lemma slice_shape_basic_length ix : basicb ix = true -> forall shp,
  length (slice_shape ix shp) = (nslices ix + (length shp - length ix))%nat.
Proof.
  revert ix. refine (basicb_ind _ _ _ _); [intros shp; cbn; lia | |];
    intros ? ix _ IH shp; cbn [slice_shape length]; rewrite IH, ?nslices_int, ?nslices_slice; destruct shp; cbn [tl length]; lia.
Qed.

Lemma slice_shape_length ix shp : idx_okb ix shp = true -> length (slice_shape ix shp) = nslices ix.
Proof.
  intros H. rewrite slice_shape_basic_length by (apply (idx_okb_basic _ _ H)).
  rewrite (idx_okb_length _ _ H). lia.
Qed.

Lemma slice_shape_nonneg ix : forall shp, nonneg_shape shp -> nonneg_shape (slice_shape ix shp).
Proof.
  induction ix as [|i ix IH]; intros shp H; cbn [slice_shape]; [exact H|].
  pose proof (nonneg_shape_tl shp H) as Ht.
  destruct i as [z|s|].
  - apply IH. exact Ht.
  - constructor; [apply slice_len_nonneg | apply IH; exact Ht].
  - constructor; [lia | apply IH; exact H].
Qed.

Lemma bdim_nonneg n m : 0 <= n -> 0 <= m -> 0 <= bdim n m.
Proof. unfold bdim. destruct (n =? 1); lia. Qed.

Lemma rbshape_nonneg a : forall b, nonneg_shape a -> nonneg_shape b -> nonneg_shape (rbshape a b).
Proof.
  induction a as [|x a IH]; intros [|y b] Ha Hb; cbn [rbshape]; try assumption.
  apply nonneg_shape_cons in Ha as [Hx Ha]. apply nonneg_shape_cons in Hb as [Hy Hb]. constructor; [apply bdim_nonneg; assumption | apply IH; assumption].
Qed.

Lemma bshape_nonneg a b : nonneg_shape a -> nonneg_shape b -> nonneg_shape (bshape a b).
Proof. intros Ha Hb. apply Forall_rev, rbshape_nonneg; apply Forall_rev; assumption. Qed.

Lemma bshape_all_nonneg l : Forall nonneg_shape l -> nonneg_shape (bshape_all l).
Proof.
  induction 1 as [|s l Hs _ IH]; cbn [bshape_all fold_right]; [constructor|].
  apply bshape_nonneg; assumption.
Qed.

Lemma transpose_shape_nonneg axes shp : nonneg_shape shp -> nonneg_shape (transpose_shape axes shp).
Proof.
  intros H. unfold transpose_shape, pickn, nonneg_shape. apply Forall_forall. intros x Hx.
  apply in_map_iff in Hx. destruct Hx as (j & <- & _). apply nth_nonneg. exact H.
Qed.

Lemma expand_shape_from_nonneg fuel : forall pos axes shp, nonneg_shape shp -> nonneg_shape (expand_shape_from pos fuel axes shp).
Proof.
  induction fuel as [|f IH]; intros pos axes shp H; cbn [expand_shape_from]; [constructor|].
  destruct (memn pos axes).
  - constructor; [lia | apply IH; exact H].
  - constructor; [|apply IH, nonneg_shape_tl, H].
    destruct shp; cbn [hd]; [lia | apply nonneg_shape_cons in H; apply H].
Qed.

Lemma set_nth_nonneg k v l : 0 <= v -> nonneg_shape l -> nonneg_shape (set_nth k v l).
Proof.
  revert k. induction l as [|x l IH]; intros k Hv H; cbn [set_nth]; [destruct k; constructor|].
  apply nonneg_shape_cons in H as [Hx H]. destruct k; constructor; try assumption. apply IH; assumption.
Qed.

Lemma insert_at_nonneg k v l : 0 <= v -> nonneg_shape l -> nonneg_shape (insert_at k v l).
Proof.
  unfold nonneg_shape, insert_at. intros Hv H. rewrite <- (firstn_skipn k l) in H.
  apply Forall_app in H. destruct H as [H1 H2]. apply Forall_app. split; [exact H1 | constructor; assumption].
Qed.

Lemma slice_src_in_bounds ix : forall shp out,
  nonneg_shape shp -> idx_okb ix shp = true -> in_bounds out (slice_shape ix shp) ->
  in_bounds (slice_src ix shp out) shp.
Proof.
  intros shp out Hn H. revert ix shp H out Hn. refine (idx_okb_ind _ _ _ _).
  - intros out _ Ho. exact Ho.
  - intros z ix n shp Hz _ IH out Hn Ho. apply nonneg_shape_cons in Hn as [Hn0 Hn'].
    split; [apply posify_range; exact Hz | apply IH; assumption].
  - intros s ix n shp Hk _ IH [|j out] Hn Ho; apply nonneg_shape_cons in Hn as [Hn0 Hn']; cbn [slice_shape in_bounds hd tl] in Ho; [tauto|].
    split; [apply sel_nth_range | apply IH]; tauto.
Qed.

Lemma aslice_congr {V} ix (a b : arr V) :
  nonneg_shape (shape a) -> idx_okb ix (shape a) = true -> aeq a b -> aeq (aslice ix a) (aslice ix b).
Proof.
  intros Hn Hok [Hs Hg]. split; cbn [aslice shape get]; [rewrite Hs; reflexivity|].
  intros out Ho. rewrite <- Hs. apply Hg. apply slice_src_in_bounds; assumption.
Qed.

(* R2: the all-colon index is the identity *)
Lemma slice_all_colon ix : forall shp, nonneg_shape shp -> length ix = length shp ->
  forallb (fun i => match i with ISlice s => pslice_eqb s colon | _ => false end) ix = true ->
  slice_shape ix shp = shp /\ forall out, in_bounds out shp -> slice_src ix shp out = out.
Proof.
  induction ix as [|i ix IH]; intros [|n shp] Hn Hl Hc; cbn [length] in Hl; try discriminate.
  - split; [reflexivity|]. intros; reflexivity.
  - cbn [forallb] in Hc. apply andb_true_iff in Hc. destruct Hc as [Hi Hc].
    destruct i as [z|s|]; try discriminate. apply pslice_eqb_eq in Hi. subst s.
    apply nonneg_shape_cons in Hn as [Hn0 Hn'].
    destruct (IH shp Hn' ltac:(lia) Hc) as [Hs Hg].
    cbn [slice_shape slice_src hd tl]. rewrite slice_len_colon by assumption. rewrite Hs.
    split; [reflexivity|]. intros [|j out] Ho; cbn [in_bounds] in Ho; [tauto|].
    cbn [hd tl]. rewrite nthZ_sel_colon by tauto. f_equal. apply Hg. tauto.
Qed.

(* normalisation of an index (normalize_slice on slices, posify on integers)
   selects the same elements.  Integers are compared after [posify_int]: [norm_index] posifies
   them, [normalize_fused] leaves them as they are, and both must fit. *)
Definition norm1_rel (n : Z) (i j : pidx) : Prop :=
  match i, j with
  | IInt z, IInt w => check_int n z = true /\ posify_int n w = posify_int n z
  | ISlice s, ISlice t => step_of s <> 0 /\ sel t n = sel s n
  | _, _ => False
  end.

Fixpoint norm_rel (shp : list Z) (ix jx : list pidx) : Prop :=
  match shp, ix, jx with
  | [], [], [] => True
  | n :: shp', i :: ix', j :: jx' => norm1_rel n i j /\ norm_rel shp' ix' jx'
  | _, _, _ => False
  end.

Lemma norm_rel_length shp : forall ix jx, norm_rel shp ix jx -> length jx = length shp.
Proof.
  induction shp as [|n shp IH]; intros [|i ix] [|j jx] H; cbn [norm_rel] in H; try tauto.
  cbn [length]. f_equal. apply (IH ix). tauto.
Qed.

Lemma sel_eq_slice_len s t n : sel t n = sel s n -> slice_len t n = slice_len s n.
Proof. intros H. rewrite <- !slice_len_length, H. reflexivity. Qed.

Lemma norm_rel_same shp : forall ix jx, norm_rel shp ix jx ->
  slice_shape jx shp = slice_shape ix shp /\
  (forall out, slice_src jx shp out = slice_src ix shp out) /\
  idx_okb ix shp = true.
Proof.
  induction shp as [|n shp IH]; intros [|i ix] [|j jx] H; cbn [norm_rel] in H; try (exfalso; tauto).
  - repeat split; reflexivity.
  - destruct H as [H1 H]. destruct (IH ix jx H) as (Hs & Hg & Hok).
    destruct i as [z|s|], j as [w|t|]; cbn [norm1_rel] in H1; try tauto; cbn [slice_shape slice_src idx_okb hd tl].
    + destruct H1 as [Hc Hp]. rewrite Hp. rewrite Hs, Hc, Hok.
      repeat split; try reflexivity. intros out. rewrite Hg. reflexivity.
    + destruct H1 as [Hk He]. rewrite (sel_eq_slice_len _ _ _ He), He, Hs, Hok.
      repeat split; try reflexivity.
      * intros out. rewrite Hg. reflexivity.
      * apply andb_true_iff. split; [lia | reflexivity].
Qed.

Lemma fuse_slice_ss_step a b c :
  step_of a <> 0 -> step_of b <> 0 -> fuse_slice_ss a b = Some c -> step_of c <> 0.
Proof.
  intros Ha Hb H. unfold fuse_slice_ss in H.
  destruct (normalize_slice_for_fusion a) as [[[a0 ast] k]|] eqn:Ea; [|discriminate].
  destruct (normalize_slice_for_fusion b) as [[[b0 bst] j]|] eqn:Eb; [|discriminate].
  apply nff_inv in Ea. destruct Ea as (_ & _ & Hk & _ & Hk0 & _).
  apply nff_inv in Eb. destruct Eb as (_ & _ & Hj & _ & Hj0 & _).
  injection H as <-. unfold step_of at 1. cbn [s_step].
  destruct (k * j =? 1) eqn:E; nia.
Qed.

Lemma fuse_slice_si_nonneg a i p : fuse_slice_si a i = Some p -> 0 <= i.
Proof.
  unfold fuse_slice_si. destruct (normalize_slice_for_fusion a) as [[[a0 ast] k]|]; [|discriminate].
  destruct (i <? 0) eqn:E; [discriminate|]. intros _. lia.
Qed.

(* one axis: a slice followed by an integer *)
Lemma fuse_si_axis s w p n :
  0 <= n -> step_of s <> 0 -> check_int (slice_len s n) w = true -> fuse_slice_si s w = Some p ->
  posify_int (slice_len s n) w = w /\ posify_int n p = p /\ check_int n p = true /\ nthZ (sel s n) w = p.
Proof.
  intros Hn Hk Hw Ep.
  pose proof (fuse_slice_si_nonneg s w p Ep) as Hw0. pose proof (posify_range _ _ Hw) as Hwr.
  assert (posify_int (slice_len s n) w = w) as Hpw by (unfold posify_int; destruct (w <? 0) eqn:E; lia).
  rewrite Hpw in Hwr.
  pose proof (sel_nth_range s n w Hn Hk Hwr) as Hpr. unfold nthZ in *.
  rewrite (fuse_slice_si_exact s w p n Hn Hk Ep Hwr) in *.
  split; [exact Hpw|]. unfold posify_int, check_int. destruct (p <? 0) eqn:E; repeat split; lia.
Qed.

(* one axis: [u] selects from the axis what [t] selects from the selection of [s] *)
Lemma pick_sel_axis s t u n : pick (sel s n) (sel t (slice_len s n)) = sel u n ->
  slice_len u n = slice_len t (slice_len s n) /\
  forall j, 0 <= j < slice_len u n -> nthZ (sel u n) j = nthZ (sel s n) (nthZ (sel t (slice_len s n)) j).
Proof.
  intros Hu. assert (slice_len u n = slice_len t (slice_len s n)) as Hlen.
  { rewrite <- (slice_len_length u n), <- Hu, pick_length. apply slice_len_length. }
  split; [exact Hlen|]. intros j Hj. unfold nthZ. rewrite <- Hu. apply pick_nth.
  pose proof (slice_len_length t (slice_len s n)). lia.
Qed.

(* R1: fuse_tuple on N axes.  [a] indexes an array of shape [shp], [b] indexes
   the result; both are valid basic indices (integers may occur in both). *)
Lemma fuse_tuple_nd a shp : idx_okb a shp = true -> forall b c,
  nonneg_shape shp -> idx_okb b (slice_shape a shp) = true ->
  fuse_tuple a b = Some c ->
  slice_shape c shp = slice_shape b (slice_shape a shp) /\
  (forall out, in_bounds out (slice_shape c shp) ->
     slice_src c shp out = slice_src a shp (slice_src b (slice_shape a shp) out)) /\
  idx_okb c shp = true.
Proof.
  revert a shp. refine (idx_okb_ind _ _ _ _).
  - intros b c _ Hb H. destruct b as [|[] b]; try discriminate.
    injection H as <-. repeat split; reflexivity.
  - (* integer in a: passes through, consumes nothing of b *)
    intros z a n shp Hz _ IH b c Hn Hb H. apply nonneg_shape_cons in Hn as [Hn0 Hn'].
    cbn [fuse_tuple] in H. destruct (fuse_tuple a b) as [c0|] eqn:Ec; [|discriminate]. injection H as <-.
    destruct (IH b c0) as (Hs & Hg & Hok); [assumption..|].
    cbn [slice_shape slice_src idx_okb hd tl]. rewrite Hz, Hok. repeat split; try assumption.
    intros out Ho. rewrite Hg by exact Ho. reflexivity.
  - (* slice in a: fused with the next entry of b *)
    intros s a n shp Hks _ IH b c Hn Hb H. apply nonneg_shape_cons in Hn as [Hn0 Hn'].
    cbn [slice_shape hd tl] in Hb.
    destruct b as [|[w|t|] b]; cbn [idx_okb] in Hb; try discriminate;
      apply andb_true_iff in Hb; destruct Hb as [Hbj Hb];
      cbn [fuse_tuple length skip_nones app fuse_elem] in H.
    + destruct (fuse_slice_si s w) as [p|] eqn:Ep; [|discriminate]. cbn [option_map] in H.
      destruct (fuse_tuple a b) as [c0|] eqn:Ec; [|discriminate]. injection H as <-.
      destruct (IH b c0 Hn' Hb Ec) as (Hs & Hg & Hok).
      destruct (fuse_si_axis s w p n Hn0 Hks Hbj Ep) as (Hpw & Hpp & Hcp & Hp).
      cbn [slice_shape slice_src idx_okb hd tl]. rewrite Hpw, Hpp, Hp, Hcp, Hok.
      repeat split; try assumption. intros out Ho. rewrite Hg by exact Ho. reflexivity.
    + destruct (fuse_slice_ss s t) as [u|] eqn:Eu; [|discriminate]. cbn [option_map] in H.
      destruct (fuse_tuple a b) as [c0|] eqn:Ec; [|discriminate]. injection H as <-.
      destruct (IH b c0 Hn' Hb Ec) as (Hs & Hg & Hok).
      assert (step_of t <> 0) as Hkt by lia. pose proof (fuse_slice_ss_step s t u Hks Hkt Eu) as Hku.
      destruct (pick_sel_axis s t u n (fuse_slice_ss_exact s t u n Hn0 Hks Hkt Eu)) as [Hlen Hu].
      cbn [slice_shape slice_src idx_okb hd tl]. rewrite Hlen, Hs, Hok.
      repeat split; try reflexivity; [|apply andb_true_iff; split; [lia | reflexivity]].
      intros [|j out] Ho; cbn [in_bounds] in Ho; [tauto|]. destruct Ho as [Hj Ho].
      cbn [hd tl]. rewrite Hg by (rewrite Hs; exact Ho). rewrite Hu by lia. reflexivity.
Qed.

Lemma is_permb_spec axes n :
  is_permb axes n = true ->
  length axes = n /\ NoDup axes /\ (forall a, In a axes <-> (a < n)%nat).
Proof.
  unfold is_permb. intros H. apply andb_true_iff in H. destruct H as [Hl Hs].
  apply Nat.eqb_eq in Hl. rewrite forallb_forall in Hs.
  assert (incl (seq 0 n) axes) as Hincl.
  { intros d Hd. specialize (Hs d Hd). apply existsb_exists in Hs. destruct Hs as (x & Hx & E).
    apply Nat.eqb_eq in E. subst x. exact Hx. }
  assert (length axes <= length (seq 0 n))%nat as Hle by (rewrite seq_length; lia).
  split; [exact Hl|]. split.
  - apply (NoDup_incl_NoDup (seq_NoDup n 0) Hle Hincl).
  - intros a. split.
    + intros Ha. pose proof (NoDup_length_incl (seq_NoDup n 0) Hle Hincl a Ha) as Hin.
      apply in_seq in Hin. lia.
    + intros Ha. apply Hincl. apply in_seq. lia.
Qed.

Lemma index_of_In d l : In d l -> (index_of d l < length l)%nat /\ nth (index_of d l) l O = d.
Proof.
  induction l as [|x l IH]; intros H; [destruct H|].
  cbn [index_of]. destruct (Nat.eqb x d) eqn:E.
  - apply Nat.eqb_eq in E. subst x. cbn [length nth]. split; [lia | reflexivity].
  - apply Nat.eqb_neq in E. destruct H as [H|H]; [congruence|].
    destruct (IH H) as [H1 H2]. cbn [length nth]. split; [lia | exact H2].
Qed.

Lemma index_of_nth l : forall k, NoDup l -> (k < length l)%nat -> index_of (nth k l O) l = k.
Proof.
  induction l as [|x l IH]; intros k Hnd Hk; cbn [length] in Hk; [lia|].
  inversion Hnd as [|x0 l0 Hx Hnd']; subst.
  destruct k as [|k]; cbn [nth index_of].
  - rewrite Nat.eqb_refl. reflexivity.
  - destruct (Nat.eqb x (nth k l O)) eqn:E.
    + apply Nat.eqb_eq in E. exfalso. apply Hx. rewrite E. apply nth_In. lia.
    + f_equal. apply IH; [assumption | lia].
Qed.

Lemma pickn_length {A} (d : A) l js : length (pickn d l js) = length js.
Proof. unfold pickn. apply map_length. Qed.

Lemma map_nth_lt {A B} (f : A -> B) l k d d' : (k < length l)%nat -> nth k (map f l) d' = f (nth k l d).
Proof. intros H. rewrite (nth_indep _ d' (f d)) by (rewrite map_length; exact H). apply map_nth. Qed.

Lemma pickn_nth {A} (d : A) l js k :
  (k < length js)%nat -> nth k (pickn d l js) d = nth (nth k js O) l d.
Proof. apply (map_nth_lt (fun j => nth j l d)). Qed.

Lemma forallb_pickn {A} (p : A -> bool) d l js : p d = true -> forallb p l = true -> forallb p (pickn d l js) = true.
Proof.
  intros Hd Hl. apply forallb_forall. intros x Hx. apply in_map_iff in Hx. destruct Hx as (j & <- & _).
  destruct (nth_in_or_default j l d) as [Hin | ->]; [|exact Hd]. rewrite forallb_forall in Hl. apply Hl, Hin.
Qed.

Lemma pickn_seq {A} (d : A) l : pickn d l (seq 0 (length l)) = l.
Proof.
  apply (nth_ext _ _ d d).
  - rewrite pickn_length, seq_length. reflexivity.
  - intros k Hk. rewrite pickn_length, seq_length in Hk.
    rewrite pickn_nth by (rewrite seq_length; exact Hk). rewrite seq_nth by exact Hk. reflexivity.
Qed.

Lemma inv_axes_length axes : length (inv_axes axes) = length axes.
Proof. unfold inv_axes. rewrite map_length, seq_length. reflexivity. Qed.

Lemma inv_axes_nth axes d : (d < length axes)%nat -> nth d (inv_axes axes) O = index_of d axes.
Proof.
  intros H. unfold inv_axes. rewrite (map_nth_lt _ _ _ O) by (rewrite seq_length; exact H).
  rewrite seq_nth by exact H. reflexivity.
Qed.

Lemma pickn_inv_nth {A} (d0 : A) l axes d :
  (d < length axes)%nat -> nth d (pickn d0 l (inv_axes axes)) d0 = nth (index_of d axes) l d0.
Proof. intros H. rewrite pickn_nth, inv_axes_nth by (rewrite ?inv_axes_length; exact H). reflexivity. Qed.

Section Perm.
  Variable axes : list nat.
  Variable n : nat.
  Hypothesis Hperm : is_permb axes n = true.

  Lemma perm_len : length axes = n. Proof. apply (is_permb_spec _ _ Hperm). Qed.
  Lemma perm_nodup : NoDup axes. Proof. apply (is_permb_spec _ _ Hperm). Qed.
  Lemma perm_in a : In a axes <-> (a < n)%nat. Proof. apply (is_permb_spec _ _ Hperm). Qed.

  Lemma perm_index_lt d : (d < n)%nat -> (index_of d axes < n)%nat.
  Proof. intros H. apply perm_in in H. apply index_of_In in H. rewrite perm_len in H. tauto. Qed.

  Lemma perm_nth_index d : (d < n)%nat -> nth (index_of d axes) axes O = d.
  Proof. intros H. apply index_of_In. apply perm_in. exact H. Qed.

  Lemma perm_index_nth k : (k < n)%nat -> index_of (nth k axes O) axes = k.
  Proof. intros H. apply index_of_nth; [apply perm_nodup | rewrite perm_len; exact H]. Qed.

  Lemma perm_nth_lt k : (k < n)%nat -> (nth k axes O < n)%nat.
  Proof. intros H. apply perm_in. apply nth_In. rewrite perm_len. exact H. Qed.

  Lemma pickn_inv_l {A} (d : A) l : length l = n -> pickn d (pickn d l axes) (inv_axes axes) = l.
  Proof.
    intros Hl. apply (nth_ext _ _ d d).
    - rewrite pickn_length, inv_axes_length, perm_len. symmetry. exact Hl.
    - intros k Hk. rewrite pickn_length, inv_axes_length, perm_len in Hk.
      rewrite pickn_inv_nth by (rewrite perm_len; exact Hk).
      rewrite pickn_nth by (rewrite perm_len; apply perm_index_lt; exact Hk).
      rewrite perm_nth_index by exact Hk. reflexivity.
  Qed.

  Lemma pickn_inv_r {A} (d : A) l : length l = n -> pickn d (pickn d l (inv_axes axes)) axes = l.
  Proof.
    intros Hl. apply (nth_ext _ _ d d).
    - rewrite pickn_length, perm_len. symmetry. exact Hl.
    - intros k Hk. rewrite pickn_length, perm_len in Hk.
      rewrite pickn_nth by (rewrite perm_len; exact Hk).
      rewrite pickn_nth by (rewrite inv_axes_length, perm_len; apply perm_nth_lt; exact Hk).
      rewrite inv_axes_nth by (rewrite perm_len; apply perm_nth_lt; exact Hk).
      rewrite perm_index_nth by exact Hk. reflexivity.
  Qed.

  Lemma transpose_src_in_bounds shp out :
    length shp = n -> in_bounds out (transpose_shape axes shp) -> in_bounds (transpose_src axes out) shp.
  Proof.
    unfold transpose_shape, transpose_src. intros Hl Ho.
    pose proof (in_bounds_length _ _ Ho) as Hlo. rewrite pickn_length, perm_len in Hlo.
    apply in_bounds_of_nth.
    - rewrite pickn_length, inv_axes_length, perm_len. symmetry. exact Hl.
    - intros k Hk. rewrite Hl in Hk.
      rewrite pickn_inv_nth by (rewrite perm_len; exact Hk).
      pose proof (perm_index_lt k Hk) as Hj.
      pose proof (in_bounds_nth _ _ (index_of k axes) Ho) as Hb.
      rewrite pickn_length, perm_len in Hb. specialize (Hb Hj).
      rewrite pickn_nth in Hb by (rewrite perm_len; exact Hj).
      rewrite perm_nth_index in Hb by exact Hk. exact Hb.
  Qed.
End Perm.

Lemma atranspose_congr {V} axes (a b : arr V) :
  is_permb axes (length (shape a)) = true -> aeq a b -> aeq (atranspose axes a) (atranspose axes b).
Proof.
  intros Hp [Hs Hg]. split; cbn [atranspose shape get]; [rewrite Hs; reflexivity|].
  intros out Ho. apply Hg. apply (transpose_src_in_bounds axes _ Hp); [reflexivity | exact Ho].
Qed.

(* R5: composition of transpositions *)
Lemma pickn_compose {A} (d : A) l p q :
  Forall (fun j => (j < length p)%nat) q -> pickn d (pickn d l p) q = pickn d l (pickn O p q).
Proof.
  intros H. change (pickn d l (pickn O p q)) with (map (fun j => nth j l d) (map (fun j => nth j p O) q)).
  rewrite map_map. unfold pickn at 1. apply map_ext_in. intros j Hj.
  rewrite Forall_forall in H. specialize (H j Hj).
  apply (pickn_nth d l p j H).
Qed.

Lemma index_of_pickn p q d :
  NoDup p -> In d p -> Forall (fun j => (j < length p)%nat) q ->
  index_of d (pickn O p q) = index_of (index_of d p) q.
Proof.
  intros Hnd Hd. induction q as [|x q IH]; intros Hq; [reflexivity|].
  inversion Hq as [|x0 q0 Hx Hq']; subst.
  cbn [pickn map index_of]. fold (pickn O p q).
  destruct (index_of_In d p Hd) as [Hlt Hnth].
  destruct (Nat.eqb (nth x p O) d) eqn:E1, (Nat.eqb x (index_of d p)) eqn:E2; try reflexivity.
  - apply Nat.eqb_eq in E1. apply Nat.eqb_neq in E2. exfalso. apply E2.
    rewrite <- E1. symmetry. apply index_of_nth; assumption.
  - apply Nat.eqb_neq in E1. apply Nat.eqb_eq in E2. exfalso. apply E1. rewrite E2. exact Hnth.
  - f_equal. apply IH. exact Hq'.
Qed.

Lemma is_permb_compose p q n : is_permb p n = true -> is_permb q n = true -> is_permb (pickn O p q) n = true.
Proof.
  intros Hp Hq. unfold is_permb. apply andb_true_iff. split.
  - apply Nat.eqb_eq. rewrite pickn_length. apply (perm_len q n Hq).
  - apply forallb_forall. intros d Hd. apply in_seq in Hd. apply existsb_exists.
    exists d. split; [|apply Nat.eqb_refl].
    assert (d < n)%nat as Hdn by lia.
    (* d = p[q[k]] with k = index of (index of d in p) in q *)
    pose proof (perm_index_lt p n Hp d Hdn) as H1.
    pose proof (perm_index_lt q n Hq _ H1) as H2.
    set (k := index_of (index_of d p) q) in *.
    replace d with (nth k (pickn O p q) O).
    + apply nth_In. rewrite pickn_length, (perm_len q n Hq). exact H2.
    + rewrite pickn_nth by (rewrite (perm_len q n Hq); exact H2).
      unfold k. rewrite (perm_nth_index q n Hq) by exact H1. apply (perm_nth_index p n Hp). exact Hdn.
Qed.

Lemma transpose_src_compose p q n out :
  is_permb p n = true -> is_permb q n = true -> length out = n ->
  transpose_src p (transpose_src q out) = transpose_src (pickn O p q) out.
Proof.
  intros Hp Hq Hl. unfold transpose_src.
  apply (nth_ext _ _ 0 0).
  - rewrite !pickn_length, !inv_axes_length, pickn_length, (perm_len p n Hp), (perm_len q n Hq). reflexivity.
  - intros d Hd. rewrite pickn_length, inv_axes_length, (perm_len p n Hp) in Hd.
    pose proof (perm_index_lt p n Hp d Hd) as H1.
    rewrite pickn_inv_nth by (rewrite (perm_len p n Hp); exact Hd).
    rewrite pickn_inv_nth by (rewrite (perm_len q n Hq); exact H1).
    rewrite pickn_inv_nth by (rewrite pickn_length, (perm_len q n Hq); exact Hd).
    rewrite index_of_pickn; [reflexivity | apply (perm_nodup p n Hp) | apply (perm_in p n Hp); exact Hd |].
    apply Forall_forall. intros j Hj. rewrite (perm_len p n Hp). apply (perm_in q n Hq). exact Hj.
Qed.

Lemma is_permb_seq n : is_permb (seq 0 n) n = true.
Proof.
  unfold is_permb. rewrite seq_length, Nat.eqb_refl. cbn [andb].
  apply forallb_forall. intros d Hd. apply existsb_exists. exists d. split; [exact Hd | apply Nat.eqb_refl].
Qed.

Lemma inv_axes_seq n : inv_axes (seq 0 n) = seq 0 n.
Proof.
  apply (nth_ext _ _ O O).
  - rewrite inv_axes_length. reflexivity.
  - intros d Hd. rewrite inv_axes_length, seq_length in Hd.
    rewrite inv_axes_nth by (rewrite seq_length; exact Hd).
    rewrite seq_nth by exact Hd. cbn [plus].
    pose proof (index_of_nth (seq 0 n) d (seq_NoDup n 0)) as H. rewrite seq_length in H.
    specialize (H Hd). rewrite seq_nth in H by exact Hd. exact H.
Qed.

(* Broadcasting as the statements use it.  [compat sa suf]: axis by axis the size in [sa] is 1 or
   that of [suf]; [bcast_into sa o]: [sa] is compatible with a suffix of [o] (missing leading axes
   count as stretched).  [bcast_intob] decides it ([bcast_intob_spec]). *)
Fixpoint compat (sa suf : list Z) : Prop :=
  match sa, suf with
  | [], [] => True
  | n :: sa', m :: suf' => (n = 1 \/ n = m) /\ compat sa' suf'
  | _, _ => False
  end.

Definition bcast_into (sa o : list Z) : Prop := exists pre suf, o = pre ++ suf /\ compat sa suf.

Lemma compat_length sa : forall suf, compat sa suf -> length sa = length suf.
Proof.
  induction sa as [|n sa IH]; intros [|m suf] H; cbn [compat] in H; try (exfalso; tauto); [reflexivity|].
  cbn [length]. f_equal. apply IH. tauto.
Qed.

Lemma compat_app a : forall b a' b', compat a b -> compat a' b' -> compat (a ++ a') (b ++ b').
Proof.
  induction a as [|n a IH]; intros [|m b] a' b' H H'; cbn [compat] in H; try (exfalso; tauto).
  - exact H'.
  - cbn [app compat]. split; [tauto|]. apply IH; tauto.
Qed.

Lemma compat_rev a : forall b, compat a b -> compat (rev a) (rev b).
Proof.
  induction a as [|n a IH]; intros [|m b] H; cbn [compat] in H; try (exfalso; tauto); [exact I|].
  cbn [rev]. apply compat_app; [apply IH; tauto|]. cbn [compat]. tauto.
Qed.

Lemma rbcast_intob_split ra : forall ro, rbcast_intob ra ro = true ->
  exists rsuf rpre, ro = rsuf ++ rpre /\ compat ra rsuf.
Proof.
  induction ra as [|n ra IH]; intros ro H.
  - exists [], ro. split; [reflexivity | exact I].
  - destruct ro as [|m ro]; cbn [rbcast_intob] in H; [discriminate|].
    apply andb_true_iff in H. destruct H as [H1 H2].
    destruct (IH ro H2) as (rsuf & rpre & -> & Hc).
    exists (m :: rsuf), rpre. split; [reflexivity|]. cbn [compat]. split; [lia | exact Hc].
Qed.

Lemma bcast_intob_spec sa o : bcast_intob sa o = true -> bcast_into sa o.
Proof.
  unfold bcast_intob. intros H. destruct (rbcast_intob_split _ _ H) as (rsuf & rpre & Ho & Hc).
  exists (rev rpre), (rev rsuf). split.
  - rewrite <- rev_app_distr, <- Ho, rev_involutive. reflexivity.
  - rewrite <- (rev_involutive sa). apply compat_rev. exact Hc.
Qed.

Lemma firstn_app_l {A} (a b : list A) : firstn (length a) (a ++ b) = a.
Proof. rewrite firstn_app, Nat.sub_diag, firstn_all. apply app_nil_r. Qed.

Lemma skipn_app_l {A} (a b : list A) : skipn (length a) (a ++ b) = b.
Proof. rewrite skipn_app, skipn_all, Nat.sub_diag. reflexivity. Qed.

Lemma lastn_app {A} (pre suf : list A) k : length suf = k -> lastn k (pre ++ suf) = suf.
Proof.
  intros H. unfold lastn. rewrite app_length, H.
  replace (length pre + k - k)%nat with (length pre + 0)%nat by lia.
  rewrite skipn_app, Nat.add_0_r, skipn_all, Nat.sub_diag. reflexivity.
Qed.

Lemma lastn_skipn {A} (l : list A) p k : length l = (p + k)%nat -> lastn k l = skipn p l.
Proof. intros H. unfold lastn. f_equal. lia. Qed.

Lemma set_nth_length k v l : length (set_nth k v l) = length l.
Proof. revert k. induction l as [|x l IH]; intros [|k]; cbn [set_nth length]; try reflexivity. rewrite IH. reflexivity. Qed.

Lemma nth_set_nth_eq k v : forall l d, (k < length l)%nat -> nth k (set_nth k v l) d = v.
Proof.
  induction k as [|k IH]; intros [|x l] d H; cbn [length] in H; try lia; cbn [set_nth nth]; [reflexivity|].
  apply IH. lia.
Qed.

Lemma nth_set_nth_neq k j v : forall l d, k <> j -> nth j (set_nth k v l) d = nth j l d.
Proof.
  revert j. induction k as [|k IH]; intros j [|x l] d H; cbn [set_nth]; try reflexivity.
  - destruct j; [congruence | reflexivity].
  - destruct j; [reflexivity|]. cbn [nth]. apply IH. congruence.
Qed.

Lemma set_nth_set_nth k v w l : set_nth k v (set_nth k w l) = set_nth k v l.
Proof. revert k. induction l as [|x l IH]; intros [|k]; cbn [set_nth]; try reflexivity. rewrite IH. reflexivity. Qed.

Lemma set_nth_same k l d : set_nth k (nth k l d) l = l.
Proof. revert k. induction l as [|x l IH]; intros [|k]; cbn [set_nth nth]; try reflexivity. rewrite IH. reflexivity. Qed.

Lemma set_nth_mid k P x Q v : length P = k -> set_nth k v (P ++ x :: Q) = P ++ v :: Q.
Proof. intros <-. induction P as [|y P IH]; cbn [length app set_nth]; [reflexivity | f_equal; exact IH]. Qed.

Lemma insert_at_length {A} k (v : A) l : length (insert_at k v l) = S (length l).
Proof. unfold insert_at. rewrite app_length. cbn [length]. rewrite <- (firstn_skipn k l) at 3. rewrite app_length. lia. Qed.

Lemma insert_at_mid {A} k (P Q : list A) v : length P = k -> insert_at k v (P ++ Q) = P ++ v :: Q.
Proof. intros <-. unfold insert_at. rewrite firstn_app_l, skipn_app_l. reflexivity. Qed.

Lemma remove_at_mid {A} k (P Q : list A) v : length P = k -> remove_at k (P ++ v :: Q) = P ++ Q.
Proof.
  intros <-. unfold remove_at. rewrite firstn_app_l. f_equal.
  induction P as [|y P IH]; cbn [length app skipn]; [reflexivity | exact IH].
Qed.

Lemma mask_in_bounds sa : forall suf out, compat sa suf -> in_bounds out suf -> in_bounds (mask sa out) sa.
Proof.
  induction sa as [|n sa IH]; intros [|m suf] [|i out] Hc Ho; cbn [compat in_bounds] in *; try (exfalso; tauto).
  - exact I.
  - cbn [mask in_bounds]. split; [|apply (IH suf); tauto].
    destruct (n =? 1) eqn:E; lia.
Qed.

Lemma bidx_in_bounds sa o out : bcast_into sa o -> in_bounds out o -> in_bounds (bidx sa out) sa.
Proof.
  intros (pre & suf & -> & Hc) Ho.
  destruct (in_bounds_cut _ _ _ Ho) as (opre & osuf & -> & _ & H2).
  unfold bidx. rewrite lastn_app by (rewrite (in_bounds_length _ _ H2); symmetry; apply (compat_length _ _ Hc)).
  apply (mask_in_bounds sa suf); assumption.
Qed.

Lemma mask_length sa : forall out, length sa = length out -> length (mask sa out) = length sa.
Proof.
  induction sa as [|n sa IH]; intros [|i out] H; cbn [length] in H; try discriminate; [reflexivity|].
  cbn [mask length]. f_equal. apply IH. lia.
Qed.

Lemma mask_nth sa : forall out d, length sa = length out ->
  nth d (mask sa out) 0 = if nth d sa 0 =? 1 then 0 else nth d out 0.
Proof.
  induction sa as [|n sa IH]; intros [|i out] d H; cbn [length] in H; try discriminate.
  - destruct d; reflexivity.
  - destruct d; cbn [mask nth]; [reflexivity|]. apply IH. lia.
Qed.

Lemma lastn_full {A} (l : list A) : lastn (length l) l = l.
Proof. unfold lastn. rewrite Nat.sub_diag. reflexivity. Qed.

Lemma bidx_full sa out : length out = length sa -> bidx sa out = mask sa out.
Proof. intros H. unfold bidx. rewrite <- H, lastn_full. reflexivity. Qed.

Lemma mask_transpose axes n sa out :
  is_permb axes n = true -> length sa = n -> length out = n ->
  mask sa (transpose_src axes out) = transpose_src axes (mask (transpose_shape axes sa) out).
Proof.
  intros Hp Hsa Hout. unfold transpose_src, transpose_shape.
  assert (length (pickn 0 out (inv_axes axes)) = n) as H1 by (rewrite pickn_length, inv_axes_length; apply (perm_len axes n Hp)).
  assert (length (pickn 0 sa axes) = n) as H2 by (rewrite pickn_length; apply (perm_len axes n Hp)).
  apply (nth_ext _ _ 0 0).
  - rewrite mask_length by lia. rewrite pickn_length, inv_axes_length, (perm_len axes n Hp). exact Hsa.
  - intros d Hd. rewrite mask_length in Hd by lia. rewrite Hsa in Hd.
    pose proof (perm_index_lt axes n Hp d Hd) as Hk.
    rewrite mask_nth by lia.
    rewrite !pickn_inv_nth by (rewrite (perm_len axes n Hp); exact Hd).
    rewrite mask_nth by lia.
    rewrite pickn_nth by (rewrite (perm_len axes n Hp); exact Hk).
    rewrite (perm_nth_index axes n Hp) by exact Hd. reflexivity.
Qed.

Lemma aelemwise_args_congr {V} (o out : list Z) : forall (A B : list (arr V)),
  in_bounds out o -> Forall2 aeq A B -> Forall (fun a => bcast_into (shape a) o) A ->
  map (fun a => get a (bidx (shape a) out)) A = map (fun a => get a (bidx (shape a) out)) B.
Proof.
  intros A B Ho H. induction H as [|a b A B [Hs Hg] _ IH]; intros Hb; [reflexivity|].
  inversion Hb as [|a0 A0 Ha Hb']; subst. cbn [map]. f_equal.
  - rewrite <- Hs. apply Hg. apply (bidx_in_bounds _ o); assumption.
  - apply IH. exact Hb'.
Qed.

Lemma Forall2_aeq_shapes {V} (A B : list (arr V)) : Forall2 aeq A B -> map shape A = map shape B.
Proof. intros H. induction H as [|a b A B [Hs _] _ IH]; [reflexivity|]. cbn [map]. rewrite Hs, IH. reflexivity. Qed.

Lemma Forall2_aeq_sym {V} (A B : list (arr V)) : Forall2 aeq A B -> Forall2 aeq B A.
Proof. induction 1; constructor; [apply aeq_sym; assumption | assumption]. Qed.

Lemma nth_aeq {V} (l l' : list (arr V)) : Forall2 aeq l l' -> forall k d d', (k < length l)%nat -> aeq (nth k l d) (nth k l' d').
Proof.
  induction 1 as [|x x' l l' Hx _ IH]; intros k d d' Hk; cbn [length] in Hk; [lia|].
  destruct k as [|k]; cbn [nth]; [exact Hx | apply IH; lia].
Qed.

Lemma aelemwise_congr {V} (f : list V -> V) (A B : list (arr V)) :
  Forall2 aeq A B -> Forall (fun a => bcast_into (shape a) (bshape_all (map shape A))) A ->
  aeq (aelemwise f A) (aelemwise f B).
Proof.
  intros H Hb. split; cbn [aelemwise shape get].
  - rewrite (Forall2_aeq_shapes A B H). reflexivity.
  - intros out Ho. f_equal. apply (aelemwise_args_congr (bshape_all (map shape A))); assumption.
Qed.

Lemma abroadcast_to_congr {V} (a b : arr V) shp :
  aeq a b -> bcast_into (shape a) shp -> aeq (abroadcast_to shp a) (abroadcast_to shp b).
Proof.
  intros [Hs Hg] Hb. split; cbn [abroadcast_to shape get]; [reflexivity|].
  intros out Ho. rewrite <- Hs. apply Hg. apply (bidx_in_bounds _ shp); assumption.
Qed.

(* slicing distributes over a split of the axes *)
Lemma slice_shape_app ix1 ix2 s2 : basicb ix1 = true -> forall s1, length ix1 = length s1 ->
  slice_shape (ix1 ++ ix2) (s1 ++ s2) = slice_shape ix1 s1 ++ slice_shape ix2 s2.
Proof.
  revert ix1. refine (basicb_ind _ _ _ _).
  - intros [|] Hl; [reflexivity | discriminate].
  - intros z ix1 _ IH [|n s1] Hl; [discriminate|]. apply IH. cbn [length] in Hl. lia.
  - intros s ix1 _ IH [|n s1] Hl; [discriminate|]. cbn [app slice_shape hd tl]. f_equal. apply IH. cbn [length] in Hl. lia.
Qed.

Lemma slice_src_app ix1 ix2 s2 : basicb ix1 = true -> forall s1 out, length ix1 = length s1 ->
  slice_src (ix1 ++ ix2) (s1 ++ s2) out =
  slice_src ix1 s1 (firstn (nslices ix1) out) ++ slice_src ix2 s2 (skipn (nslices ix1) out).
Proof.
  revert ix1. refine (basicb_ind _ _ _ _).
  - intros [|] out Hl; [reflexivity | discriminate].
  - intros z ix1 _ IH [|n s1] out Hl; [discriminate|]. cbn [app slice_src hd tl]. f_equal. apply IH. cbn [length] in Hl. lia.
  - intros s ix1 _ IH [|n s1] out Hl; [discriminate|]. rewrite nslices_slice. cbn [app slice_src hd tl].
    rewrite IH by (cbn [length] in Hl; lia).
    destruct out as [|j out]; cbn [firstn skipn hd tl app]; [|reflexivity].
    rewrite firstn_nil, skipn_nil. reflexivity.
Qed.

Lemma slice_src_length ix : basicb ix = true -> forall shp out,
  length (slice_src ix shp out) = (length ix + (length out - nslices ix))%nat.
Proof.
  revert ix. refine (basicb_ind _ _ _ _).
  - intros. cbn. lia.
  - intros z ix _ IH shp out. cbn [slice_src length]. rewrite IH. reflexivity.
  - intros s ix _ IH shp out. rewrite nslices_slice. cbn [slice_src length]. rewrite IH.
    destruct out; cbn [tl length]; lia.
Qed.

Lemma idx_okb_app ix1 : forall s1 ix2 s2, length ix1 = length s1 ->
  idx_okb (ix1 ++ ix2) (s1 ++ s2) = idx_okb ix1 s1 && idx_okb ix2 s2.
Proof.
  induction ix1 as [|i ix1 IH]; intros [|n s1] ix2 s2 Hl; cbn [length] in Hl; try discriminate; [reflexivity|].
  cbn [app idx_okb]. destruct i; try reflexivity; rewrite IH by lia; apply andb_assoc.
Qed.

Lemma idx_okb_rev ix shp : idx_okb ix shp = true -> idx_okb (rev ix) (rev shp) = true.
Proof.
  revert ix shp. refine (idx_okb_ind _ _ _ _); [reflexivity | |]; intros ? ix n shp Hi Hok IH; cbn [rev];
    rewrite idx_okb_app, IH by (rewrite !rev_length; apply idx_okb_length; exact Hok);
    cbn [idx_okb]; [rewrite Hi; reflexivity | lia].
Qed.

Lemma idx_okb_split ix pre suf : idx_okb ix (pre ++ suf) = true ->
  exists ipre isuf, ix = ipre ++ isuf /\ idx_okb ipre pre = true /\ idx_okb isuf suf = true.
Proof.
  intros H. pose proof (idx_okb_length _ _ H) as Hl. rewrite app_length in Hl.
  exists (firstn (length pre) ix), (skipn (length pre) ix).
  split; [symmetry; apply firstn_skipn|].
  rewrite <- (firstn_skipn (length pre) ix) in H. rewrite idx_okb_app in H by (rewrite firstn_length; lia).
  apply andb_true_iff in H. exact H.
Qed.

(* Slicing through a broadcast.  [jxs] on an operand of shape [sa] selects what [ixs] selects on
   the result axes [osuf] that [sa] broadcasts into: the sliced operand broadcasts into the sliced result, and reads the
   same elements.  It is enough to check this axis by axis. *)
Definition bslices (ixs : list pidx) (osuf : list Z) (jxs : list pidx) (sa : list Z) : Prop :=
  compat (slice_shape jxs sa) (slice_shape ixs osuf) /\
  forall out, in_bounds out (slice_shape ixs osuf) ->
    mask sa (slice_src ixs osuf out) = slice_src jxs sa (mask (slice_shape jxs sa) out).

Lemma bslices_cons i m j n ixs osuf jxs sa : i <> INone ->
  bslices [i] [m] [j] [n] -> bslices ixs osuf jxs sa -> bslices (i :: ixs) (m :: osuf) (j :: jxs) (n :: sa).
Proof.
  intros Hi [Hc1 Hg1] [Hc Hg].
  destruct i as [z|s|]; [| |congruence]; destruct j as [z'|s'|];
    cbn [slice_shape slice_src hd tl compat] in Hc1, Hg1; try (exfalso; tauto); unfold bslices; cbn [slice_shape slice_src hd tl compat].
  - (* an integer on both sides *)
    split; [exact Hc|]. intros out Ho. specialize (Hg1 [] I). cbn [mask] in Hg1 |- *. injection Hg1 as Hg1.
    rewrite Hg1, (Hg out Ho). reflexivity.
  - (* a slice on both sides *)
    split; [tauto|]. intros [|k out] Ho; cbn [in_bounds] in Ho; [destruct Ho|]. destruct Ho as [Hk Ho].
    specialize (Hg1 [k] (conj Hk I)). cbn [mask hd tl] in Hg1 |- *. injection Hg1 as Hg1.
    rewrite Hg1, (Hg out Ho). reflexivity.
Qed.

(* one axis: an operand axis of the result's size is sliced as the result is *)
Lemma bslices_same s m : step_of s <> 0 -> bslices [ISlice s] [m] [ISlice s] [m].
Proof.
  intros Hk. split; [cbn [slice_shape hd tl compat]; tauto|].
  intros [|j [|j' out]] Ho; cbn [slice_shape hd tl in_bounds] in Ho; try tauto. destruct Ho as [Hj _].
  cbn [slice_shape slice_src mask hd tl].
  (* where the sliced axis has size 1 the one position of the result is 0 *)
  assert ((if slice_len s m =? 1 then 0 else j) = j) as -> by (destruct (slice_len s m =? 1) eqn:E1; lia).
  destruct (m =? 1) eqn:E; [|reflexivity].
  (* a size-1 axis: every position a slice selects on it is 0 *)
  assert (m = 1) as -> by lia. pose proof (sel_nth_range s 1 j ltac:(lia) Hk Hj). f_equal. lia.
Qed.

(* one axis: a stretched operand axis (size 1) is read whole *)
Lemma bslices_colon s m : bslices [ISlice s] [m] [ISlice colon] [1].
Proof.
  split; [split; [left; reflexivity | exact I]|].
  (* position 0 of the size-1 axis, on both sides *)
  intros [|j out] _; reflexivity.
Qed.

(* [bslices] is asked only of the result axes the operand lies under: on the axes in front of them the index may be anything *)
Lemma bslices_bidx ipre pre isuf suf jxs sa :
  idx_okb ipre pre = true -> idx_okb isuf suf = true -> compat sa suf -> bslices isuf suf jxs sa ->
  bcast_into (slice_shape jxs sa) (slice_shape (ipre ++ isuf) (pre ++ suf)) /\
  forall out, in_bounds out (slice_shape (ipre ++ isuf) (pre ++ suf)) ->
    bidx sa (slice_src (ipre ++ isuf) (pre ++ suf) out) = slice_src jxs sa (bidx (slice_shape jxs sa) out).
Proof.
  intros Hokp Hoks Hc [Hcc Hg].
  pose proof (idx_okb_length _ _ Hokp) as Hlp. pose proof (idx_okb_basic _ _ Hokp) as Hbp.
  rewrite (slice_shape_app ipre isuf suf Hbp pre Hlp).
  split; [exists (slice_shape ipre pre), (slice_shape isuf suf); split; [reflexivity | exact Hcc]|].
  intros out Ho. destruct (in_bounds_cut _ _ _ Ho) as (opre & osuf & -> & Ho1 & Ho2).
  pose proof (in_bounds_length _ _ Ho1) as Hlo1. rewrite (slice_shape_length _ _ Hokp) in Hlo1.
  pose proof (in_bounds_length _ _ Ho2) as Hlo2.
  rewrite (slice_src_app ipre isuf suf Hbp pre _ Hlp), <- Hlo1, firstn_app_l, skipn_app_l. unfold bidx.
  rewrite !lastn_app; [apply Hg; exact Ho2 | rewrite (compat_length _ _ Hcc); exact Hlo2 |].
  rewrite (slice_src_length isuf (idx_okb_basic _ _ Hoks) suf osuf), Hlo2, (slice_shape_length _ _ Hoks).
  rewrite (compat_length _ _ Hc), <- (idx_okb_length _ _ Hoks). lia.
Qed.

Lemma rbshape_nil_r a : rbshape a [] = a.
Proof. destruct a; reflexivity. Qed.

Lemma rbshape_app a : forall b a' b', length a = length b -> rbshape (a ++ a') (b ++ b') = rbshape a b ++ rbshape a' b'.
Proof.
  induction a as [|x a IH]; intros [|y b] a' b' H; cbn [length] in H; try discriminate; [reflexivity|].
  cbn [app rbshape]. f_equal. apply IH. lia.
Qed.

Lemma rbshape_rev a : forall b, length a = length b -> rev (rbshape a b) = rbshape (rev a) (rev b).
Proof.
  induction a as [|x a IH]; intros [|y b] H; cbn [length] in H; try discriminate; [reflexivity|].
  cbn [rbshape rev]. rewrite rbshape_app by (rewrite !rev_length; lia). rewrite IH by lia. reflexivity.
Qed.

Lemma bshape_same_len a b : length a = length b -> bshape a b = rbshape a b.
Proof.
  intros H. unfold bshape. rewrite <- rbshape_rev by exact H. apply rev_involutive.
Qed.

Lemma bshape_nil_l b : bshape [] b = b.
Proof. unfold bshape. cbn [rev rbshape]. apply rev_involutive. Qed.

Lemma bshape_nil_r a : bshape a [] = a.
Proof. unfold bshape. cbn [rev]. rewrite rbshape_nil_r. apply rev_involutive. Qed.

Lemma rbshape_length a : forall b, length a = length b -> length (rbshape a b) = length a.
Proof.
  induction a as [|x a IH]; intros [|y b] H; cbn [length] in H; try discriminate; [reflexivity|].
  cbn [rbshape length]. f_equal. apply IH. lia.
Qed.

Lemma rbshape_nth a : forall b j, length a = length b -> nth j (rbshape a b) 0 = bdim (nth j a 0) (nth j b 0).
Proof.
  induction a as [|x a IH]; intros [|y b] j H; cbn [length] in H; try discriminate.
  - destruct j; reflexivity.
  - destruct j; cbn [rbshape nth]; [reflexivity|]. apply IH. lia.
Qed.

Lemma rbshape_pickn a b axes : length a = length b ->
  pickn 0 (rbshape a b) axes = rbshape (pickn 0 a axes) (pickn 0 b axes).
Proof.
  intros H. induction axes as [|j axes IH]; [reflexivity|].
  cbn [pickn map rbshape]. fold (pickn 0 (rbshape a b) axes) (pickn 0 a axes) (pickn 0 b axes).
  rewrite rbshape_nth by exact H. f_equal. exact IH.
Qed.

(* the join of two shapes that broadcast into [ro] broadcasts into [ro] *)
Lemma rbcast_rbshape ra : forall rb ro,
  rbcast_intob ra ro = true -> rbcast_intob rb ro = true -> rbcast_intob (rbshape ra rb) ro = true.
Proof.
  induction ra as [|n ra IH]; intros [|n' rb] [|m ro] Ha Hb; cbn [rbshape]; try assumption; try discriminate.
  cbn [rbcast_intob] in *. apply andb_true_iff in Ha, Hb. destruct Ha as [Hn Ha], Hb as [Hn' Hb].
  rewrite (IH rb ro Ha Hb), andb_true_r. unfold bdim. destruct (n =? 1) eqn:E; lia.
Qed.

Definition rbshape_all (l : list (list Z)) : list Z := fold_right (fun s acc => rbshape (rev s) acc) [] l.

Lemma rev_bshape_all l : rev (bshape_all l) = rbshape_all l.
Proof.
  induction l as [|s l IH]; [reflexivity|]. cbn [bshape_all rbshape_all fold_right].
  fold (bshape_all l). fold (rbshape_all l). unfold bshape. rewrite rev_involutive, IH. reflexivity.
Qed.

(* [g s n m]: the size, once a result axis of size [m] is sliced by [s], of the operand axis of size [n] (1 or [m])
   under it (instantiated once, by [ExprRulesFacts.edim]); [opshape ix sa o]: the sliced shape of an operand whose axes [sa] lie under the result axes [o] *)
Section SlicedOperandShape.
  Variable g : pslice -> Z -> Z -> Z.
  Hypothesis g_bdim : forall s n n' m, step_of s <> 0 -> n = 1 \/ n = m -> n' = 1 \/ n' = m ->
    bdim (g s n m) (g s n' m) = g s (bdim n n') m.
  Hypothesis g_self : forall s m, step_of s <> 0 -> g s m m = slice_len s m.

  Fixpoint opshape (ix : list pidx) (sa o : list Z) : list Z :=
    match ix, sa, o with
    | IInt _ :: ix', _ :: sa', _ :: o' => opshape ix' sa' o'
    | ISlice s :: ix', n :: sa', m :: o' => g s n m :: opshape ix' sa' o'
    | _, _, _ => []
    end.

  Lemma opshape_nil ix o : opshape ix [] o = [].
  Proof. destruct ix as [|[]]; reflexivity. Qed.

  Lemma opshape_app ix o : idx_okb ix o = true -> forall sa ix' sa' o', length sa = length o ->
    opshape (ix ++ ix') (sa ++ sa') (o ++ o') = opshape ix sa o ++ opshape ix' sa' o'.
  Proof.
    revert ix o. refine (idx_okb_ind _ _ _ _); [intros [|] ? ? ? Hl; [reflexivity | discriminate]| |];
      intros ? ix m o _ _ IH [|n sa] ix' sa' o' Hl; try discriminate; cbn [app opshape]; rewrite IH by (cbn [length] in Hl; lia); reflexivity.
  Qed.

  Lemma opshape_rev ix o : idx_okb ix o = true -> forall sa, length sa = length o ->
    rev (opshape ix sa o) = opshape (rev ix) (rev sa) (rev o).
  Proof.
    revert ix o. refine (idx_okb_ind _ _ _ _); [intros [|] Hl; [reflexivity | discriminate]| |];
      intros ? ix m o _ Hok IH [|n sa] Hl; try discriminate; cbn [length] in Hl; cbn [rev opshape];
      (rewrite opshape_app; [| apply idx_okb_rev; exact Hok | rewrite !rev_length; lia]); rewrite <- IH by lia.
    - symmetry. apply app_nil_r.
    - reflexivity.
  Qed.

  Lemma opshape_self ix o : idx_okb ix o = true -> opshape ix o o = slice_shape ix o.
  Proof.
    revert ix o. refine (idx_okb_ind _ _ _ _); [reflexivity | |]; intros ? ix m o Hi _ IH; cbn [opshape slice_shape hd tl].
    - exact IH.
    - rewrite g_self, IH by exact Hi. reflexivity.
  Qed.

  Lemma opshape_rbshape ix o : idx_okb ix o = true -> forall ra rb,
    rbcast_intob ra o = true -> rbcast_intob rb o = true ->
    rbshape (opshape ix ra o) (opshape ix rb o) = opshape ix (rbshape ra rb) o.
  Proof.
    revert ix o. refine (idx_okb_ind _ _ _ _); [intros [|] [|]; reflexivity| |];
      intros ? ix m o Hi _ IH [|n ra] [|n' rb] Ha Hb; cbn [opshape rbshape]; try reflexivity; try apply rbshape_nil_r;
      cbn [rbcast_intob] in Ha, Hb; apply andb_true_iff in Ha, Hb; destruct Ha as [Hn Ha], Hb as [Hn' Hb].
    - apply IH; assumption.
    - rewrite g_bdim, IH by (assumption || lia). reflexivity.
  Qed.

  (* an operand of shape [sa] is aligned with the last axes of the result *)
  Definition opshape_of (ix : list pidx) (o sa : list Z) : list Z :=
    opshape (lastn (length sa) ix) sa (lastn (length sa) o).

  Lemma opshape_of_rev ix o sa : idx_okb ix o = true -> bcast_into sa o ->
    rev (opshape_of ix o sa) = opshape (rev ix) (rev sa) (rev o).
  Proof.
    intros Hok (pre & suf & -> & Hc). destruct (idx_okb_split ix pre suf Hok) as (ipre & isuf & -> & Hokp & Hoks).
    pose proof (compat_length _ _ Hc) as Hls. pose proof (idx_okb_length _ _ Hoks) as Hli.
    unfold opshape_of. rewrite !lastn_app, opshape_rev, !rev_app_distr by (assumption || lia).
    rewrite <- (app_nil_r (rev sa)) at 2.
    rewrite opshape_app, opshape_nil by (try apply idx_okb_rev; rewrite ?rev_length; assumption). symmetry. apply app_nil_r.
  Qed.

  (* The shapes of the sliced operands broadcast to the sliced result shape.  Shapes are compared reversed
     (last axis first), where broadcasting is a zip. *)
  Theorem opshape_bshape_all ix shapes : let o := bshape_all shapes in
    idx_okb ix o = true -> Forall (fun sa => bcast_intob sa o = true) shapes ->
    bshape_all (map (opshape_of ix o) shapes) = slice_shape ix o.
  Proof.
    intros o Hok H. pose proof (idx_okb_rev _ _ Hok) as Hokr.
    assert (rbshape_all (map (opshape_of ix o) shapes) = opshape (rev ix) (rbshape_all shapes) (rev o) /\
            rbcast_intob (rbshape_all shapes) (rev o) = true) as [HS _].
    { clearbody o. induction H as [|sa shapes Hsa _ [IH1 IH2]]; [split; [symmetry; apply opshape_nil | reflexivity]|].
      cbn [map rbshape_all fold_right]. fold (rbshape_all shapes) (rbshape_all (map (opshape_of ix o) shapes)).
      rewrite (opshape_of_rev ix o sa Hok (bcast_intob_spec _ _ Hsa)), IH1.
      split; [apply opshape_rbshape | apply rbcast_rbshape]; assumption. }
    rewrite <- (rev_involutive (bshape_all _)), rev_bshape_all, HS, <- rev_bshape_all. fold o.
    rewrite <- opshape_rev, opshape_self by (reflexivity || exact Hok). apply rev_involutive.
  Qed.
End SlicedOperandShape.
