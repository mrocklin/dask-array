(* FusedFastFacts.v — proofs about the fast paths of FusedBlockwiseLayer (model: FusedFast.v), in the
   three parts of section 6 of Properties/C21.v:
   (a) a derivation of _fast_spec that accepts generates the slow path's record for every block, provided
       the family really is shared, i.e. every block has block 0's canonical subgraph (6.2);
   (b) of that hypothesis the derivations test the probe blocks only, which does not decide it (6.3, 6.4);
   (c) `covered`: the families for which the test on the probes does decide it (6.5 to 6.7). *)
From Coq Require Import ZArith List Bool PArith Arith Lia.
From DA Require Import ListFacts FusedFast.
Import ListNotations.
Open Scope Z_scope.

Section ListEqb.
  Context {A : Type} (eqb : A -> A -> bool).
  Hypothesis eqb_eq : forall a b, eqb a b = true <-> a = b.

  Lemma list_eqb_eq : forall a b, list_eqb eqb a b = true <-> a = b.
  Proof.
    induction a as [|x t IH]; intros [|y t']; cbn; try (split; congruence).
    rewrite andb_true_iff, eqb_eq, IH. split; [intros []; congruence | intros [= ]; auto].
  Qed.

  Lemma memb_In : forall x l, memb eqb x l = true <-> In x l.
  Proof.
    intros x l; induction l as [|y t IH]; cbn; [split; [discriminate | tauto]|].
    rewrite orb_true_iff, eqb_eq, IH. split; intros [H|H]; auto.
  Qed.

  Lemma memb_false : forall x l, memb eqb x l = false <-> ~ In x l.
  Proof. intros x l. rewrite <- memb_In. destruct (memb eqb x l); split; congruence. Qed.

  Lemma set_eqb_spec : forall a b, set_eqb eqb a b = true <-> (forall x, In x a <-> In x b).
  Proof.
    intros a b. unfold set_eqb. rewrite andb_true_iff, !forallb_forall. split.
    - intros [H1 H2] x. split; intro H; [apply memb_In, H1, H | apply memb_In, H2, H].
    - intro H. split; intros x Hx; apply memb_In, H, Hx.
  Qed.

  Lemma dedup_In : forall x l, In x (dedup eqb l) <-> In x l.
  Proof.
    intros x l; induction l as [|y t IH]; cbn; [tauto|].
    destruct (memb eqb y t) eqn:E.
    - rewrite IH. apply memb_In in E. split; [auto | intros [H|H]; subst; auto].
    - cbn. rewrite IH. tauto.
  Qed.

  Lemma dedup_length_le : forall l, (length (dedup eqb l) <= length l)%nat.
  Proof. induction l as [|y t IH]; cbn; [lia|]. destruct (memb eqb y t); cbn; lia. Qed.

  Lemma ndistinct_NoDup : forall l, ndistinct eqb l = length l <-> NoDup l.
  Proof.
    unfold ndistinct. induction l as [|y t IH]; cbn; [split; [constructor | reflexivity]|].
    pose proof (dedup_length_le t) as Hle. destruct (memb eqb y t) eqn:E.
    - apply memb_In in E. split; [lia | intro H; inversion H; contradiction].
    - apply memb_false in E. cbn. split; intro H.
      + constructor; [exact E | apply IH; lia].
      + inversion H. f_equal. apply IH. assumption.
  Qed.

  Lemma index_of_nth : forall l j d, NoDup l -> (j < length l)%nat -> index_of eqb (nth j l d) l = j.
  Proof.
    induction l as [|y t IH]; intros j d Hn Hj; cbn in Hj; [lia|].
    inversion Hn as [|? ? Hy Ht]; subst. destruct j as [|j]; cbn.
    - rewrite (proj2 (eqb_eq y y) eq_refl). reflexivity.
    - destruct (eqb (nth j t d) y) eqn:E.
      + apply eqb_eq in E. exfalso. apply Hy. rewrite <- E. apply nth_In. lia.
      + f_equal. apply IH; [assumption | lia].
  Qed.

  (* [projections[site_of[k]] for k in sm] = projections *)
  Lemma map_index_nth : forall {B} (l : list A) (P : list B) d,
    NoDup l -> length l = length P -> map (fun k => nth (index_of eqb k l) P d) l = P.
  Proof.
    intros B l; induction l as [|y t IH]; intros [|p P'] d Hn Hl; cbn in *; try discriminate; [reflexivity|].
    inversion Hn as [|? ? Hy Ht]; subst. rewrite (proj2 (eqb_eq y y) eq_refl). f_equal.
    transitivity (map (fun k => nth (index_of eqb k t) P' d) t); [|apply IH; [assumption | lia]].
    apply map_ext_in. intros k Hk.
    destruct (eqb k y) eqn:E; [apply eqb_eq in E; subst; contradiction | reflexivity].
  Qed.
End ListEqb.

Lemma pair_eqb_eq : forall {A B} (ea : A -> A -> bool) (eb : B -> B -> bool),
  (forall a b, ea a b = true <-> a = b) -> (forall a b, eb a b = true <-> a = b) ->
  forall p q : A * B, ea (fst p) (fst q) && eb (snd p) (snd q) = true <-> p = q.
Proof.
  intros A B ea eb Ha Hb [a b] [a' b']. cbn. rewrite andb_true_iff, Ha, Hb.
  split; [intros []; congruence | intros [= ]; auto].
Qed.

Lemma skind_eqb_eq : forall a b, skind_eqb a b = true <-> a = b.
Proof. intros [| |x] [| |y]; cbn; rewrite ?Pos.eqb_eq; split; congruence. Qed.

Lemma label_eqb_eq : forall a b, label_eqb a b = true <-> a = b.
Proof. intros [x|x|x] [y|y|y]; cbn; rewrite ?Pos.eqb_eq; split; congruence. Qed.

(* induction principle for the nested type *)
Lemma lit_ind' (P : lit -> Prop) :
  (forall z, P (LInt z)) -> (forall t, P (LVal t)) -> (forall l, P (LRef l)) ->
  (forall k l, Forall P l -> P (LSeq k l)) -> forall v, P v.
Proof.
  intros Hi Hv Hr Hs. fix IH 1. intros [z|t|l|k l]; [apply Hi | apply Hv | apply Hr |].
  apply Hs. induction l as [|x t IHl]; constructor; [apply IH | exact IHl].
Qed.

Lemma lit_eqb_eq : forall a b, lit_eqb a b = true <-> a = b.
Proof.
  induction a as [z|t|l|k l IH] using lit_ind'; intros [z'|t'|l'|k' l']; cbn; try (split; congruence).
  - rewrite Z.eqb_eq. split; congruence.
  - rewrite Pos.eqb_eq. split; congruence.
  - rewrite label_eqb_eq. split; congruence.
  - rewrite andb_true_iff, skind_eqb_eq.
    (* the inner fixpoint of lit_eqb, by pattern rather than copied *)
    match goal with |- _ /\ ?go l l' = true <-> _ => assert (G : forall m, go l m = true <-> l = m) end.
    { clear l'. induction IH as [|x t Hx _ IHt]; intros [|y m]; try (split; congruence).
      rewrite andb_true_iff, Hx, IHt. split; [intros []; congruence | intros [= ]; auto]. }
    rewrite G. split; [intros []; congruence | intros [= ]; auto].
Qed.

Lemma node_eqb_eq : forall a b, node_eqb a b = true <-> a = b.
Proof.
  intros [k f a kw] [k' f' a' kw']. unfold node_eqb; cbn.
  rewrite !andb_true_iff, !Pos.eqb_eq, (list_eqb_eq lit_eqb lit_eqb_eq), lit_eqb_eq.
  split; [intros [[[]]]; congruence | intros [= ]; auto].
Qed.

Lemma zlist_eqb_eq : forall a b : list Z, list_eqb Z.eqb a b = true <-> a = b.
Proof. apply list_eqb_eq. apply Z.eqb_eq. Qed.

Lemma site_eqb_eq : forall a b, site_eqb a b = true <-> a = b.
Proof. exact (pair_eqb_eq _ _ Pos.eqb_eq zlist_eqb_eq). Qed.

Lemma slot_eqb_eq : forall a b, slot_eqb a b = true <-> a = b.
Proof. exact (pair_eqb_eq _ _ Nat.eqb_eq zlist_eqb_eq). Qed.

Lemma seedkey_eqb_eq : forall a b, seedkey_eqb a b = true <-> a = b.
Proof. exact (pair_eqb_eq _ _ Pos.eqb_eq Nat.eqb_eq). Qed.

Lemma canon_eqb_eq : forall t t0, canon_eqb t t0 = true <-> t_nodes t = t_nodes t0 /\ t_out t = t_out t0.
Proof.
  intros. unfold canon_eqb. rewrite andb_true_iff, (list_eqb_eq node_eqb node_eqb_eq), label_eqb_eq. tauto.
Qed.

Lemma all_some_Forall2 : forall {A B} (f : A -> option B) l r,
  Forall2 (fun x y => f x = Some y) l r -> all_some (map f l) = Some r.
Proof. intros A B f l r H; induction H as [|x y l r Hx H IH]; cbn; [reflexivity | rewrite Hx, IH; reflexivity]. Qed.

Lemma all_some_Forall2_inv : forall {A B} (f : A -> option B) l r,
  all_some (map f l) = Some r -> Forall2 (fun x y => f x = Some y) l r.
Proof.
  intros A B f l; induction l as [|x t IH]; intros r H; cbn in H.
  - injection H as <-. constructor.
  - destruct (f x) as [y|] eqn:E; [|discriminate]. destruct (all_some (map f t)) as [r'|]; [|discriminate].
    injection H as <-. constructor; [exact E | apply IH; reflexivity].
Qed.

Lemma all_some_map : forall {A B} (f : A -> option B) (g : A -> B) l,
  (forall x, In x l -> f x = Some (g x)) -> all_some (map f l) = Some (map g l).
Proof.
  intros A B f g l H. apply all_some_Forall2. induction l as [|x t IH]; cbn; constructor.
  - apply H. left. reflexivity.
  - apply IH. intros y Hy. apply H. right. exact Hy.
Qed.

Lemma all_some_length : forall {A} (l : list (option A)) r, all_some l = Some r -> length r = length l.
Proof.
  intros A l; induction l as [|[x|] t IH]; intros r H; cbn in H; try discriminate; [injection H as <-; reflexivity|].
  destruct (all_some t) as [r'|]; [|discriminate]. injection H as <-. cbn. f_equal. apply IH. reflexivity.
Qed.

Lemma all_some_nth : forall {A} (l : list (option A)) r, all_some l = Some r ->
  forall i d, (i < length l)%nat -> nth i l None = Some (nth i r d).
Proof.
  intros A l; induction l as [|[x|] t IH]; intros r H i d Hi; cbn in H, Hi; try discriminate; [lia|].
  destruct (all_some t) as [r'|]; [|discriminate]. injection H as <-.
  destruct i as [|i]; cbn; [reflexivity|]. apply IH; [reflexivity | lia].
Qed.

Lemma nth_map_error : forall {A B} (f : A -> B) l i x d, nth_error l i = Some x -> nth i (map f l) d = f x.
Proof. intros A B f l i x d H. apply nth_error_nth, map_nth_error, H. Qed.

Lemma nth_all_some_map : forall {A B} (f : A -> option B) l r i b d,
  all_some (map f l) = Some r -> nth_error l i = Some b -> f b = Some (nth i r d).
Proof.
  intros A B f l r i b d H Hi. rewrite <- (nth_map_error f l i b None Hi). apply all_some_nth; [exact H|].
  rewrite map_length. apply nth_error_Some. congruence.
Qed.

Lemma range0_In : forall n k, In k (range0 n) <-> 0 <= k < n.
Proof.
  intros n k. unfold range0. rewrite in_map_iff. split.
  - intros [i [E Hi]]. apply in_seq in Hi. lia.
  - intro H. exists (Z.to_nat k). split; [lia | apply in_seq; lia].
Qed.

Lemma all_blocks_spec : forall nb b, In b (all_blocks nb) <-> in_grid nb b.
Proof.
  unfold in_grid. induction nb as [|n t IH]; intro b; cbn.
  - split; [intros [E|[]]; subst; constructor | intro H; inversion H; auto].
  - rewrite in_flat_map. split.
    + intros [i [Hi Hb]]. apply in_map_iff in Hb. destruct Hb as [b' [E Hb']]. subst.
      constructor; [apply range0_In; assumption | apply IH; assumption].
    + intro H. inversion H as [|? x ? b' Hx Hb']; subst. exists x. split; [apply range0_In; assumption|].
      apply in_map. apply IH. assumption.
Qed.

(* the first block that itertools.product yields is block 0 *)
Lemma all_blocks_head : forall nb b0 rest, all_blocks nb = b0 :: rest -> b0 = zero_block nb.
Proof.
  induction nb as [|n t IH]; intros b0 rest H; cbn in H; [injection H as <-; reflexivity|].
  unfold range0 in H. destruct (Z.to_nat n) as [|k]; [discriminate|].
  destruct (all_blocks t) as [|c0 crest]; cbn in H.
  - exfalso. induction (map Z.of_nat (seq 1 k)); cbn in H; [discriminate | auto].
  - injection H as <-. cbn. f_equal. exact (IH c0 crest eq_refl).
Qed.

Lemma in_grid_length : forall nb b, in_grid nb b -> length b = length nb.
Proof. intros nb b H; induction H; cbn; [reflexivity | f_equal; assumption]. Qed.

Lemma in_grid_nth : forall nb b, in_grid nb b -> forall i n, nth_error nb i = Some n -> 0 <= nth i b 0 < n.
Proof.
  intros nb b H; induction H as [|n x nb' b' Hx H IH]; intros [|i] m E; cbn in *; try discriminate.
  - injection E as <-. assumption.
  - apply IH. assumption.
Qed.

Lemma in_grid_pos : forall nb b, in_grid nb b -> Forall (fun n => 1 <= n) nb.
Proof. intros nb b H; induction H; constructor; [lia | assumption]. Qed.

Lemma zero_in_grid : forall nb, Forall (fun n => 1 <= n) nb -> in_grid nb (zero_block nb).
Proof. intros nb H; induction H; cbn; constructor; [lia | assumption]. Qed.

Lemma zero_block_length : forall nb, length (zero_block nb) = length nb.
Proof. intro nb. apply map_length. Qed.

Lemma nth_zero_block : forall nb i, nth i (zero_block nb) 0 = 0.
Proof. induction nb as [|n t IH]; intros [|i]; cbn; auto. Qed.

Lemma set_nth_length : forall i v b, length (set_nth i v b) = length b.
Proof. intros i v b; revert i; induction b as [|x t IH]; intros [|i]; cbn; auto. Qed.

Lemma nth_set_nth : forall i j v b, (i < length b)%nat ->
  nth j (set_nth i v b) 0 = if Nat.eqb j i then v else nth j b 0.
Proof.
  intros i j v b; revert i j; induction b as [|x t IH]; intros i j Hi; cbn in Hi; [lia|].
  destruct i as [|i], j as [|j]; cbn; try reflexivity. apply IH. lia.
Qed.

Lemma set_nth_zero : forall nb i, set_nth i 0 (zero_block nb) = zero_block nb.
Proof. induction nb as [|m t IH]; intros [|i]; cbn; try reflexivity. f_equal. apply IH. Qed.

Lemma set_nth_in_grid : forall nb b i n v, in_grid nb b -> nth_error nb i = Some n -> 0 <= v < n ->
  in_grid nb (set_nth i v b).
Proof.
  intros nb b i n v H; revert i; induction H as [|m x nb' b' Hx H IH]; intros [|i] E Hv; cbn in *; try discriminate.
  - injection E as <-. constructor; assumption.
  - constructor; [assumption | apply IH; assumption].
Qed.

Lemma enum_from_In : forall {A} (l : list A) s i x, In (i, x) (enum_from s l) <-> (s <= i)%nat /\ nth_error l (i - s) = Some x.
Proof.
  intros A l; induction l as [|y t IH]; intros s i x; cbn.
  - split; [tauto | intros [_ H]; destruct (i - s)%nat; discriminate].
  - rewrite IH. split.
    + intros [[= <- <-]|[H1 H2]]; [rewrite Nat.sub_diag; auto|].
      split; [lia|]. replace (i - s)%nat with (S (i - S s)) by lia. exact H2.
    + intros [H1 H2]. destruct (i - s)%nat as [|k] eqn:E; cbn in H2.
      * left. injection H2 as <-. f_equal. lia.
      * right. split; [lia|]. replace (i - S s)%nat with k by lia. exact H2.
Qed.

Lemma enum_from_length : forall {A} (l : list A) s, length (enum_from s l) = length l.
Proof. intros A l; induction l; intro s; cbn; auto. Qed.

Lemma map_snd_enum_from : forall {A} (l : list A) s, map snd (enum_from s l) = l.
Proof. intros A l; induction l as [|x t IH]; intro s; cbn; [reflexivity | rewrite IH; reflexivity]. Qed.

Lemma half_range : forall n, 1 <= n -> 0 <= n / 2 < n /\ (3 <= n -> 0 < n / 2 < n - 1).
Proof. intros n H. pose proof (Z.div_mod n 2). pose proof (Z.mod_pos_bound n 2). lia. Qed.

Lemma probe_blocks_spec : forall nb p,
  In p (probe_blocks nb) <->
  p = zero_block nb \/ p = map (fun n => n - 1) nb \/
  (exists i n, nth_error nb i = Some n /\ 1 < n /\
               (p = set_nth i (n - 1) (zero_block nb) \/ p = set_nth i (n / 2) (zero_block nb))) \/
  p = diag_block nb.
Proof.
  intros nb p. unfold probe_blocks. cbn [In app]. rewrite in_app_iff, in_flat_map. cbn [In].
  split.
  - intros [H|[H|[[[i n] [Hi Hp]]|[H|[]]]]]; auto.
    right; right; left. exists i, n. apply enum_from_In in Hi. destruct Hi as [_ Hi]. rewrite Nat.sub_0_r in Hi.
    unfold probe_axis in Hp. destruct (1 <? n) eqn:E; [|destruct Hp]. apply Z.ltb_lt in E.
    split; [exact Hi|]. split; [exact E|]. destruct Hp as [Hp|[Hp|[]]]; auto.
  - intros [H|[H|[[i [n [Hi [Hn Hp]]]]|H]]]; auto.
    right; right; left. exists (i, n). split.
    + apply enum_from_In. split; [lia | rewrite Nat.sub_0_r; exact Hi].
    + unfold probe_axis. apply Z.ltb_lt in Hn. rewrite Hn. destruct Hp as [Hp|Hp]; subst; cbn; auto.
Qed.

(* per axis, with the other coordinates at 0: first, last and middle position are probed *)
Lemma probe_axis_cover : forall nb i n k,
  nth_error nb i = Some n -> 1 <= n -> (k = 0 \/ k = n - 1 \/ k = n / 2) ->
  In (set_nth i k (zero_block nb)) (probe_blocks nb).
Proof.
  intros nb i n k Hi Hn Hk. apply probe_blocks_spec.
  destruct (Z.eq_dec k 0) as [->|E]; [left; apply set_nth_zero|].
  right; right; left. exists i, n. pose proof (half_range n Hn). repeat split; [exact Hi | lia|].
  destruct Hk as [?|[?|?]]; subst; auto. contradiction.
Qed.

Lemma diag_block_nth : forall nb i n, nth_error nb i = Some n -> nth i (diag_block nb) 0 = Z.min (Z.of_nat i) (n - 1).
Proof.
  intros nb i n H. unfold diag_block. rewrite <- (Nat.add_0_l i) at 2. generalize 0%nat as s.
  revert i H. induction nb as [|m t IH]; intros [|i] H s; cbn in *; try discriminate.
  - injection H as <-. rewrite Nat.add_0_r. reflexivity.
  - rewrite IH by assumption. f_equal. lia.
Qed.

(* The positions of axis a (of length n) that some probe block has there. *)
Definition covered (n : Z) (a : nat) (k : Z) : Prop :=
  k = 0 \/ k = n - 1 \/ k = n / 2 \/ k = Z.min (Z.of_nat a) (n - 1).

(* a probe has only covered positions ... *)
Lemma probe_positions : forall nb p i n,
  In p (probe_blocks nb) -> nth_error nb i = Some n -> covered n i (nth i p 0).
Proof.
  intros nb p i n Hp Hi. apply probe_blocks_spec in Hp. unfold covered.
  destruct Hp as [Hp|[Hp|[[j [m [Hj [Hm Hp]]]]|Hp]]]; subst.
  - left. apply nth_zero_block.
  - right; left. exact (nth_map_error (fun m => m - 1) nb i n 0 Hi).
  - (* a probe of axis j: 0 on the other axes, the last or the middle position on axis j *)
    assert (Lj : (j < length (zero_block nb))%nat) by (rewrite zero_block_length; apply nth_error_Some; congruence).
    destruct (Nat.eq_dec i j) as [->|Hij].
    + rewrite Hi in Hj. injection Hj as <-.
      destruct Hp as [->| ->]; rewrite nth_set_nth, Nat.eqb_refl by exact Lj; auto.
    + left. apply Nat.eqb_neq in Hij.
      destruct Hp as [->| ->]; rewrite nth_set_nth, Hij by exact Lj; apply nth_zero_block.
  - right; right; right. apply diag_block_nth. exact Hi.
Qed.

Lemma probes_in_grid : forall nb p, Forall (fun n => 1 <= n) nb -> In p (probe_blocks nb) -> in_grid nb p.
Proof.
  intros nb p Hnb Hp. apply probe_blocks_spec in Hp.
  destruct Hp as [Hp|[Hp|[[j [m [Hj [Hm Hp]]]]|Hp]]]; subst.
  - apply zero_in_grid. exact Hnb.
  - unfold in_grid. induction Hnb; cbn; constructor; [lia | assumption].
  - pose proof (half_range m). destruct Hp; subst; (eapply set_nth_in_grid; [apply zero_in_grid; exact Hnb | exact Hj | lia]).
  - unfold in_grid, diag_block. generalize 0%nat as s. induction Hnb as [|n t Hn Ht IH]; intro s; cbn; constructor; [lia | apply IH].
Qed.

(* ... and every covered position is some probe's *)
Lemma covered_probed : forall nb a n k, Forall (fun n => 1 <= n) nb -> nth_error nb a = Some n -> covered n a k ->
  0 <= k < n /\ exists p, In p (probe_blocks nb) /\ nth a p 0 = k.
Proof.
  intros nb a n k Hpos Ha Hk.
  assert (Hn : 1 <= n) by (rewrite Forall_forall in Hpos; apply Hpos; eapply nth_error_In; exact Ha).
  assert (La : (a < length (zero_block nb))%nat) by (rewrite zero_block_length; apply nth_error_Some; congruence).
  pose proof (half_range n Hn). split; [unfold covered in Hk; lia|].
  destruct Hk as [Hk|[Hk|[Hk|Hk]]].
  4: { exists (diag_block nb). split; [apply probe_blocks_spec; auto|]. rewrite (diag_block_nth nb a n Ha). auto. }
  all: exists (set_nth a k (zero_block nb)); split; [eapply probe_axis_cover; eauto|];
    rewrite nth_set_nth, Nat.eqb_refl by exact La; reflexivity.
Qed.

(** * Inference of the projections by bumping one output axis at a time *)
(* what the inference knows about a true coordinate after the axes < m have been bumped *)
Definition norm_pcoord (nb : list Z) (m : nat) (p : pcoord) : pcoord :=
  match p with
  | PConst c => PConst c
  | PBid o => if Nat.ltb o m && (1 <? nth o nb 0) then PBid o else PConst 0
  end.

Lemma apply_norm : forall nb b p, in_grid nb b ->
  apply_pcoord b (norm_pcoord nb (length nb) p) = apply_pcoord b p.
Proof.
  intros nb b [c|o] H; cbn [norm_pcoord apply_pcoord]; [reflexivity|].
  destruct (Nat.ltb_spec o (length nb)) as [Lo|Lo]; cbn [andb apply_pcoord].
  - destruct (1 <? nth o nb 0) eqn:E2; cbn [apply_pcoord]; [reflexivity|]. apply Z.ltb_ge in E2.
    destruct (nth_error nb o) as [n|] eqn:En; [|apply nth_error_None in En; lia].
    pose proof (in_grid_nth nb b H o n En). rewrite (nth_error_nth _ _ 0 En) in E2. lia.
  - symmetry. apply nth_overflow. rewrite (in_grid_length nb b H). exact Lo.
Qed.

(* bumping axis m changes what is known of coordinate o only for o = m, and only on an axis with more than one block *)
Lemma norm_succ : forall nb m o,
  norm_pcoord nb (S m) (PBid o) =
  if Nat.eqb o m && (1 <? nth m nb 0) then PBid m else norm_pcoord nb m (PBid o).
Proof.
  intros nb m o. cbn [norm_pcoord]. destruct (Nat.eqb_spec o m) as [->|E]; cbn [andb].
  - rewrite (proj2 (Nat.ltb_lt m (S m))), (proj2 (Nat.ltb_ge m m)) by lia. cbn [andb]. destruct (1 <? nth m nb 0); reflexivity.
  - replace (Nat.ltb o (S m)) with (Nat.ltb o m); [reflexivity|].
    destruct (Nat.ltb_spec o m), (Nat.ltb_spec o (S m)); (reflexivity || lia).
Qed.

Lemma norm_succ_small : forall nb m p, nth m nb 0 <= 1 -> norm_pcoord nb (S m) p = norm_pcoord nb m p.
Proof.
  intros nb m [c|o] H; [reflexivity|]. rewrite norm_succ, (proj2 (Z.ltb_ge 1 _) H), andb_false_r. reflexivity.
Qed.

Lemma bump_row_affine : forall nb m cs, (m < length nb)%nat -> 1 < nth m nb 0 ->
  bump_row m (map (apply_pcoord (zero_block nb)) cs) (map (apply_pcoord (set_nth m 1 (zero_block nb))) cs)
           (map (norm_pcoord nb m) cs)
  = Some (map (norm_pcoord nb (S m)) cs).
Proof.
  intros nb m cs Hm Hn. induction cs as [|[c|o] cs IH]; cbn [map bump_row apply_pcoord]; [reflexivity| |].
  - rewrite Z.eqb_refl, IH. reflexivity.
  - rewrite nth_zero_block, nth_set_nth, nth_zero_block, IH, norm_succ, (proj2 (Z.ltb_lt 1 _) Hn), andb_true_r
      by (rewrite zero_block_length; exact Hm).
    destruct (Nat.eqb_spec o m) as [->|E]; reflexivity.
Qed.

Lemma bump_sites_affine : forall nb m (P : list nproj), (m < length nb)%nat -> 1 < nth m nb 0 ->
  bump_sites m (map (apply_nproj (zero_block nb)) P) (map (apply_nproj (set_nth m 1 (zero_block nb))) P)
             (map (fun p : nproj => map (norm_pcoord nb m) (snd p)) P)
  = Some (map (fun p : nproj => map (norm_pcoord nb (S m)) (snd p)) P).
Proof.
  intros nb m P Hm Hn. induction P as [|[s cs] P IH]; cbn [map bump_sites]; [reflexivity|].
  cbn [apply_nproj fst snd]. rewrite Pos.eqb_refl. cbn [negb].
  rewrite bump_row_affine by assumption. rewrite IH. reflexivity.
Qed.

Section Infer.
  Variables (L : layer) (extra : task -> bool) (P : list nproj).
  Hypothesis Haff : affine_sites L P.
  Hypothesis Hpos : Forall (fun n => 1 <= n) (l_nb L).

  Let R (k : nat) := map (fun p : nproj => map (norm_pcoord (l_nb L) k) (snd p)) P.
  Let sites0 := map (apply_nproj (zero_block (l_nb L))) P.

  Lemma infer_step_affine : forall m n, nth_error (l_nb L) m = Some n ->
    infer_step L extra sites0 (Some (R m)) (m, n) = None \/
    infer_step L extra sites0 (Some (R m)) (m, n) = Some (R (S m)).
  Proof.
    intros m n Hm. unfold infer_step. cbn [fst snd].
    assert (Lm : (m < length (l_nb L))%nat) by (apply nth_error_Some; congruence).
    pose proof (nth_error_nth _ _ 0 Hm) as Hn.
    destruct (Z.leb_spec n 1) as [E|E].
    - right. f_equal. unfold R. apply map_ext. intro p. apply map_ext. intro c. symmetry. apply norm_succ_small. lia.
    - assert (G : in_grid (l_nb L) (set_nth m 1 (zero_block (l_nb L)))).
      { eapply set_nth_in_grid; [apply zero_in_grid; exact Hpos | exact Hm | lia]. }
      rewrite (Haff _ G). destruct (t_ok _); cbn [negb]; [|left; reflexivity].
      unfold sites0. rewrite !map_length, Nat.eqb_refl. cbn [negb].
      unfold R. rewrite bump_sites_affine by (exact Lm || lia). destruct (extra _); auto.
  Qed.

  Lemma fold_infer_none : forall l, fold_left (infer_step L extra sites0) l None = None.
  Proof. induction l as [|x t IH]; cbn; [reflexivity | exact IH]. Qed.

  Lemma infer_fold_affine : forall rest m,
    (forall i n, nth_error rest i = Some n -> nth_error (l_nb L) (m + i) = Some n) ->
    forall rows, fold_left (infer_step L extra sites0) (enum_from m rest) (Some (R m)) = Some rows ->
    rows = R (m + length rest).
  Proof.
    induction rest as [|n rest IH]; intros m Hr rows H; cbn [enum_from fold_left length] in *.
    - injection H as <-. rewrite Nat.add_0_r. reflexivity.
    - assert (Hm : nth_error (l_nb L) m = Some n) by (rewrite <- (Nat.add_0_r m); apply Hr; reflexivity).
      destruct (infer_step_affine m n Hm) as [E|E]; rewrite E in H.
      + rewrite fold_infer_none in H. discriminate.
      + rewrite Nat.add_succ_r. apply (IH (S m)); [|exact H].
        intros i k Hi. replace (S m + i)%nat with (m + S i)%nat by lia. apply Hr. exact Hi.
  Qed.

  Lemma infer_proj_affine : forall rows, infer_proj L extra sites0 = Some rows -> rows = R (length (l_nb L)).
  Proof.
    intros rows H. unfold infer_proj in H.
    assert (E0 : map (fun k : site => map PConst (snd k)) sites0 = R 0).
    { unfold sites0, R. rewrite map_map. apply map_ext. intros [s cs]. cbn [apply_nproj snd].
      rewrite map_map. apply map_ext. intros [c|o]; cbn; [reflexivity | rewrite nth_zero_block; reflexivity]. }
    rewrite E0 in H. apply (infer_fold_affine (l_nb L) 0%nat); [|exact H]. intros i n Hi. exact Hi.
  Qed.
End Infer.

Lemma dep_index_nth : forall names s i0 j d, dep_index names s i0 = Some j ->
  (i0 <= j)%nat /\ nth (j - i0) names d = s.
Proof.
  induction names as [|x t IH]; intros s i0 j d H; cbn in H; [discriminate|].
  destruct (dep_index t s (S i0)) as [j'|] eqn:E.
  - injection H as <-. destruct (IH _ _ _ d E) as [H1 H2]. split; [lia|].
    replace (j' - i0)%nat with (S (j' - S i0)) by lia. exact H2.
  - destruct (Pos.eqb_spec x s) as [->|]; [|discriminate]. injection H as <-.
    rewrite Nat.sub_diag. split; [lia | reflexivity].
Qed.

Lemma dep_index_name : forall names s j, dep_index names s 0 = Some j -> nth j names 1%positive = s.
Proof. intros names s j H. destruct (dep_index_nth _ _ _ _ 1%positive H) as [_ Hn]. rewrite Nat.sub_0_r in Hn. exact Hn. Qed.

(* _dep_key undoes _dep_slot *)
Lemma dep_key_slot : forall names k s, dep_slot names k = Some s -> dep_key names s = k.
Proof.
  intros names [n c] s H. unfold dep_slot in H. cbn [fst snd] in H.
  destruct (dep_index names n 0) as [i|] eqn:E; [|discriminate]. injection H as <-.
  unfold dep_key. cbn [fst snd]. rewrite (dep_index_name _ _ _ E). reflexivity.
Qed.

(* the inferred projections generate, at EVERY block of the grid, exactly the block's sites *)
Lemma projections_affine : forall L (P : list nproj) idx0 b, in_grid (l_nb L) b ->
  all_some (map (fun k : site => dep_index (l_deps L) (fst k) 0) (map (apply_nproj (zero_block (l_nb L))) P)) = Some idx0 ->
  map (fun p => dep_key (l_deps L) (apply_proj b p))
      (combine idx0 (map (fun p : nproj => map (norm_pcoord (l_nb L) (length (l_nb L))) (snd p)) P))
  = map (apply_nproj b) P.
Proof.
  intros L P idx0 b Hb H. rewrite map_map in H. apply all_some_Forall2_inv in H.
  induction H as [|[s cs] j P idx0 Ej _ IH]; [reflexivity|]. cbn [map combine]. rewrite IH. f_equal.
  unfold dep_key, apply_proj, apply_nproj. cbn [fst snd]. rewrite (dep_index_name _ _ _ Ej). f_equal.
  rewrite map_map. apply map_ext. intro c. apply apply_norm. exact Hb.
Qed.

Lemma insert_site_In : forall x y l, In x (insert_site y l) <-> y = x \/ In x l.
Proof.
  intros x y l; induction l as [|z t IH]; cbn; [tauto|].
  destruct (site_leb y z); cbn; [|rewrite IH]; tauto.
Qed.

Lemma sort_sites_In : forall x l, In x (sort_sites l) <-> In x l.
Proof. intros x l; induction l as [|y t IH]; cbn; [tauto|]. rewrite insert_site_In, IH. reflexivity. Qed.

Lemma site_eqb_refl : forall k, site_eqb k k = true.
Proof. intro k. apply site_eqb_eq. reflexivity. Qed.

Lemma assoc_key_combine_map : forall (g : site -> site) k l, In k l -> assoc_key k (combine l (map g l)) = Some (g k).
Proof.
  intros g k l; induction l as [|y t IH]; intro H; cbn; [destruct H|].
  destruct (site_eqb y k) eqn:E; [apply site_eqb_eq in E; subst; reflexivity|].
  destruct H as [->|H]; [rewrite site_eqb_refl in E; discriminate | exact (IH H)].
Qed.

Lemma maximal_reads : forall (projections : list proj) (sm inkeys_m : list site) (g : proj -> site),
  NoDup sm -> length sm = length projections -> (forall x, In x sm <-> In x inkeys_m) ->
  let inkeys := sort_sites inkeys_m in
  let ordered := map (fun ik => nth (index_of site_eqb ik sm) projections (O, [])) inkeys in
  all_some (map (fun k => assoc_key k (combine inkeys (map g ordered))) sm) = Some (map g projections)
  /\ (forall x, In x (map g ordered) <-> In x (map g projections)).
Proof.
  intros projections sm inkeys_m g Hnd Hlen Hset inkeys ordered.
  set (h := fun ik : site => g (nth (index_of site_eqb ik sm) projections (O, []))).
  assert (Eo : map g ordered = map h inkeys) by apply map_map.
  assert (Eh : map h sm = map g projections).
  { rewrite <- (map_index_nth site_eqb site_eqb_eq sm projections (O, []) Hnd Hlen). symmetry. apply map_map. }
  assert (Hin : forall k, In k sm <-> In k inkeys) by (intro k; unfold inkeys; rewrite sort_sites_In; apply Hset).
  rewrite Eo, <- Eh. split.
  - apply all_some_map. intros k Hk. apply assoc_key_combine_map, Hin, Hk.
  - intro x. rewrite !in_map_iff. split; intros [k [E Hk]]; exists k; (split; [exact E | apply Hin; exact Hk]).
Qed.

Lemma build_maximal_inv : forall L projections mb inkeys ordered,
  build_maximal L projections = Some (mb, inkeys, ordered) ->
  in_grid (l_nb L) mb /\
  exists sm, t_sites (l_task L mb) = Some sm /\
    ndistinct site_eqb sm = length projections /\
    (forall x, In x sm <-> In x (t_inkeys (l_task L mb))) /\
    inkeys = sort_sites (t_inkeys (l_task L mb)) /\
    ordered = map (fun ik => nth (index_of site_eqb ik sm) projections (O, [])) inkeys.
Proof.
  intros L projections mb inkeys ordered H. unfold build_maximal in H.
  destruct (find _ (all_blocks (l_nb L))) as [mb'|] eqn:Ef; [|discriminate].
  apply find_some in Ef. destruct Ef as [Ein _]. apply all_blocks_spec in Ein.
  destruct (t_sites (l_task L mb')) as [sm|] eqn:Es; [|discriminate].
  destruct (Nat.eqb_spec (ndistinct site_eqb sm) (length projections)) as [E1|]; [|discriminate].
  destruct (set_eqb site_eqb sm (t_inkeys (l_task L mb'))) eqn:E2; [|discriminate].
  pose proof (proj1 (set_eqb_spec site_eqb site_eqb_eq _ _) E2) as E3.
  injection H as <- <- <-. split; [exact Ein|]. exists sm. repeat split; auto; apply E3.
Qed.

Lemma fill_node_nil : forall n, fill_node [] n = n.
Proof.
  intros [k f a kw]. unfold fill_node; cbn. f_equal. rewrite <- (map_snd_enum_from a 0) at 2.
  apply map_ext. intros [i x]. reflexivity.
Qed.

(* without holes, the record of a shared family is right as soon as it binds every site of the shared
   subgraph to the block's own read *)
Lemma shared_record_equiv : forall L mb inkeys deps b,
  shared_everywhere L -> in_grid (l_nb L) mb -> in_grid (l_nb L) b ->
  match t_sites (l_task L mb) with
  | None => None
  | Some sm => all_some (map (fun k => assoc_key k (combine inkeys deps)) sm)
  end = t_sites (l_task L b) ->
  (forall k, In k deps <-> In k (t_deps (l_task L b))) ->
  eff_equiv (eff_fast L (mkfrec b (mkshared mb inkeys []) deps [])) (eff_slow (l_task L b)).
Proof.
  intros L mb inkeys deps b Hsh Hmb Hb Hr Hd.
  destruct (Hsh b Hb) as [_ [Hn Ho]]. destruct (Hsh mb Hmb) as [_ [Hnm Hom]].
  unfold eff_equiv, eff_fast, eff_slow. cbn [fr_shared fr_seeds fr_deps sh_block sh_inkeys sh_holes e_nodes e_out e_reads e_deps combine].
  rewrite (map_ext _ _ fill_node_nil), map_id.
  split; [congruence | split; [congruence | split; [congruence | apply Hd]]].
Qed.

(* the common part of the two projection-based derivations: the bumps have recovered the projections, so the
   record binds every site of the maximal block's subgraph to the block's own read *)
Lemma proj_reads_sound : forall L extra (P : list nproj) sites0 idx0 rows mb inkeys ordered b,
  affine_sites L P -> deps_are_sites L ->
  t_sites (l_task L (zero_block (l_nb L))) = Some sites0 ->
  all_some (map (fun k : site => dep_index (l_deps L) (fst k) 0) sites0) = Some idx0 ->
  infer_proj L extra sites0 = Some rows ->
  build_maximal L (combine idx0 rows) = Some (mb, inkeys, ordered) ->
  in_grid (l_nb L) b ->
  let deps := map (fun p => dep_key (l_deps L) (apply_proj b p)) ordered in
  in_grid (l_nb L) mb /\
  match t_sites (l_task L mb) with
  | None => None
  | Some sm => all_some (map (fun k => assoc_key k (combine inkeys deps)) sm)
  end = t_sites (l_task L b)
  /\ (forall k, In k deps <-> In k (t_deps (l_task L b))).
Proof.
  intros L extra P sites0 idx0 rows mb inkeys ordered b Haff Hdeps Es0 Hidx Erows Hbm Hb deps.
  pose proof (in_grid_pos _ _ Hb) as Hpos.
  rewrite (Haff _ (zero_in_grid _ Hpos)) in Es0. injection Es0 as <-.
  apply (infer_proj_affine L extra P Haff Hpos) in Erows. subst rows.
  set (projections := combine idx0 _) in Hbm.
  apply build_maximal_inv in Hbm. destruct Hbm as [Hmb [sm [Hsm [Hnd [Hset [-> ->]]]]]].
  set (g := fun p : proj => dep_key (l_deps L) (apply_proj b p)) in *.
  assert (Lsm : length sm = length projections).
  { apply all_some_length in Hidx. rewrite (Haff mb Hmb) in Hsm. injection Hsm as <-.
    unfold projections. rewrite combine_length, Hidx, !map_length. lia. }
  assert (NDsm : NoDup sm) by (apply (ndistinct_NoDup site_eqb site_eqb_eq); rewrite Hnd, Lsm; reflexivity).
  destruct (maximal_reads projections sm (t_inkeys (l_task L mb)) g NDsm Lsm Hset) as [Hr Hs].
  assert (Eg : map g projections = map (apply_nproj b) P) by (apply projections_affine; assumption).
  rewrite Hsm. split; [exact Hmb|]. split.
  - unfold deps. rewrite Hr, Eg. symmetry. apply Haff. exact Hb.
  - intro k. unfold deps. rewrite Hs, Eg. symmetry. apply (Hdeps b _ Hb). apply Haff. exact Hb.
Qed.

(** * (a) _analytical_site_spec is sound when the family really is shared with affine slots *)
Lemma analytical_inv : forall L s, analytical L = Some s ->
  let t0 := l_task L (zero_block (l_nb L)) in
  exists sites0 idx0 rows mb inkeys ordered,
    t_sites t0 = Some sites0 /\
    all_some (map (fun k : site => dep_index (l_deps L) (fst k) 0) sites0) = Some idx0 /\
    infer_proj L (fun _ => true) sites0 = Some rows /\
    forallb (analytical_probe_ok L t0 (combine idx0 rows)) (probe_blocks (l_nb L)) = true /\
    build_maximal L (combine idx0 rows) = Some (mb, inkeys, ordered) /\
    s = ProjSpec (mkshared mb inkeys []) ordered [].
Proof.
  intros L s H t0. unfold analytical in H. cbv zeta in H. fold t0 in H.
  destruct (Nat.eqb (length (l_nb L)) 0); [discriminate|].
  destruct (negb (t_ok t0)); [discriminate|].
  destruct (t_sites t0) as [[|k0 s0]|]; try discriminate.
  destruct (all_some _) as [idx0|] eqn:Eidx; [|discriminate].
  destruct (infer_proj _ _ _) as [rows|] eqn:Erows; [|discriminate].
  destruct (negb (Nat.eqb _ _)); [discriminate|].
  destruct (forallb _ (probe_blocks _)) eqn:Ep; [|discriminate].
  destruct (build_maximal L _) as [[[mb inkeys] ordered]|] eqn:Ebm; [|discriminate].
  injection H as <-. exists (k0 :: s0), idx0, rows, mb, inkeys, ordered. repeat split; assumption.
Qed.

Theorem analytical_sound : forall L s (P : list nproj),
  analytical L = Some s ->
  shared_everywhere L -> affine_sites L P -> deps_are_sites L ->
  forall i b, in_grid (l_nb L) b ->
    eff_equiv (eff_fast L (fast_record L s i b)) (eff_slow (l_task L b)).
Proof.
  intros L s P H Hsh Haff Hdeps i b Hb.
  destruct (analytical_inv L s H) as (sites0 & idx0 & rows & mb & inkeys & ordered & Es0 & Eidx & Erows & _ & Ebm & ->).
  destruct (proj_reads_sound L _ P sites0 idx0 rows mb inkeys ordered b Haff Hdeps Es0 Eidx Erows Ebm Hb) as [Hmb [Hr Hd]].
  apply shared_record_equiv; assumption.
Qed.

Lemma find_node_unique : forall ns n, NoDup (map n_key ns) -> In n ns -> find_node (n_key n) ns = Some n.
Proof.
  unfold find_node. induction ns as [|x t IH]; intros n Hnd Hin; cbn in *; [destruct Hin|].
  inversion Hnd as [|? ? Hx Ht]; subst. destruct Hin as [->|Hin]; [rewrite Pos.eqb_refl; reflexivity|].
  destruct (Pos.eqb_spec (n_key x) (n_key n)) as [E|]; [|apply IH; assumption].
  exfalso. apply Hx. rewrite E. apply in_map. exact Hin.
Qed.

(* the seeds zipped with the holes, looked up: a hole has its seed, any other position none *)
Lemma assoc_seed_combine : forall (sv : seedkey -> option lit) holes vals,
  Forall2 (fun h v => sv h = Some v) holes vals ->
  forall h, assoc_seed h (combine holes vals) = if memb seedkey_eqb h holes then sv h else None.
Proof.
  intros sv holes vals H h; induction H as [|x v holes vals Hx H IH]; cbn; [reflexivity|].
  destruct (seedkey_eqb x h) eqn:E.
  - apply seedkey_eqb_eq in E. subst x. rewrite (proj2 (seedkey_eqb_eq h h) eq_refl). symmetry. exact Hx.
  - destruct (seedkey_eqb h x) eqn:E'; [|exact IH].
    apply seedkey_eqb_eq in E'. subst x. rewrite (proj2 (seedkey_eqb_eq h h) eq_refl) in E. discriminate.
Qed.

(* the arguments of one node, from position s on: where the holed arguments of the maximal block and of
   block b agree and every hole is filled with b's own argument, the filled arguments are b's *)
Lemma fill_args_holed : forall (k : positive) (holes : list seedkey) (sv : list (seedkey * lit)) args_m args_b s,
  map (fun p : nat * lit => if memb seedkey_eqb (k, fst p) holes then LVal 1 else snd p) (enum_from s args_m)
  = map (fun p : nat * lit => if memb seedkey_eqb (k, fst p) holes then LVal 1 else snd p) (enum_from s args_b) ->
  (forall i, assoc_seed (k, s + i)%nat sv = if memb seedkey_eqb (k, s + i)%nat holes then nth_error args_b i else None) ->
  map (fun p : nat * lit => match assoc_seed (k, fst p) sv with Some v => v | None => snd p end) (enum_from s args_m)
  = args_b.
Proof.
  intros k holes sv args_m; induction args_m as [|am tm IH]; intros [|ab tb] s E H; cbn in E; try discriminate; [reflexivity|].
  cbn [enum_from map fst snd] in *. injection E as Eh Et. f_equal.
  - specialize (H 0%nat). rewrite Nat.add_0_r in H. rewrite H. destruct (memb _ _ holes); [reflexivity | exact Eh].
  - apply IH; [exact Et|]. intro i. rewrite Nat.add_succ_comm. exact (H (S i)).
Qed.

Lemma map_eq_pointwise : forall {A B} (f : A -> B) (g : A -> A) l l',
  map f l = map f l' -> (forall x y, In y l' -> f x = f y -> g x = y) -> map g l = l'.
Proof.
  intros A B f g l; induction l as [|x t IH]; intros [|y t'] E H; cbn in E; try discriminate; [reflexivity|].
  injection E as Eh Et. cbn. f_equal; [apply H; [left; reflexivity | exact Eh] | apply IH; [exact Et|]].
  intros x' y' Hy. apply H. right. exact Hy.
Qed.

(* the nodes: where the holed subgraphs agree and the seeds are b's own arguments at the holes *)
Lemma fill_nodes_holed : forall holes vals (ns_m ns_b : list node),
  NoDup (map n_key ns_b) ->
  Forall2 (fun h v => match find_node (fst h) ns_b with Some n => nth_error (n_args n) (snd h) | None => None end = Some v)
          holes vals ->
  map (hole_node holes) ns_m = map (hole_node holes) ns_b ->
  map (fill_node (combine holes vals)) ns_m = ns_b.
Proof.
  intros holes vals ns_m ns_b Hnd Hf E. apply (map_eq_pointwise _ _ _ _ E).
  intros [km fm am kwm] [kb fb ab kwb] Hin Eh. unfold hole_node in Eh; cbn [n_key n_func n_args n_kwargs] in Eh.
  injection Eh as -> -> Ea ->. unfold fill_node; cbn [n_key n_func n_args n_kwargs]. f_equal.
  apply (fill_args_holed kb holes); [exact Ea|]. intro i. change (0 + i)%nat with i.
  refine (eq_trans (assoc_seed_combine _ holes vals Hf (kb, i)) _). cbn [fst snd].
  pose proof (find_node_unique ns_b _ Hnd Hin) as Efn. cbn [n_key] in Efn. rewrite Efn. reflexivity.
Qed.

(** * (a) _seed_spec is sound when the seeds really are templated and the slots affine *)
Theorem seed_sound : forall L sh projs tmpls (P : list nproj),
  seed_spec L = Some (ProjSpec sh projs tmpls) ->
  seeds_everywhere L (sh_holes sh) tmpls -> canon_keys_unique L ->
  affine_sites L P -> deps_are_sites L ->
  forall i b, in_grid (l_nb L) b ->
    eff_equiv (eff_fast L (fast_record L (ProjSpec sh projs tmpls) i b)) (eff_slow (l_task L b)).
Proof.
  intros L sh projs tmpls P H Hseed Hkeys Haff Hdeps i b Hb.
  unfold seed_spec in H. cbv zeta in H.
  destruct (Nat.eqb (length (l_nb L)) 0); [discriminate|].
  destruct (negb (t_ok _)); [discriminate|].
  destruct (t_sites _) as [[|k0 s0]|] eqn:Es0; try discriminate.
  destruct (all_some _) as [idx0|] eqn:Eidx in H; [|discriminate].
  destruct (infer_proj L _ _) as [rows|] eqn:Erows in H; [|discriminate].
  destruct (classify_seeds L _ _) as [[|st0 stm]|] in H; try discriminate.
  destruct (negb (Nat.eqb _ _)) in H; [discriminate|].
  destruct (negb (forallb _ _)) in H; [discriminate|].
  destruct (build_maximal L _) as [[[mb inkeys] ordered]|] eqn:Ebm; [|discriminate].
  destruct (negb (forallb _ _)) in H; [discriminate|].
  injection H as <- <- <-.
  destruct (proj_reads_sound L _ P _ idx0 rows mb inkeys ordered b Haff Hdeps Es0 Eidx Erows Ebm Hb) as [Hmb [Hr Hd]].
  cbn [sh_holes] in Hseed.
  destruct (Hseed b Hb) as [_ [Hn [Ho Hv]]]. destruct (Hseed mb Hmb) as [_ [Hnm [Hom _]]].
  unfold eff_equiv, eff_fast, eff_slow, fast_record.
  cbn [fr_shared fr_seeds fr_deps fr_block sh_block sh_inkeys sh_holes e_nodes e_out e_reads e_deps].
  split; [|split; [congruence | split; [congruence | apply Hd]]].
  (* the nodes are the maximal block's with its holes filled by the seeds of b *)
  apply fill_nodes_holed; [apply Hkeys; exact Hb | | congruence].
  clear - Hv. induction Hv; cbn [map]; constructor; assumption.
Qed.

(** * (a) for the two exact derivations (_MatSpec): _site_based_spec and _fast_spec_uniform *)
Lemma Forall2_map_eq : forall {A B} (R : A -> B -> Prop) (g : B -> A) l r,
  Forall2 R l r -> (forall x y, R x y -> g y = x) -> map g r = l.
Proof. intros A B R g l r H Hg; induction H as [|x y l r Hxy _ IH]; cbn; [reflexivity | rewrite (Hg x y Hxy), IH; reflexivity]. Qed.

Lemma dep_slots_roundtrip : forall names ks slots, dep_slots names ks = Some slots -> map (dep_key names) slots = ks.
Proof.
  intros names ks slots H. apply all_some_Forall2_inv in H. apply (Forall2_map_eq _ _ _ _ H). apply dep_key_slot.
Qed.

Lemma assoc_key_combine_self : forall (l v : list site), NoDup l -> length l = length v ->
  all_some (map (fun k => assoc_key k (combine l v)) l) = Some v.
Proof.
  intros l v Hnd Hl. pose proof (map_index_nth site_eqb site_eqb_eq l v (1%positive, []) Hnd Hl) as E.
  set (g := fun k => nth _ v _) in E. rewrite <- E. apply all_some_map. intros k Hk. apply assoc_key_combine_map, Hk.
Qed.

(* the slots the loop of _site_based_spec stores for one block are its sites *)
Lemma site_block_slots_inv : forall L n b sl, site_block_slots L n b = Some sl ->
  exists sites, t_sites (l_task L b) = Some sites /\ length sites = n /\ map (dep_key (l_deps L)) sl = sites.
Proof.
  intros L n b sl H. unfold site_block_slots in H.
  destruct (negb (t_ok _)); [discriminate|]. destruct (t_sites (l_task L b)) as [sites|]; [|discriminate].
  destruct (Nat.eqb_spec (length sites) n) as [E|]; [|discriminate]. destruct (set_eqb _ _ _); [|discriminate].
  exists sites. split; [reflexivity|]. split; [exact E | apply dep_slots_roundtrip; exact H].
Qed.

Lemma site_based_inv : forall L s, site_based L = Some s ->
  exists n slots mb sm,
    forallb (site_probe_ok L (l_task L (zero_block (l_nb L))) n) (probe_blocks (l_nb L)) = true /\
    all_some (map (site_block_slots L n) (all_blocks (l_nb L))) = Some slots /\
    In mb (all_blocks (l_nb L)) /\ t_sites (l_task L mb) = Some sm /\ ndistinct site_eqb sm = n /\
    s = MatSpec (mkshared mb sm []) slots.
Proof.
  intros L s H. unfold site_based in H. cbv zeta in H.
  destruct (Nat.eqb (length (l_nb L)) 0); [discriminate|].
  destruct (all_blocks (l_nb L)) as [|b0 rest] eqn:Eb; [discriminate|].
  pose proof (all_blocks_head _ _ _ Eb). subst b0. rewrite <- Eb in *.
  destruct (negb (t_ok _)); [discriminate|].
  destruct (t_sites (l_task L (zero_block (l_nb L)))) as [s0|]; [|discriminate].
  destruct (forallb _ (probe_blocks _)) eqn:Ep; [|discriminate].
  destruct (Nat.eqb (length s0) 0); [discriminate|].
  destruct (all_some _) as [slots|] eqn:Esl; [|discriminate].
  destruct (find _ _) as [mb|] eqn:Ef; [|discriminate].
  apply find_some in Ef. destruct Ef as [Hmb Em].
  destruct (t_sites (l_task L mb)) as [sm|] eqn:Esm; [|discriminate]. apply Nat.eqb_eq in Em.
  injection H as <-. exists (length s0), slots, mb, sm. repeat split; assumption.
Qed.

Theorem site_based_sound : forall L s,
  site_based L = Some s -> shared_everywhere L -> deps_are_sites L ->
  forall i b, nth_error (all_blocks (l_nb L)) i = Some b ->
    eff_equiv (eff_fast L (fast_record L s i b)) (eff_slow (l_task L b)).
Proof.
  intros L s H Hsh Hdeps i b Hi.
  assert (Hb : in_grid (l_nb L) b) by (apply all_blocks_spec; eapply nth_error_In; exact Hi).
  destruct (site_based_inv L s H) as (n & slots & mb & sm & _ & Esl & Hmb & Esm & Em & ->).
  destruct (site_block_slots_inv _ _ _ _ (nth_all_some_map _ _ _ _ _ [] Esl Hi)) as [sb [Esb [Lsb Hslot]]].
  (* the maximal block has as many sites as every block: they are distinct *)
  destruct (In_nth_error _ _ Hmb) as [j Hj].
  destruct (site_block_slots_inv _ _ _ _ (nth_all_some_map _ _ _ _ _ [] Esl Hj)) as [sm' [Esm' [Lsm _]]].
  rewrite Esm in Esm'. injection Esm' as <-.
  apply shared_record_equiv; [exact Hsh | apply all_blocks_spec; exact Hmb | exact Hb | |].
  - rewrite Esm, Hslot, Esb. apply assoc_key_combine_self; [|congruence].
    apply (ndistinct_NoDup site_eqb site_eqb_eq). congruence.
  - intro k. rewrite Hslot. symmetry. apply (Hdeps b sb Hb Esb).
Qed.

(* binding by source NAME: the shared subgraph is block 0's, its inkeys have distinct names *)
Lemma assoc_key_by_name : forall (inkeys0 E : list site) k x,
  NoDup (map fst inkeys0) -> map fst E = map fst inkeys0 -> In k inkeys0 -> In x E -> fst x = fst k ->
  assoc_key k (combine inkeys0 E) = Some x.
Proof.
  induction inkeys0 as [|k0 t IH]; intros [|e0 E] k x Hnd Hf Hk Hx Hn; cbn in Hf; try discriminate; [destruct Hk|].
  injection Hf as Hf0 Hft. inversion Hnd as [|? ? Hk0 Hnt]; subst. cbn.
  destruct (site_eqb k0 k) eqn:Ek.
  - apply site_eqb_eq in Ek. subst k0. destruct Hx as [->|Hx]; [reflexivity|].
    exfalso. apply Hk0. rewrite <- Hn, <- Hft. apply in_map. exact Hx.
  - destruct Hk as [->|Hk]; [rewrite site_eqb_refl in Ek; discriminate|].
    destruct Hx as [->|Hx]; [|apply IH; assumption].
    exfalso. apply Hk0. rewrite <- Hf0, Hn. apply in_map. exact Hk.
Qed.

Lemma uniform_reads : forall (inkeys0 E sites0 sites_b : list site),
  NoDup (map fst inkeys0) -> map fst E = map fst inkeys0 ->
  (forall k, In k sites0 -> In k inkeys0) -> map fst sites_b = map fst sites0 ->
  (forall k, In k sites_b -> In k E) ->
  all_some (map (fun k => assoc_key k (combine inkeys0 E)) sites0) = Some sites_b.
Proof.
  intros inkeys0 E sites0 sites_b Hnd Hf H0 Hn Hb. apply all_some_Forall2.
  revert sites_b Hn Hb. induction sites0 as [|k t IH]; intros [|x sb] Hn Hb; cbn in Hn; try discriminate; constructor;
    injection Hn as Hn0 Hn.
  - apply assoc_key_by_name; cbn in *; auto.
  - apply IH; cbn in *; auto.
Qed.

Lemma assoc_site_In : forall {B} lb (l : list (positive * B)) v, assoc_site lb l = Some v -> In (lb, v) l.
Proof.
  intros B lb l; induction l as [|[x w] t IH]; intros v H; cbn in H; [discriminate|].
  destruct (Pos.eqb_spec x lb) as [->|_]; [injection H as <-; left; reflexivity | right; apply IH; exact H].
Qed.

Lemma assoc_site_unique : forall {B} lb (l : list (positive * B)) v,
  NoDup (map fst l) -> In (lb, v) l -> assoc_site lb l = Some v.
Proof.
  intros B lb l; induction l as [|[x w] t IH]; intros v Hnd Hin; cbn in *; [destruct Hin|].
  inversion Hnd as [|? ? Hx Ht]; subst. destruct Hin as [[= -> ->]|Hin]; [rewrite Pos.eqb_refl; reflexivity|].
  destruct (Pos.eqb_spec x lb) as [->|_]; [|apply IH; assumption].
  exfalso. apply Hx. apply (in_map fst) in Hin. exact Hin.
Qed.

Lemma combine_map_self : forall {A B} (f : A -> B) l, combine (map f l) l = map (fun x => (f x, x)) l.
Proof. intros A B f l; induction l as [|x t IH]; cbn; [reflexivity | rewrite IH; reflexivity]. Qed.

(* the slots the exact loop of _fast_spec_uniform stores for one block: its own inkeys, in the
   order of block 0's labels *)
Lemma uniform_block_slots_spec : forall L labels0 b sl,
  uniform_block_slots L labels0 b = Some sl ->
  let E := map (dep_key (l_deps L)) sl in
  map fst E = labels0 /\ (forall k, In k E <-> In k (t_inkeys (l_task L b))).
Proof.
  intros L labels0 b sl H E. unfold uniform_block_slots in H. cbv zeta in H.
  destruct (negb (t_ok _)); [discriminate|].
  destruct (Nat.eqb (ndistinct Pos.eqb _) _) eqn:End in H; [|discriminate].
  apply Nat.eqb_eq, (ndistinct_NoDup Pos.eqb Pos.eqb_eq) in End.
  destruct (set_eqb Pos.eqb _ labels0) eqn:Elab; [|discriminate]. pose proof (proj1 (set_eqb_spec _ Pos.eqb_eq _ _) Elab) as Hlab.
  destruct (set_eqb site_eqb _ _); [|discriminate].
  destruct (dep_slots (l_deps L) _) as [slots|] eqn:Eds; [|discriminate].
  (* the block's inkeys are the keys of its slots: the labels key the slots *)
  apply dep_slots_roundtrip in Eds. rewrite <- Eds in *. clear Eds Elab.
  set (key := fun v : slot => fst (dep_key (l_deps L) v)).
  rewrite map_map in H, End, Hlab. fold key in H, End, Hlab. rewrite combine_map_self in H.
  set (pairs := map (fun v => (key v, v)) slots) in H.
  assert (Hget : forall lb v, assoc_site lb pairs = Some v -> In v slots /\ key v = lb).
  { intros lb v Ha. apply assoc_site_In, in_map_iff in Ha. destruct Ha as [x [[= <- <-] Hx]]. auto. }
  assert (Hfind : forall v, In v slots -> assoc_site (key v) pairs = Some v).
  { intros v Hv. apply assoc_site_unique; [unfold pairs; rewrite map_map; exact End | apply (in_map (fun x => (key x, x))), Hv]. }
  apply all_some_Forall2_inv in H. split.
  - unfold E. rewrite map_map. apply (Forall2_map_eq _ _ _ _ H). intros lb v Hv. apply Hget, Hv.
  - intro k. unfold E. rewrite !in_map_iff. split; intros [v [<- Hv]]; exists v; (split; [reflexivity|]).
    + destruct (Forall2_In_r _ _ _ _ H Hv) as [lb [_ Ha]]. apply (Hget lb v Ha).
    + destruct (Forall2_In_l _ _ _ (key v) H) as [y [Hy Ha]]; [apply Hlab, in_map, Hv|].
      rewrite (Hfind v Hv) in Ha. injection Ha as <-. exact Hy.
Qed.

Lemma broadcast_spec_names : forall L inkeys0 sources b, broadcast_spec L inkeys0 = Some sources ->
  map (dep_key (l_deps L)) (map (fun s : nat * positive * list Z => (fst (fst s), broadcast_block_id (snd s) b)) sources)
  = map (fun s : nat * positive * list Z => (snd (fst s), broadcast_block_id (snd s) b)) sources
  /\ map (fun s : nat * positive * list Z => snd (fst s)) sources = map fst inkeys0.
Proof.
  intros L inkeys0 sources b H. unfold broadcast_spec in H. apply all_some_Forall2_inv in H.
  induction H as [|k s ks ss Hk H IH]; cbn; [auto|].
  destruct (dep_index (l_deps L) (fst k) 0) as [i|] eqn:E; [|discriminate]. injection Hk as <-. cbn [fst snd].
  destruct IH as [-> ->]. unfold dep_key; cbn [fst snd]. rewrite (dep_index_name _ _ _ E). auto.
Qed.

Lemma uniform_inv : forall L s, uniform L = Some s ->
  let t0 := l_task L (zero_block (l_nb L)) in
  NoDup (map fst (t_inkeys t0)) /\
  exists slots, s = MatSpec (mkshared (zero_block (l_nb L)) (t_inkeys t0) []) slots /\
    ((exists sources, broadcast_spec L (t_inkeys t0) = Some sources /\ validate_broadcast L t0 sources = true /\
        slots = map (fun b => map (fun s : nat * positive * list Z => (fst (fst s), broadcast_block_id (snd s) b)) sources)
                    (all_blocks (l_nb L)))
     \/ independence_test L = true /\
        all_some (map (uniform_block_slots L (map fst (t_inkeys t0))) (all_blocks (l_nb L))) = Some slots).
Proof.
  intros L s H t0. unfold uniform in H. cbv zeta in H. fold t0 in H.
  destruct (Nat.eqb (length (l_nb L)) 0); [discriminate|].
  destruct (negb (t_ok t0)); [discriminate|].
  destruct (Nat.eqb (ndistinct Pos.eqb _) _) eqn:End in H; [|discriminate].
  apply Nat.eqb_eq, (ndistinct_NoDup Pos.eqb Pos.eqb_eq) in End. split; [exact End|].
  destruct (broadcast_spec L (t_inkeys t0)) as [sources|] eqn:Eb; [destruct (validate_broadcast L t0 sources) eqn:Ev|].
  1: { injection H as <-. eexists. split; [reflexivity|]. left. exists sources. auto. }
  all: destruct (forallb _ (probe_blocks _)) eqn:Ep in H; [|discriminate];
    destruct (all_some _) as [slots|] eqn:Esl in H; [|discriminate];
    injection H as <-; eexists; split; [reflexivity|]; right; split; [exact Ep | exact Esl].
Qed.

Theorem uniform_sound : forall L s,
  uniform L = Some s -> shared_everywhere L -> fuse_wf L -> broadcast_everywhere L ->
  forall i b, nth_error (all_blocks (l_nb L)) i = Some b ->
    eff_equiv (eff_fast L (fast_record L s i b)) (eff_slow (l_task L b)).
Proof.
  intros L s H Hsh Hwf Hbc i b Hi.
  assert (Hb : in_grid (l_nb L) b) by (apply all_blocks_spec; eapply nth_error_In; exact Hi).
  pose proof (zero_in_grid _ (in_grid_pos _ _ Hb)) as Hz.
  destruct (Hwf _ Hz) as [s0 [Es0 [Hs0in _]]].
  destruct (Hwf b Hb) as [sb [Esb [Hsbin [Hdb Hnames]]]]. specialize (Hnames s0 Es0).
  destruct (uniform_inv L s H) as [End [slots [-> Hsl]]].
  set (t0 := l_task L (zero_block (l_nb L))) in *.
  (* whichever branch made the slots: E = the dependency keys of the record, named like block 0's
     inkeys, and exactly the block's own inkeys *)
  assert (G : let E := map (dep_key (l_deps L)) (nth i slots []) in
              map fst E = map fst (t_inkeys t0) /\ (forall k, In k E <-> In k (t_inkeys (l_task L b)))).
  { destruct Hsl as [[sources [Eb [Ev ->]]]|[_ Esl]].
    - cbv zeta. rewrite (nth_map_error _ _ _ _ [] Hi).
      destruct (broadcast_spec_names L _ _ b Eb) as [-> B2]. split.
      + rewrite map_map. exact B2.
      + intro k. rewrite (Hbc sources Eb Ev b Hb k). apply Hdb.
    - exact (uniform_block_slots_spec _ _ _ _ (nth_all_some_map _ _ _ _ _ [] Esl Hi)). }
  destruct G as [HE1 HE2].
  apply shared_record_equiv; auto.
  - fold t0. rewrite Es0, Esb. apply uniform_reads; auto. intros k Hk. apply HE2, Hsbin, Hk.
  - intro k. rewrite HE2. symmetry. apply Hdb.
Qed.

(** * Every derivation that accepts has run the independence test — on the probes *)
Lemma forallb_impl : forall {A} (f g : A -> bool) l,
  (forall x, f x = true -> g x = true) -> forallb f l = true -> forallb g l = true.
Proof. intros A f g l H. rewrite !forallb_forall. auto. Qed.

Lemma analytical_tests_probes : forall L s, analytical L = Some s -> independence_test L = true.
Proof.
  intros L s H. destruct (analytical_inv L s H) as (sites0 & idx0 & rows & _ & _ & _ & _ & _ & _ & Ep & _).
  revert Ep. apply forallb_impl. intros x Hx.
  unfold analytical_probe_ok in Hx. rewrite !andb_true_iff in Hx. apply Hx.
Qed.

Lemma uniform_tests_probes : forall L s, uniform L = Some s -> independence_test L = true.
Proof.
  intros L s H. destruct (uniform_inv L s H) as [_ [slots [_ [[sources [_ [Ev _]]]|[Ht _]]]]]; [|exact Ht].
  revert Ev. apply forallb_impl. intros x Hx. rewrite !andb_true_iff in Hx. apply Hx.
Qed.

Lemma site_based_tests_probes : forall L s, site_based L = Some s -> independence_test L = true.
Proof.
  intros L s H. destruct (site_based_inv L s H) as (n & _ & _ & _ & Ep & _).
  revert Ep. apply forallb_impl. intros x Hx.
  unfold site_probe_ok in Hx. rewrite !andb_true_iff in Hx. apply Hx.
Qed.

(* the three derivations that share block 0's subgraph as it is; `seed_spec` is not among them: its
   probes are compared with the holes blanked (`hole_eqb`), not by `canon_eqb` *)
Lemma fast_paths_test_probes_only : forall L s,
  analytical L = Some s \/ uniform L = Some s \/ site_based L = Some s -> independence_test L = true.
Proof.
  intros L s [H|[H|H]];
    [eapply analytical_tests_probes | eapply uniform_tests_probes | eapply site_based_tests_probes]; exact H.
Qed.

Lemma eff_eqb_spec : forall a b, eff_eqb a b = true <-> eff_equiv a b.
Proof.
  intros [na oa ra da] [nb ob rb db]. unfold eff_eqb, eff_equiv. cbn [e_nodes e_out e_reads e_deps].
  rewrite !andb_true_iff, (list_eqb_eq node_eqb node_eqb_eq), label_eqb_eq, (set_eqb_spec site_eqb site_eqb_eq).
  assert (R : match ra, rb with
              | Some x, Some y => list_eqb site_eqb x y
              | None, None => true
              | _, _ => false end = true <-> ra = rb).
  { destruct ra as [x|], rb as [y|]; try (split; congruence).
    rewrite (list_eqb_eq site_eqb site_eqb_eq). split; congruence. }
  rewrite R. tauto.
Qed.

(** * (b) the probe test is incomplete *)
Theorem probe_test_incomplete : 
  exists L s b i,
    independence_test L = true /\ fast_spec L = Some s /\
    nth_error (all_blocks (l_nb L)) i = Some b /\ ~ In b (probe_blocks (l_nb L)) /\
    ~ eff_equiv (eff_fast L (fast_record L s i b)) (eff_slow (l_task L b)).
Proof.
  exists c21a_layer, (MatSpec (mkshared [0] [] []) [[]; []; []; []]), [1], 1%nat.
  split; [vm_compute; reflexivity|]. split; [vm_compute; reflexivity|]. split; [reflexivity|].
  split.
  - intro H. vm_compute in H. repeat (destruct H as [H|H]; [discriminate|]). exact H.
  - intro H. apply eff_eqb_spec in H. vm_compute in H. discriminate.
Qed.

(* the same through _analytical_site_spec (a source is read): the slots are right, the literal is not *)
Theorem probe_test_incomplete_analytical :
  exists L s b i,
    analytical L = Some s /\ affine_sites L [(3%positive, [PBid 0])] /\ deps_are_sites L /\
    nth_error (all_blocks (l_nb L)) i = Some b /\ ~ In b (probe_blocks (l_nb L)) /\
    ~ eff_equiv (eff_fast L (fast_record L s i b)) (eff_slow (l_task L b)).
Proof.
  exists c21a_src_layer, (ProjSpec (mkshared [0] [(3%positive, [0])] []) [(0%nat, [PBid 0])] []), [1], 1%nat.
  split; [vm_compute; reflexivity|].
  split; [intros b Hb; inversion Hb as [|? x ? b' Hx Hb']; subst; inversion Hb'; subst; reflexivity|].
  split; [intros b s Hb Hs k; cbn in Hs; inversion Hs; subst; reflexivity|].
  split; [reflexivity|]. split.
  - intro H. vm_compute in H. repeat (destruct H as [H|H]; [discriminate|]). exact H.
  - intro H. apply eff_eqb_spec in H. vm_compute in H. discriminate.
Qed.

(* The shape of the finding: a family without sources whose literal is, at every PROBE, the one of block 0
   passes every test.  _analytical_site_spec declines (there is no site), the broadcast branch of
   _fast_spec_uniform accepts, and every block gets block 0's subgraph. *)
Lemma creation_family_accepted : forall nb chunks (c : block -> Z),
  nb <> [] -> (forall p, In p (probe_blocks nb) -> c p = c (zero_block nb)) ->
  let L := mklayer nb [] [] chunks (fun b => creation_task (c b)) in
  independence_test L = true /\
  fast_spec L = Some (MatSpec (mkshared (zero_block nb) [] []) (map (fun _ => []) (all_blocks nb))).
Proof.
  intros nb chunks c Hnb Hp L.
  assert (Hprobe : forall p, In p (probe_blocks nb) -> canon_eqb (l_task L p) (l_task L (zero_block nb)) = true).
  { intros p Hpp. cbn [L l_task]. rewrite (Hp p Hpp). apply canon_eqb_eq. auto. }
  assert (Hall : independence_test L = true) by (apply forallb_forall; exact Hprobe).
  split; [exact Hall|]. destruct nb as [|n nb']; [contradiction|].
  assert (Ea : analytical L = None) by reflexivity.
  assert (Ev : validate_broadcast L (l_task L (zero_block (n :: nb'))) [] = true).
  { apply forallb_forall. intros p Hpp. cbv beta zeta. rewrite (Hprobe p Hpp). reflexivity. }
  unfold fast_spec, fast_spec_path. rewrite Ea. unfold uniform. cbv zeta.
  cbn [l_nb L length Nat.eqb l_task t_ok negb creation_task t_inkeys map ndistinct dedup broadcast_spec all_some] in Ev |- *.
  rewrite Ev. reflexivity.
Qed.

(* In one dimension the covered positions are EXACTLY the ones at which a deviating literal is
   caught: for every other position there is a family that passes every test of the fast path and
   whose generated record is wrong there. *)
Theorem probe_cover_exact_1d : forall n k, 0 <= k < n -> ~ covered n 0 k ->
  let L := spike_layer n k in
  independence_test L = true /\
  exists s, fast_spec L = Some s /\
    nth_error (all_blocks (l_nb L)) (Z.to_nat k) = Some [k] /\
    ~ eff_equiv (eff_fast L (fast_record L s (Z.to_nat k) [k])) (eff_slow (l_task L [k])).
Proof.
  intros n k Hk Hc L.
  assert (H0 : (0 =? k) = false) by (apply Z.eqb_neq; intros <-; apply Hc; left; reflexivity).
  destruct (creation_family_accepted [n] [None] (fun b => if nth 0 b 0 =? k then 3 else 1)) as [Hall Hs]; [discriminate| |].
  { (* no probe sits at k *)
    intros p Hp. pose proof (probe_positions [n] p 0 n Hp eq_refl) as Hcov. cbn [zero_block map nth]. rewrite H0.
    destruct (Z.eqb_spec (nth 0 p 0) k) as [<-|]; [contradiction | reflexivity]. }
  split; [exact Hall|]. eexists. split; [exact Hs|]. split.
  - change (l_nb L) with [n]. cbn [all_blocks].
    assert (G : forall l : list Z, flat_map (fun i => map (cons i) [[]]) l = map (fun i => [i]) l).
    { induction l as [|x t IH]; [reflexivity|]. cbn [flat_map map app]. apply f_equal. exact IH. }
    rewrite G. unfold range0. rewrite map_map, nth_error_map, nth_error_nth' with (d := 0%nat) by (rewrite seq_length; lia).
    rewrite seq_nth by lia. cbn. do 2 f_equal. lia.
  - intros [Hn _]. unfold eff_fast, fast_record, eff_slow in Hn.
    cbn [e_nodes fr_shared sh_block sh_holes fr_seeds combine L spike_layer l_task nth zero_block map] in Hn.
    rewrite H0, Z.eqb_refl in Hn. discriminate.
Qed.

(** * (c) When the probe test IS sufficient; (c) + (a): then an accepted fast path is right everywhere *)
(* the instance the code bets on: a leaf that has ONE value on all the interior positions of its
   axis (whatever it is at the first and at the last position) — e.g. the block size of uniform
   chunks with a shorter last (and/or first) block *)
Lemma interior_covered : forall (g : Z -> Z) n a, 1 <= n ->
  (forall k k', 0 < k < n - 1 -> 0 < k' < n - 1 -> g k = g k') ->
  forall k, 0 <= k < n -> exists k', covered n a k' /\ g k = g k'.
Proof.
  intros g n a Hn Hint k Hk. unfold covered.
  destruct (Z.eq_dec k 0) as [->|E]; [exists 0; auto|].
  destruct (Z.eq_dec k (n - 1)) as [->|E1]; [exists (n - 1); auto|].
  exists (n / 2). split; [auto|]. pose proof (half_range n Hn). apply Hint; lia.
Qed.

(* The canonical subgraph of block b is `build` of a vector of int leaves (injectively: it is a term
   with int holes); leaf (a, g) takes the value g (b[a]): it depends on ONE output axis.  If every
   position of that axis carries the value of some covered position, then the test on the probes
   decides block independence for the whole grid. *)
Section Leaves.
  Variables (L : layer) (build : list Z -> list node * label) (leaves : list (nat * (Z -> Z))).
  Hypothesis build_inj : forall v w, build v = build w -> v = w.
  Hypothesis Hfam : forall b, in_grid (l_nb L) b ->
     (t_nodes (l_task L b), t_out (l_task L b)) = build (map (fun ag : nat * (Z -> Z) => snd ag (nth (fst ag) b 0)) leaves).

  Theorem probe_test_complete :
    (forall a g n, In (a, g) leaves -> nth_error (l_nb L) a = Some n ->
       forall k, 0 <= k < n -> exists k', covered n a k' /\ g k = g k') ->
    independence_test L = true ->
    forall b, in_grid (l_nb L) b ->
      t_nodes (l_task L b) = t_nodes (l_task L (zero_block (l_nb L))) /\
      t_out (l_task L b) = t_out (l_task L (zero_block (l_nb L))).
  Proof.
    intros Hcov Ht b Hb.
    pose proof (in_grid_pos _ _ Hb) as Hpos. pose proof (zero_in_grid _ Hpos) as Hz.
    enough (E : (t_nodes (l_task L b), t_out (l_task L b))
                = (t_nodes (l_task L (zero_block (l_nb L))), t_out (l_task L (zero_block (l_nb L)))))
      by (injection E; auto).
    rewrite (Hfam b Hb), (Hfam _ Hz). f_equal.
    apply map_ext_in. intros [a g] Hag. cbn [fst snd]. rewrite nth_zero_block.
    destruct (nth_error (l_nb L) a) as [n|] eqn:En.
    - destruct (Hcov a g n Hag En _ (in_grid_nth _ _ Hb a n En)) as [k' [Hc ->]].
      destruct (covered_probed _ a n k' Hpos En Hc) as [_ [p [Hp <-]]].
      (* the probe p passed the test: its leaves have block 0's values *)
      unfold independence_test in Ht. rewrite forallb_forall in Ht.
      destruct (proj1 (canon_eqb_eq _ _) (Ht p Hp)) as [En' Eo'].
      pose proof (Hfam p (probes_in_grid _ _ Hpos Hp)) as Ep. rewrite En', Eo', (Hfam _ Hz) in Ep.
      apply build_inj in Ep. rewrite map_ext_in_iff in Ep. specialize (Ep (a, g) Hag). cbn [fst snd] in Ep.
      rewrite nth_zero_block in Ep. symmetry. exact Ep.
    - apply nth_error_None in En. rewrite nth_overflow; [reflexivity|]. rewrite (in_grid_length _ _ Hb). exact En.
  Qed.

  Theorem probe_test_complete_interior :
    (forall a g n, In (a, g) leaves -> nth_error (l_nb L) a = Some n ->
       forall k k', 0 < k < n - 1 -> 0 < k' < n - 1 -> g k = g k') ->
    independence_test L = true ->
    forall b, in_grid (l_nb L) b ->
      t_nodes (l_task L b) = t_nodes (l_task L (zero_block (l_nb L))) /\
      t_out (l_task L b) = t_out (l_task L (zero_block (l_nb L))).
  Proof.
    intros Hint Ht b Hb. apply probe_test_complete; auto.
    intros a g n Hag Ha k Hk. apply interior_covered; [|eapply Hint; eauto | exact Hk].
    pose proof (in_grid_pos _ _ Hb) as Hpos. rewrite Forall_forall in Hpos. apply Hpos. eapply nth_error_In. exact Ha.
  Qed.

  Hypothesis Hcov : forall a g n, In (a, g) leaves -> nth_error (l_nb L) a = Some n ->
     forall k, 0 <= k < n -> exists k', covered n a k' /\ g k = g k'.
  Hypothesis Hok : forall b, in_grid (l_nb L) b -> t_ok (l_task L b) = true.

  Lemma covered_shared : independence_test L = true -> shared_everywhere L.
  Proof. intros Ht b Hb. split; [apply Hok; exact Hb | apply probe_test_complete; assumption]. Qed.

  Theorem analytical_sound_covered : forall s P,
    analytical L = Some s -> affine_sites L P -> deps_are_sites L ->
    forall i b, in_grid (l_nb L) b -> eff_equiv (eff_fast L (fast_record L s i b)) (eff_slow (l_task L b)).
  Proof.
    intros s P H Haff Hdeps. apply (analytical_sound L s P H); auto.
    apply covered_shared. eapply analytical_tests_probes. exact H.
  Qed.

  Theorem uniform_sound_covered : forall s,
    uniform L = Some s -> fuse_wf L -> broadcast_everywhere L ->
    forall i b, nth_error (all_blocks (l_nb L)) i = Some b ->
      eff_equiv (eff_fast L (fast_record L s i b)) (eff_slow (l_task L b)).
  Proof.
    intros s H Hwf Hbc. apply (uniform_sound L s H); auto.
    apply covered_shared. eapply uniform_tests_probes. exact H.
  Qed.

  Theorem site_based_sound_covered : forall s,
    site_based L = Some s -> deps_are_sites L ->
    forall i b, nth_error (all_blocks (l_nb L)) i = Some b ->
      eff_equiv (eff_fast L (fast_record L s i b)) (eff_slow (l_task L b)).
  Proof.
    intros s H Hdeps. apply (site_based_sound L s H); auto.
    apply covered_shared. eapply site_based_tests_probes. exact H.
  Qed.
End Leaves.

(** * The boolean well-formedness check implies the hypotheses of the theorems *)
Lemma task_wf_sound : forall t0 t, task_wf_b t0 t = true ->
  exists s s0, t_sites t = Some s /\ t_sites t0 = Some s0 /\
    (forall k, In k s -> In k (t_inkeys t)) /\
    (forall k, In k (t_deps t) <-> In k (t_inkeys t)) /\
    (forall k, In k (t_deps t) <-> In k s) /\
    map fst s = map fst s0 /\ NoDup (map n_key (t_nodes t)).
Proof.
  intros t0 t H. unfold task_wf_b in H.
  destruct (t_sites t) as [s|]; [|discriminate]. destruct (t_sites t0) as [s0|]; [|discriminate].
  rewrite !andb_true_iff, forallb_forall, !(set_eqb_spec site_eqb site_eqb_eq),
    (list_eqb_eq Pos.eqb Pos.eqb_eq), Nat.eqb_eq, (ndistinct_NoDup Pos.eqb Pos.eqb_eq) in H.
  destruct H as [[[[H1 H2] H3] H4] H5]. exists s, s0. repeat split; auto; try apply H2; try apply H3.
  intros k Hk. apply (memb_In site_eqb site_eqb_eq), H1, Hk.
Qed.

Lemma family_wf_sound : forall L, family_wf_b L = true -> fuse_wf L /\ deps_are_sites L /\ canon_keys_unique L.
Proof.
  intros L H. unfold family_wf_b in H. rewrite forallb_forall in H.
  assert (G : forall b, in_grid (l_nb L) b -> _) by (intros b Hb; exact (task_wf_sound _ _ (H b (proj2 (all_blocks_spec _ _) Hb)))).
  split; [|split]; intros b; [intros Hb | intros s Hb Es | intros Hb];
    destruct (G b Hb) as [s' [s0 [E1 [E2 [H1 [H2 [H3 [H4 H5]]]]]]]].
  - exists s'. repeat split; auto; try apply H2. intros s0' E. rewrite E2 in E. injection E as <-. exact H4.
  - rewrite E1 in Es. injection Es as <-. exact H3.
  - exact H5.
Qed.

(** * The probe validation compares the reads as a MULTISET *)
(* `sorted(block_slots(bid)) == sorted(actual)`: even at a PROBED block of a truly shared family the
   binding of sites to source blocks is not validated, only inferred (model-level observation: the
   block maps of real blockwise expressions are per-site functions of the block id). *)
Theorem probe_validation_is_multiset :
  exists L s b i,
    analytical L = Some s /\ shared_everywhere L /\ deps_are_sites L /\
    nth_error (all_blocks (l_nb L)) i = Some b /\ In b (probe_blocks (l_nb L)) /\
    ~ eff_equiv (eff_fast L (fast_record L s i b)) (eff_slow (l_task L b)).
Proof.
  exists swapped_layer,
         (ProjSpec (mkshared [0; 1] [(3%positive, [0; 1]); (3%positive, [1; 0])] [])
                   [(0%nat, [PBid 0; PBid 1]); (0%nat, [PBid 1; PBid 0])] []), [2; 0], 6%nat.
  split; [vm_compute; reflexivity|].
  split; [intros b Hb; repeat split; reflexivity|].
  split.
  - intros b s Hb Hs k. unfold swapped_layer in *. cbn [l_task t_sites t_deps] in *. inversion Hs. reflexivity.
  - split; [reflexivity|]. split.
    { (* [2; 0] is the probe at the last position of axis 0 *)
      exact (probe_axis_cover [3; 3] 0 3 2 eq_refl ltac:(lia) (or_intror (or_introl eq_refl))). }
    intro H. apply eff_eqb_spec in H. vm_compute in H. discriminate.
Qed.
