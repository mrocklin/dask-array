(* Soundness of the rewrite rules of ExprRules.v: each rule preserves the
   denoted array (aeq), for all shapes, indices and operand values; and, for C08,
   what each rule does to the measure [mu].
   Three parts.  Facts about indices and shapes, rule by rule: R3, R4, transposition
   through an element-wise operation, R9, R7.  [Section Sound]: the public __getitem__,
   then the rules R2, R1, R5, R6, R3, R8, R4, transposition through an element-wise
   operation, R9, rechunk into a read, rechunk through an element-wise operation, R7.
   Last the measure: one [_mu] theorem per rule and monotonicity of [mu] in a child.
   R10-R16 are in ExprRulesFacts2.v. *)
From DA Require Import PyBase PyBaseFacts Slicing NormalizeFacts FuseFacts NdArray NdArrayFacts ExprRules.
Open Scope Z_scope.

(* induction over expressions (children lists are nested) *)
Section ExprInd.
  Variable P : expr -> Prop.
  Hypothesis HLeaf : forall id shp c, P (ELeaf id shp c).
  Hypothesis HConst : forall id, P (EConst id).
  Hypothesis HSlice : forall e ix o, P e -> P (ESlice e ix o).
  Hypothesis HTr : forall e axes, P e -> P (ETranspose e axes).
  Hypothesis HEl : forall op args, Forall P args -> P (EElemwise op args).
  Hypothesis HRe : forall e s c p b pp, P e -> P (ERechunk e s c p b pp).
  Hypothesis HEx : forall e axes, P e -> P (EExpandDims e axes).
  Hypothesis HCo : forall e axis rest, P e -> Forall P rest -> P (EConcat e axis rest).
  Hypothesis HBr : forall e shp c, P e -> P (EBroadcastTo e shp c).
  Hypothesis HAr : forall a b c ch, P (EArange a b c ch).
  Hypothesis HSrc : forall s c r nd isz ot, P (ESource s c r nd isz ot).
  Hypothesis HSt : forall e axis rest, P e -> Forall P rest -> P (EStack e axis rest).
  Hypothesis HFu : forall id shp c, P (EFull id shp c).
  Hypothesis HTR : forall e c p, P e -> P (ETasksRechunk e c p).

  Fixpoint expr_ind' (e : expr) : P e :=
    let all := fix all (l : list expr) : Forall P l :=
      match l with
      | [] => Forall_nil P
      | x :: t => Forall_cons x (expr_ind' x) (all t)
      end in
    match e with
    | ELeaf id shp c => HLeaf id shp c
    | EConst id => HConst id
    | ESlice e' ix o => HSlice e' ix o (expr_ind' e')
    | ETranspose e' axes => HTr e' axes (expr_ind' e')
    | EElemwise op args => HEl op args (all args)
    | ERechunk e' s c p b pp => HRe e' s c p b pp (expr_ind' e')
    | EExpandDims e' axes => HEx e' axes (expr_ind' e')
    | EConcat e' axis rest => HCo e' axis rest (expr_ind' e') (all rest)
    | EBroadcastTo e' shp c => HBr e' shp c (expr_ind' e')
    | EArange a b c ch => HAr a b c ch
    | ESource s c r nd isz ot => HSrc s c r nd isz ot
    | EStack e' axis rest => HSt e' axis rest (expr_ind' e') (all rest)
    | EFull id shp c => HFu id shp c
    | ETasksRechunk e' c p => HTR e' c p (expr_ind' e')
    end.
End ExprInd.

Lemma zsum_map_nonneg {A} (f : A -> Z) l : (forall x, In x l -> 0 <= f x) -> 0 <= zsum (map f l).
Proof. intros H. apply zsum_nonneg, Forall_map, Forall_forall. exact H. Qed.

Lemma src_wfb_nonneg s : src_wfb s = true -> nonneg_shape (src_shape s).
Proof.
  induction s as [id shp|s IH r]; cbn [src_wfb src_shape]; intros H.
  - apply nonnegb_iff. exact H.
  - apply andb_true_iff in H. apply slice_shape_nonneg. apply IH. tauto.
Qed.

Lemma wfb_nonneg e : wfb e = true -> nonneg_shape (eshape e).
Proof.
  induction e using expr_ind'; cbn [wfb eshape]; rewrite ?andb_true_iff, ?forallb_forall; intros Hw.
  - (* ELeaf *) apply nonnegb_iff. exact Hw.
  - (* EConst *) constructor.
  - (* ESlice *) apply slice_shape_nonneg. tauto.
  - (* ETranspose *) apply transpose_shape_nonneg. tauto.
  - (* EElemwise *) apply bshape_all_nonneg, Forall_map. rewrite Forall_forall in *. intros a Ha. apply H, Hw; exact Ha.
  - (* ERechunk *) tauto.
  - (* EExpandDims *) apply expand_shape_from_nonneg. tauto.
  - (* EConcat *) destruct Hw as [[[Hw Hr] _] _].
    apply set_nth_nonneg; [|tauto].
    apply zsum_map_nonneg. intros t Ht. apply nth_nonneg.
    destruct Ht as [<-|Ht]; [tauto|].
    apply in_map_iff in Ht. destruct Ht as (r & <- & Hr').
    rewrite Forall_forall in H. apply H, Hr; exact Hr'.
  - (* EBroadcastTo *) apply nonnegb_iff. tauto.
  - (* EArange *) constructor; [lia | constructor].
  - (* ESource *) destruct Hw as [Hs _]. apply src_wfb_nonneg in Hs.
    destruct r; [apply slice_shape_nonneg|]; exact Hs.
  - (* EStack *) apply insert_at_nonneg; [lia | tauto].
  - (* EFull *) apply nonnegb_iff. exact Hw.
  - (* ETasksRechunk *) tauto.
Qed.

Lemma zip3_length {A B C D} (f : A -> B -> C -> D) a : forall b c,
  length a = length b -> length b = length c -> length (zip3 f a b c) = length b.
Proof.
  induction a as [|x a IH]; intros [|y b] [|z c] H1 H2; cbn [length] in *; try discriminate; [reflexivity|].
  cbn [zip3 length]. f_equal. apply IH; lia.
Qed.

Lemma zip3_app {A B C D} (f : A -> B -> C -> D) a : forall b c a' b' c',
  length a = length b -> length b = length c ->
  zip3 f (a ++ a') (b ++ b') (c ++ c') = zip3 f a b c ++ zip3 f a' b' c'.
Proof.
  induction a as [|x a IH]; intros [|y b] [|z c] a' b' c' H1 H2; cbn [length] in *; try discriminate; [reflexivity|].
  cbn [app zip3]. f_equal. apply IH; lia.
Qed.

Lemma zip3_trunc {A B C D} (f : A -> B -> C -> D) a : forall b c a' c',
  length a = length b -> length b = length c ->
  zip3 f (a ++ a') b (c ++ c') = zip3 f a b c.
Proof.
  intros b c a' c' H1 H2. rewrite <- (app_nil_r b) at 1. rewrite zip3_app by assumption.
  destruct a'; cbn [zip3]; apply app_nil_r.
Qed.

Lemma zip3_rev {A B C D} (f : A -> B -> C -> D) a : forall b c,
  length a = length b -> length b = length c ->
  rev (zip3 f a b c) = zip3 f (rev a) (rev b) (rev c).
Proof.
  induction a as [|x a IH]; intros [|y b] [|z c] H1 H2; cbn [length] in *; try discriminate; [reflexivity|].
  cbn [zip3 rev]. rewrite zip3_app by (rewrite !rev_length; lia). rewrite IH by lia. reflexivity.
Qed.

Lemma elem_arg_index_split ipre isuf pre suf sa : length isuf = length suf -> length sa = length suf ->
  elem_arg_index (ipre ++ isuf) sa (pre ++ suf) = zip3 elem_axis_index isuf sa suf.
Proof. intros H1 H2. unfold elem_arg_index. rewrite !lastn_app by lia. reflexivity. Qed.

Lemma bslices_zip3 (f : pidx -> Z -> Z -> pidx) ixs : forall sa osuf,
  (forall i n m, In i ixs -> n = 1 \/ n = m -> idx_okb [i] [m] = true -> bslices [i] [m] [f i n m] [n]) ->
  compat sa osuf -> idx_okb ixs osuf = true -> bslices ixs osuf (zip3 f ixs sa osuf) sa.
Proof.
  induction ixs as [|i ixs IH]; intros [|n sa] [|m osuf] Hf Hc Hok;
    cbn [compat idx_okb] in Hc, Hok; try (exfalso; tauto); try discriminate.
  - split; [exact I|]. intros [|j out] Ho; [reflexivity | destruct Ho].
  - destruct i; discriminate.
  - destruct Hc as [Hnm Hc].
    assert (idx_okb [i] [m] = true /\ idx_okb ixs osuf = true) as [Hi Hok'].
    { cbn [idx_okb]. destruct i; try discriminate; apply andb_true_iff in Hok; rewrite andb_true_r; exact Hok. }
    cbn [zip3]. apply bslices_cons.
    + intros ->. discriminate Hi.
    + apply Hf; [left; reflexivity | exact Hnm | exact Hi].
    + apply IH; [|exact Hc | exact Hok']. intros i' n' m' Hin. apply Hf. right. exact Hin.
Qed.

(* the size of an operand axis of size n (1 or m) after the slice of an output axis of size m *)
Definition edim (s : pslice) (n m : Z) : Z :=
  if n =? 1 then (if slice_len s m =? 0 then slice_len s 1 else 1) else slice_len s n.

Lemma elem_dim_slice s n m rest ra :
  slice_shape (elem_axis_index (ISlice s) n m :: rest) (n :: ra) = edim s n m :: slice_shape rest ra.
Proof.
  unfold elem_axis_index, edim. destruct (n =? 1) eqn:E; [|reflexivity].
  assert (n = 1) as -> by lia.
  destruct (slice_len s m =? 0); cbn [slice_shape hd tl]; [reflexivity|].
  rewrite slice_len_colon by lia. reflexivity.
Qed.

Lemma elem_dim_int z n m rest ra :
  slice_shape (elem_axis_index (IInt z) n m :: rest) (n :: ra) = slice_shape rest ra.
Proof. unfold elem_axis_index. destruct (n =? 1); reflexivity. Qed.

Lemma edim_self s m : step_of s <> 0 -> edim s m m = slice_len s m.
Proof.
  intros Hk. unfold edim. destruct (m =? 1) eqn:E; [|reflexivity]. assert (m = 1) as -> by lia.
  destruct (slice_len_1 s Hk); destruct (slice_len s 1 =? 0) eqn:E0; lia.
Qed.

Lemma edim_compat s n m : step_of s <> 0 -> n = 1 \/ n = m -> edim s n m = 1 \/ edim s n m = slice_len s m.
Proof.
  intros Hk [->| ->]; [|right; apply edim_self; exact Hk].
  unfold edim. change (1 =? 1) with true. cbn iota.
  destruct (slice_len_1 s Hk); destruct (slice_len s m =? 0) eqn:E; lia.
Qed.

Lemma elem_axis_bslices i n m : n = 1 \/ n = m -> idx_okb [i] [m] = true -> bslices [i] [m] [elem_axis_index i n m] [n].
Proof.
  intros Hnm Hok. cbn [idx_okb] in Hok. destruct i as [z|s|]; [| |discriminate]; rewrite andb_true_r in Hok.
  - split; [rewrite elem_dim_int; exact I|]. intros out _. unfold elem_axis_index.
    destruct (n =? 1) eqn:E; cbn [slice_shape slice_src mask hd tl]; rewrite E; [reflexivity|].
    assert (n = m) as -> by lia. reflexivity.
  - assert (step_of s <> 0) as Hk by lia. unfold elem_axis_index. destruct (n =? 1) eqn:E.
    + assert (n = 1) as -> by lia. destruct (slice_len s m =? 0) eqn:E0; [|apply bslices_colon].
      (* an empty result axis: nothing is read *)
      split; [cbn [slice_shape hd tl compat]; destruct (slice_len_1 s Hk); lia|].
      intros [|j out] Ho; cbn [slice_shape hd tl in_bounds] in Ho; [tauto | lia].
    + assert (n = m) as -> by lia. apply bslices_same, Hk.
Qed.

Lemma elem_axes ixs sa osuf : compat sa osuf -> idx_okb ixs osuf = true -> bslices ixs osuf (zip3 elem_axis_index ixs sa osuf) sa.
Proof. intros Hc Hok. apply bslices_zip3; [|exact Hc | exact Hok]. intros i n m _. apply elem_axis_bslices. Qed.

(* R3, on lists: slicing through broadcasting.  An operand of shape [sa] that broadcasts into [o] is sliced by
   [elem_arg_index ix sa o]: it is then read at the index the unsliced operand was and its sliced shape broadcasts
   into the sliced [o] ([bslices], axis by axis) *)
Lemma elem_bidx_bcast ix sa o : bcast_into sa o -> idx_okb ix o = true ->
  bcast_into (slice_shape (elem_arg_index ix sa o) sa) (slice_shape ix o) /\
  forall out, in_bounds out (slice_shape ix o) ->
    bidx sa (slice_src ix o out) = slice_src (elem_arg_index ix sa o) sa (bidx (slice_shape (elem_arg_index ix sa o) sa) out).
Proof.
  intros (pre & suf & -> & Hc) Hok.
  destruct (idx_okb_split ix pre suf Hok) as (ipre & isuf & -> & Hokp & Hoks).
  pose proof (compat_length _ _ Hc) as Hls. pose proof (idx_okb_length _ _ Hoks) as Hli.
  rewrite elem_arg_index_split by lia.
  exact (bslices_bidx ipre pre isuf suf _ sa Hokp Hoks Hc (elem_axes isuf sa suf Hc Hoks)).
Qed.

Lemma bdim_compat_l x y : x = 1 \/ x = y -> bdim x y = y.
Proof. unfold bdim. destruct (x =? 1) eqn:E; lia. Qed.

Lemma bdim_compat_r x y : y = 1 \/ y = x -> bdim x y = x.
Proof. unfold bdim. destruct (x =? 1) eqn:E; lia. Qed.

Lemma edim_bdim s n n' m :
  step_of s <> 0 -> (n = 1 \/ n = m) -> (n' = 1 \/ n' = m) ->
  bdim (edim s n m) (edim s n' m) = edim s (bdim n n') m.
Proof.
  intros Hk [->| ->] Hn'.
  - change (bdim 1 n') with n'. apply bdim_compat_l.
    destruct Hn' as [->| ->]; [right; reflexivity|]. rewrite edim_self by exact Hk. apply edim_compat; tauto.
  - rewrite (bdim_compat_r m n') by exact Hn'. apply bdim_compat_r.
    rewrite edim_self by exact Hk. apply edim_compat; assumption.
Qed.

Lemma bdim_same x : bdim x x = x.
Proof. unfold bdim. destruct (x =? 1); reflexivity. Qed.

Lemma elem_opshape ixs osuf : idx_okb ixs osuf = true -> forall sa, compat sa osuf ->
  slice_shape (zip3 elem_axis_index ixs sa osuf) sa = opshape edim ixs sa osuf.
Proof.
  revert ixs osuf. refine (idx_okb_ind _ _ _ _); [intros [|] Hc; [reflexivity | destruct Hc]| |];
    (intros ? ixs m osuf _ _ IH [|n sa] Hc; [destruct Hc | destruct Hc as [_ Hc]]); cbn [zip3 opshape].
  - rewrite elem_dim_int. apply IH, Hc.
  - rewrite elem_dim_slice, IH by exact Hc. reflexivity.
Qed.

Lemma elem_arg_shape ix sa o : bcast_into sa o -> idx_okb ix o = true ->
  slice_shape (elem_arg_index ix sa o) sa = opshape_of edim ix o sa /\ length (elem_arg_index ix sa o) = length sa.
Proof.
  intros (pre & suf & -> & Hc) Hok. destruct (idx_okb_split ix pre suf Hok) as (ipre & isuf & -> & Hokp & Hoks).
  pose proof (compat_length _ _ Hc) as Hls. pose proof (idx_okb_length _ _ Hoks) as Hli.
  unfold opshape_of. rewrite elem_arg_index_split, !lastn_app by lia.
  split; [apply elem_opshape; assumption | apply zip3_length; lia].
Qed.

(* R3, on lists: the shapes of the sliced operands broadcast to the sliced [o] ([opshape_bshape_all], from the
   size [edim] of each sliced operand axis) *)
Lemma elem_slice_shape ix (shapes : list (list Z)) :
  let o := bshape_all shapes in
  idx_okb ix o = true -> Forall (fun sa => bcast_intob sa o = true) shapes ->
  bshape_all (map (fun sa => slice_shape (elem_arg_index ix sa o) sa) shapes) = slice_shape ix o.
Proof.
  intros o Hok H. rewrite (map_ext_in _ (opshape_of edim ix o)).
  - apply (opshape_bshape_all edim edim_bdim edim_self); assumption.
  - intros sa Hsa. rewrite Forall_forall in H. apply elem_arg_shape; [apply bcast_intob_spec, H, Hsa | exact Hok].
Qed.

(* R4, on lists: slicing through a transposition.
   [pos1 i n e]: the position on an axis of size [n] that entry [i] reads for position [e] of the result;
   [slen i n]: the size of the result axis a slice leaves; [rank ix d]: the number of slices among the first
   [d] entries, which is the result axis that input axis [d] becomes when it is sliced: the two sides of R4
   are compared axis by axis through it; [dcolon]: the default of [nth] on indices. *)
Definition pos1 (i : pidx) (n e : Z) : Z :=
  match i with IInt z => posify_int n z | ISlice s => nthZ (sel s n) e | INone => 0 end.
Definition slen (i : pidx) (n : Z) : Z := match i with ISlice s => slice_len s n | _ => 0 end.
Definition rank (ix : list pidx) (d : nat) : nat := nslices (firstn d ix).
Definition dcolon : pidx := ISlice colon.

Lemma rank_0 ix : rank ix 0 = O.
Proof. reflexivity. Qed.
Lemma rank_nil d : rank [] d = O.
Proof. destruct d; reflexivity. Qed.
Lemma rank_cons i ix d : rank (i :: ix) (S d) = ((if is_sliceb i then 1 else 0) + rank ix d)%nat.
Proof. apply nslices_cons. Qed.
Lemma rank_cons_slice s ix d : rank (ISlice s :: ix) (S d) = S (rank ix d).
Proof. reflexivity. Qed.

Lemma slice_src_nth ix : basicb ix = true -> forall shp out d, length ix = length shp -> (d < length ix)%nat ->
  nth d (slice_src ix shp out) 0 = pos1 (nth d ix dcolon) (nth d shp 0) (nth (rank ix d) out 0).
Proof.
  revert ix. refine (basicb_ind _ _ _ _).
  - intros shp out d _ Hd. cbn [length] in Hd. lia.
  - intros z ix _ IH [|n shp] out [|d] Hl Hd; try discriminate; [reflexivity|]. apply IH; cbn [length tl] in *; lia.
  - intros s ix _ IH [|n shp] out [|d] Hl Hd; try discriminate; cbn [slice_src hd tl nth].
    + rewrite hd_nth. reflexivity.
    + rewrite rank_cons_slice, IH, nth_tl by (cbn [length] in *; lia). reflexivity.
Qed.

Lemma rank_succ ix : forall D, (D < length ix)%nat ->
  rank ix (S D) = (rank ix D + (if is_sliceb (nth D ix dcolon) then 1 else 0))%nat.
Proof.
  induction ix as [|i ix IH]; intros D HD; cbn [length] in HD; [lia|].
  destruct D as [|D]; cbn [nth]; rewrite !rank_cons, ?rank_0, ?IH by lia; lia.
Qed.

Lemma rank_le ix : forall k, (rank ix k <= nslices ix)%nat.
Proof.
  induction ix as [|i ix IH]; intros k; [rewrite rank_nil; lia|].
  destruct k as [|k]; [rewrite rank_0; lia|].
  rewrite rank_cons, nslices_cons. specialize (IH k). lia.
Qed.

Lemma rank_lt ix k : (k < length ix)%nat -> is_sliceb (nth k ix dcolon) = true -> (rank ix k < nslices ix)%nat.
Proof. intros Hk Hs. pose proof (rank_succ ix k Hk) as H. rewrite Hs in H. pose proof (rank_le ix (S k)). lia. Qed.

Lemma rank_surj ix : forall r, (r < nslices ix)%nat ->
  exists k, (k < length ix)%nat /\ is_sliceb (nth k ix dcolon) = true /\ rank ix k = r.
Proof.
  induction ix as [|i ix IH]; intros r Hr; [destruct (Nat.nlt_0_r r Hr)|].
  rewrite nslices_cons in Hr. destruct (is_sliceb i) eqn:Ei.
  - destruct r as [|r].
    + exists O. cbn [length nth]. split; [lia|]. split; [exact Ei | reflexivity].
    + destruct (IH r ltac:(lia)) as (k & Hk & Hs & Hrk). exists (S k). cbn [length nth]. split; [lia|]. split; [exact Hs|].
      rewrite rank_cons, Ei, Hrk. reflexivity.
  - destruct (IH r Hr) as (k & Hk & Hs & Hrk). exists (S k). cbn [length nth]. split; [lia|]. split; [exact Hs|].
    rewrite rank_cons, Ei. exact Hrk.
Qed.

Lemma slice_shape_nth_rank ix : basicb ix = true -> forall shp k, length ix = length shp -> (k < length ix)%nat ->
  is_sliceb (nth k ix dcolon) = true ->
  nth (rank ix k) (slice_shape ix shp) 0 = slen (nth k ix dcolon) (nth k shp 0).
Proof.
  revert ix. refine (basicb_ind _ _ _ _).
  - intros shp k _ Hk. cbn [length] in Hk. lia.
  - intros z ix _ IH [|n shp] [|k] Hl Hk Hs; try discriminate. apply (IH shp k); cbn [length] in *; try lia. exact Hs.
  - intros s ix _ IH [|n shp] [|k] Hl Hk Hs; try discriminate; [reflexivity|].
    rewrite rank_cons_slice. apply (IH shp k); cbn [length] in *; try lia. exact Hs.
Qed.

Lemma rank_all_slices ix : forallb is_sliceb ix = true -> forall k, (k <= length ix)%nat -> rank ix k = k.
Proof.
  induction ix as [|i ix IH]; intros H k Hk; cbn [length] in Hk.
  - assert (k = O) as -> by lia. reflexivity.
  - cbn [forallb] in H. apply andb_true_iff in H. destruct H as [Hi H].
    destruct k as [|k]; [reflexivity|]. destruct i; try discriminate. rewrite rank_cons_slice. f_equal. apply IH; [exact H | lia].
Qed.

Lemma remaining_dims_nth ix : basicb ix = true -> forall axes k, length axes = length ix -> (k < length ix)%nat ->
  is_sliceb (nth k ix dcolon) = true ->
  nth (rank ix k) (remaining_dims axes ix) O = nth k axes O.
Proof.
  revert ix. refine (basicb_ind _ _ _ _).
  - intros axes k _ Hk. cbn [length] in Hk. lia.
  - intros z ix _ IH [|a axes] [|k] Hl Hk Hs; try discriminate. apply (IH axes k); cbn [length] in *; try lia. exact Hs.
  - intros s ix _ IH [|a axes] [|k] Hl Hk Hs; try discriminate; [reflexivity|].
    rewrite rank_cons_slice. apply (IH axes k); cbn [length] in *; try lia. exact Hs.
Qed.

Lemma remaining_dims_length ix : basicb ix = true -> forall axes, length axes = length ix ->
  length (remaining_dims axes ix) = nslices ix.
Proof.
  revert ix. refine (basicb_ind _ _ _ _).
  - intros [|] Hl; [reflexivity | discriminate].
  - intros z ix _ IH [|a axes] Hl; [discriminate|]. apply IH. cbn [length] in Hl. lia.
  - intros s ix _ IH [|a axes] Hl; [discriminate|]. rewrite nslices_slice. cbn [remaining_dims is_int length].
    f_equal. apply IH. cbn [length] in Hl. lia.
Qed.

Lemma remaining_dims_In axes : forall ix d, basicb ix = true -> length axes = length ix ->
  (In d (remaining_dims axes ix) <->
   exists k, (k < length ix)%nat /\ nth k axes O = d /\ is_sliceb (nth k ix dcolon) = true).
Proof.
  intros ix d Hb Hl. split.
  - intros Hin. apply (In_nth _ _ O) in Hin. destruct Hin as (r & Hr & <-).
    rewrite remaining_dims_length in Hr by assumption.
    destruct (rank_surj ix r Hr) as (k & Hk & Hs & <-). exists k.
    rewrite remaining_dims_nth by assumption. auto.
  - intros (k & Hk & <- & Hs). rewrite <- (remaining_dims_nth ix Hb axes k) by assumption.
    apply nth_In. rewrite remaining_dims_length by assumption. apply rank_lt; assumption.
Qed.

Lemma remaining_dims_incl axes : forall ix d, In d (remaining_dims axes ix) -> In d axes.
Proof.
  induction axes as [|a axes IH]; intros [|i ix] d H; cbn [remaining_dims] in H; try (destruct H; fail).
  destruct (is_int i); [right; apply (IH ix); exact H|].
  destruct H as [<-|H]; [left; reflexivity | right; apply (IH ix); exact H].
Qed.

Lemma remaining_dims_nodup axes : forall ix, NoDup axes -> NoDup (remaining_dims axes ix).
Proof.
  induction axes as [|a axes IH]; intros [|i ix] H; cbn [remaining_dims]; try constructor.
  inversion H as [|a0 l0 Ha H']; subst.
  destruct (is_int i); [apply IH; exact H'|].
  constructor; [|apply IH; exact H']. intros Hin. apply Ha. apply (remaining_dims_incl axes ix). exact Hin.
Qed.

Lemma count_lt_0 l : count_lt 0 l = O.
Proof. unfold count_lt. induction l as [|x l IH]; [reflexivity|]. cbn [filter]. destruct (Nat.ltb x 0) eqn:E; [lia | exact IH]. Qed.

Lemma memn_In d l : memn d l = true <-> In d l.
Proof.
  unfold memn. rewrite existsb_exists. split.
  - intros (x & Hx & E). apply Nat.eqb_eq in E. subst x. exact Hx.
  - intros H. exists d. split; [exact H | apply Nat.eqb_refl].
Qed.

Lemma memn_notin x l : ~ In x l -> memn x l = false.
Proof. intros H. destruct (memn x l) eqn:E; [|reflexivity]. apply memn_In in E. contradiction. Qed.

Lemma memn_app x l1 l2 : memn x (l1 ++ l2) = memn x l1 || memn x l2.
Proof. unfold memn. apply existsb_app. Qed.

Lemma memn_cons x a l : memn x (a :: l) = Nat.eqb x a || memn x l.
Proof. reflexivity. Qed.

Lemma count_lt_succ l : forall D, NoDup l ->
  count_lt (S D) l = (count_lt D l + (if memn D l then 1 else 0))%nat.
Proof.
  unfold count_lt. induction l as [|x l IH]; intros D Hnd; [reflexivity|].
  inversion Hnd as [|? ? Hx Hnd']; subst. specialize (IH D Hnd').
  change (memn D (x :: l)) with (Nat.eqb D x || memn D l). cbn [filter].
  destruct (Nat.eqb D x) eqn:E; cbn [orb].
  - apply Nat.eqb_eq in E. subst x. destruct (memn D l) eqn:Em; [apply memn_In in Em; contradiction|].
    destruct (Nat.ltb D (S D)) eqn:E1, (Nat.ltb D D) eqn:E2; cbn [length]; lia.
  - destruct (memn D l), (Nat.ltb x (S D)) eqn:E1, (Nat.ltb x D) eqn:E2; cbn [length] in *; lia.
Qed.

Lemma count_lt_mono l D D' : (D <= D')%nat -> (count_lt D l <= count_lt D' l)%nat.
Proof.
  intros H. unfold count_lt. induction l as [|x l IH]; [cbn; lia|]. cbn [filter].
  destruct (Nat.ltb x D) eqn:E1, (Nat.ltb x D') eqn:E2; cbn [length]; lia.
Qed.

Lemma count_lt_le_length l D : (count_lt D l <= length l)%nat.
Proof. unfold count_lt. induction l as [|x l IH]; [cbn; lia|]. cbn [filter]. destruct (Nat.ltb x D); cbn [length]; lia. Qed.

Lemma count_lt_all l n : (forall x, In x l -> (x < n)%nat) -> count_lt n l = length l.
Proof.
  intros H. unfold count_lt. induction l as [|x l IH]; [reflexivity|]. cbn [filter].
  replace (Nat.ltb x n) with true by (symmetry; apply Nat.ltb_lt; apply H; left; reflexivity).
  cbn [length]. f_equal. apply IH. intros y Hy. apply H. right. exact Hy.
Qed.

Lemma rank_full ix : rank ix (length ix) = nslices ix.
Proof. unfold rank. rewrite firstn_all. reflexivity. Qed.

Lemma nodup_bounded_perm l : NoDup l -> (forall x, In x l -> (x < length l)%nat) -> is_permb l (length l) = true.
Proof.
  intros Hnd Hb. unfold is_permb. rewrite Nat.eqb_refl. cbn [andb].
  assert (incl l (seq 0 (length l))) as Hincl by (intros x Hx; apply in_seq; specialize (Hb x Hx); lia).
  assert (length (seq 0 (length l)) <= length l)%nat as Hle by (rewrite seq_length; lia).
  pose proof (NoDup_length_incl Hnd Hle Hincl) as Hrev.
  apply forallb_forall. intros d Hd. apply existsb_exists. exists d. split; [apply Hrev; exact Hd | apply Nat.eqb_refl].
Qed.

Lemma NoDup_map_inj_in {A B} (f : A -> B) l :
  (forall x y, In x l -> In y l -> f x = f y -> x = y) -> NoDup l -> NoDup (map f l).
Proof.
  intros Hinj Hnd. induction Hnd as [|x l Hx Hnd IH]; cbn [map]; constructor.
  - intros Hin. apply in_map_iff in Hin. destruct Hin as (y & Hy & Hyl).
    assert (y = x) as -> by (apply Hinj; [right; exact Hyl | left; reflexivity | exact Hy]). contradiction.
  - apply IH. intros a b Ha Hb. apply Hinj; right; assumption.
Qed.

Section SliceTranspose.
  Variable axes : list nat.
  Variable n : nat.
  Variable ix : list pidx.
  Hypothesis Hperm : is_permb axes n = true.
  Hypothesis Hlix : length ix = n.
  Hypothesis Hbasic : basicb ix = true.

  (* [input_index], [remaining] and [new_axes] of [rule_slice_transpose] *)
  Definition t_iin := pickn dcolon ix (inv_axes axes).
  Definition t_rem := remaining_dims axes ix.
  Definition t_new_axes := map (fun d => count_lt d t_rem) t_rem.

  Lemma axes_len : length axes = n.
  Proof. exact (perm_len axes n Hperm). Qed.

  Lemma iin_length : length t_iin = n.
  Proof. unfold t_iin. rewrite pickn_length, inv_axes_length. apply axes_len. Qed.

  Lemma iin_nth d : (d < n)%nat -> nth d t_iin dcolon = nth (index_of d axes) ix dcolon.
  Proof.
    intros Hd. apply pickn_inv_nth. rewrite axes_len. exact Hd.
  Qed.

  Lemma iin_at_axes k : (k < n)%nat -> nth (nth k axes O) t_iin dcolon = nth k ix dcolon.
  Proof.
    intros Hk. rewrite iin_nth by (apply (perm_nth_lt axes n Hperm); exact Hk).
    rewrite (perm_index_nth axes n Hperm) by exact Hk. reflexivity.
  Qed.

  Lemma iin_basic : basicb t_iin = true.
  Proof. apply forallb_pickn; [reflexivity | exact Hbasic]. Qed.

  Lemma rem_In d : In d t_rem <-> ((d < n)%nat /\ is_sliceb (nth d t_iin dcolon) = true).
  Proof.
    unfold t_rem. rewrite remaining_dims_In by (try exact Hbasic; rewrite axes_len; symmetry; exact Hlix).
    rewrite Hlix. split.
    - intros (k & Hk & <- & Hs). split; [apply (perm_nth_lt axes n Hperm); exact Hk|].
      rewrite iin_at_axes by exact Hk. exact Hs.
    - intros [Hd Hs]. exists (index_of d axes). split; [apply (perm_index_lt axes n Hperm); exact Hd|].
      split; [apply (perm_nth_index axes n Hperm); exact Hd|]. rewrite <- iin_nth by exact Hd. exact Hs.
  Qed.

  Lemma rem_nodup : NoDup t_rem.
  Proof. apply remaining_dims_nodup. apply (perm_nodup axes n Hperm). Qed.

  Lemma rem_length : length t_rem = nslices ix.
  Proof. apply remaining_dims_length; [exact Hbasic | rewrite axes_len; symmetry; exact Hlix]. Qed.

  (* the number of remaining (input) dims below D is the number of sliced input axes below D *)
  Lemma count_lt_rem D : (D <= n)%nat -> count_lt D t_rem = rank t_iin D.
  Proof.
    induction D as [|D IH]; intros HD; [rewrite count_lt_0; reflexivity|].
    rewrite count_lt_succ by apply rem_nodup. rewrite rank_succ by (rewrite iin_length; lia).
    rewrite IH by lia. f_equal.
    destruct (memn D t_rem) eqn:Em.
    - apply memn_In, rem_In in Em. destruct Em as [_ ->]. reflexivity.
    - destruct (is_sliceb (nth D t_iin dcolon)) eqn:Es; [|reflexivity].
      assert (memn D t_rem = true) as Hc by (apply memn_In, rem_In; split; [lia | exact Es]). congruence.
  Qed.

  Lemma nslices_iin : nslices t_iin = nslices ix.
  Proof.
    rewrite <- rank_full, iin_length, <- (count_lt_rem n) by lia. rewrite <- rem_length.
    apply count_lt_all. intros x Hx. apply rem_In in Hx. tauto.
  Qed.

  Lemma new_axes_nth k : (k < n)%nat -> is_sliceb (nth k ix dcolon) = true ->
    nth (rank ix k) t_new_axes O = rank t_iin (nth k axes O).
  Proof.
    intros Hk Hs. unfold t_new_axes.
    rewrite (map_nth_lt _ _ _ O) by (rewrite rem_length; apply rank_lt; [rewrite Hlix; exact Hk | exact Hs]).
    unfold t_rem. rewrite remaining_dims_nth by (try assumption; rewrite ?axes_len, ?Hlix; auto).
    apply count_lt_rem. pose proof (perm_nth_lt axes n Hperm k Hk). lia.
  Qed.

  Lemma new_axes_perm : is_permb t_new_axes (nslices ix) = true.
  Proof.
    rewrite <- rem_length. replace (length t_rem) with (length t_new_axes) by (unfold t_new_axes; apply map_length).
    apply nodup_bounded_perm.
    - unfold t_new_axes. apply NoDup_map_inj_in; [|apply rem_nodup].
      intros x y Hx Hy E.
      assert (forall a b, In a t_rem -> (a < b)%nat -> (count_lt a t_rem < count_lt b t_rem)%nat) as Hstrict.
      { intros a b Ha Hab. pose proof (count_lt_succ t_rem a rem_nodup) as Hs.
        apply memn_In in Ha. rewrite Ha in Hs. pose proof (count_lt_mono t_rem (S a) b ltac:(lia)). lia. }
      destruct (Nat.lt_trichotomy x y) as [H|[H|H]]; [|exact H|].
      + pose proof (Hstrict x y Hx H). lia.
      + pose proof (Hstrict y x Hy H). lia.
    - intros r Hr. unfold t_new_axes in *. rewrite map_length. apply in_map_iff in Hr. destruct Hr as (d & <- & Hd).
      pose proof (count_lt_succ t_rem d rem_nodup) as Hs. apply memn_In in Hd. rewrite Hd in Hs.
      pose proof (count_lt_le_length t_rem (S d)). lia.
  Qed.

  (* the core: any permutation [na] of the result's axes that places them as [new_axes_nth] does ([HK]) commutes *)
  Variable na : list nat.
  Variable sx : list Z.
  Hypothesis Hna : is_permb na (nslices ix) = true.
  Hypothesis HK : forall k, (k < n)%nat -> is_sliceb (nth k ix dcolon) = true ->
                  nth (rank ix k) na O = rank t_iin (nth k axes O).
  Hypothesis Hlsx : length sx = n.

  Lemma st_shape : slice_shape ix (transpose_shape axes sx) = transpose_shape na (slice_shape t_iin sx).
  Proof.
    unfold transpose_shape.
    assert (length (pickn 0 sx axes) = n) as HlS by (rewrite pickn_length; apply axes_len).
    apply (nth_ext _ _ 0 0).
    - rewrite pickn_length, (perm_len na _ Hna), slice_shape_basic_length by exact Hbasic. lia.
    - intros r Hr. rewrite slice_shape_basic_length in Hr by exact Hbasic.
      destruct (rank_surj ix r) as (k & Hk & Hs & <-); [lia|]. rewrite Hlix in Hk.
      rewrite (slice_shape_nth_rank ix Hbasic); [| rewrite HlS; exact Hlix | rewrite Hlix; exact Hk | exact Hs].
      rewrite pickn_nth by (rewrite axes_len; exact Hk).
      rewrite pickn_nth by (rewrite (perm_len na _ Hna); apply rank_lt; [rewrite Hlix; exact Hk | exact Hs]).
      rewrite HK by assumption.
      pose proof (perm_nth_lt axes n Hperm k Hk) as Hd.
      rewrite (slice_shape_nth_rank t_iin iin_basic);
        [| rewrite iin_length; symmetry; exact Hlsx | rewrite iin_length; exact Hd | rewrite iin_at_axes by exact Hk; exact Hs].
      rewrite iin_at_axes by exact Hk. reflexivity.
  Qed.

  Lemma st_src out : length out = nslices ix ->
    transpose_src axes (slice_src ix (transpose_shape axes sx) out) = slice_src t_iin sx (transpose_src na out).
  Proof.
    intros Hlo. unfold transpose_src, transpose_shape.
    assert (length (pickn 0 sx axes) = n) as HlS by (rewrite pickn_length; apply axes_len).
    apply (nth_ext _ _ 0 0).
    - rewrite pickn_length, inv_axes_length, axes_len.
      rewrite slice_src_length by apply iin_basic.
      rewrite iin_length, nslices_iin, pickn_length, inv_axes_length, (perm_len na _ Hna). lia.
    - intros d Hd. rewrite pickn_length, inv_axes_length, axes_len in Hd.
      pose proof (perm_index_lt axes n Hperm d Hd) as Hk.
      rewrite pickn_inv_nth by (rewrite axes_len; exact Hd).
      rewrite (slice_src_nth ix Hbasic); [| rewrite HlS; exact Hlix | rewrite Hlix; exact Hk].
      rewrite (slice_src_nth t_iin iin_basic); [| rewrite iin_length; symmetry; exact Hlsx | rewrite iin_length; exact Hd].
      rewrite iin_nth by exact Hd.
      rewrite pickn_nth by (rewrite axes_len; exact Hk).
      rewrite (perm_nth_index axes n Hperm) by exact Hd.
      destruct (nth (index_of d axes) ix dcolon) as [z|s|] eqn:Ei; cbn [pos1]; try reflexivity.
      f_equal.
      assert (is_sliceb (nth (index_of d axes) ix dcolon) = true) as Hs by (rewrite Ei; reflexivity).
      assert (rank t_iin d < nslices ix)%nat as Hrd.
      { rewrite <- nslices_iin. apply rank_lt; [rewrite iin_length; exact Hd|]. rewrite iin_nth by exact Hd. exact Hs. }
      rewrite pickn_inv_nth by (rewrite (perm_len na _ Hna); exact Hrd).
      pose proof (HK (index_of d axes) Hk Hs) as Hkk. rewrite (perm_nth_index axes n Hperm) in Hkk by exact Hd.
      rewrite <- Hkk. rewrite (perm_index_nth na _ Hna); [reflexivity|].
      apply rank_lt; [rewrite Hlix; exact Hk | exact Hs].
  Qed.

  Lemma st_aeq {V} (A B : arr V) : shape A = sx -> aeq B (aslice t_iin A) ->
    aeq (aslice ix (atranspose axes A)) (atranspose na B).
  Proof.
    intros Hs HB. apply (aeq_trans _ (atranspose na (aslice t_iin A))).
    - split; cbn [aslice atranspose shape get]; rewrite Hs; [apply st_shape|].
      intros out Ho. f_equal. apply st_src.
      rewrite (in_bounds_length _ _ Ho), slice_shape_basic_length by exact Hbasic.
      unfold transpose_shape. rewrite pickn_length, axes_len. lia.
    - apply aeq_sym, atranspose_congr; [|exact HB]. destruct HB as [-> _]. cbn [aslice shape].
      rewrite Hs, slice_shape_basic_length, nslices_iin, iin_length, Hlsx, Nat.sub_diag, Nat.add_0_r by apply iin_basic.
      exact Hna.
  Qed.
End SliceTranspose.

Lemma omap_Forall2 {A B} (f : A -> option B) l : forall l', omap f l = Some l' -> Forall2 (fun x y => f x = Some y) l l'.
Proof.
  induction l as [|x l IH]; intros l' H; cbn [omap] in H.
  - injection H as <-. constructor.
  - destruct (f x) as [y|] eqn:E; [|discriminate]. destruct (omap f l) as [r|]; [|discriminate].
    injection H as <-. constructor; [exact E | apply IH; reflexivity].
Qed.

Lemma pad_index_full ix n : length ix = n -> pad_index ix n = ix.
Proof. intros <-. unfold pad_index. rewrite Nat.sub_diag. apply app_nil_r. Qed.

(* transposition through an element-wise operation (operands of full rank): the shape of an operand before
   and after, a scalar shape stays and a full-rank shape is permuted *)
Definition tr_rel (axes : list nat) (s s' : list Z) : Prop :=
  (s = [] /\ s' = []) \/ (length s = length axes /\ s' = pickn 0 s axes).

Lemma tr_rel_bshape_all {A} axes (f g : A -> list Z) l :
  (forall a, In a l -> tr_rel axes (f a) (g a)) -> tr_rel axes (bshape_all (map f l)) (bshape_all (map g l)).
Proof.
  induction l as [|a l IH]; intros H; [left; split; reflexivity|].
  cbn [map bshape_all fold_right]. fold (bshape_all (map f l)) (bshape_all (map g l)).
  destruct (H a (or_introl eq_refl)) as [[-> ->]|[Hl ->]], (IH (fun x Hx => H x (or_intror Hx))) as [[-> ->]|[Hl2 ->]].
  - left. split; reflexivity.
  - rewrite !bshape_nil_l. right. split; [exact Hl2 | reflexivity].
  - rewrite !bshape_nil_r. right. split; [exact Hl | reflexivity].
  - right. rewrite bshape_same_len by lia. split; [rewrite rbshape_length; lia|].
    rewrite bshape_same_len by (rewrite !pickn_length; reflexivity).
    symmetry. apply rbshape_pickn. lia.
Qed.

(* R9, on lists: regions of a FromArray *)
Lemma unit_step_cases s : unit_step s = true -> s_step s = None \/ s_step s = Some 1.
Proof. unfold unit_step. destruct (s_step s) as [k|]; [|left; reflexivity]. intros H. right. f_equal. lia. Qed.

Lemma unit_step_of s : unit_step s = true -> step_of s = 1.
Proof. intros H. unfold step_of. destruct (unit_step_cases s H) as [-> | ->]; reflexivity. Qed.

(* a unit-step slice that keeps the whole axis is the full slice *)
Lemma unit_full_sel s n : 0 <= n -> unit_step s = true -> slice_len s n = n -> sel s n = sel colon n.
Proof.
  intros Hn Hu Hl. destruct (indices_unit s n Hn (unit_step_cases s Hu)) as (A & B & Hi & HA & HB).
  unfold slice_len in Hl. rewrite Hi in Hl. rewrite range_len_unit in Hl.
  destruct (sel_colon n Hn) as [Hc _]. rewrite Hc. unfold sel. rewrite Hi.
  replace A with 0 by lia. replace B with n by lia. reflexivity.
Qed.

Lemma region_okb_cons s r n shp :
  region_okb (s :: r) (n :: shp) = true <-> unit_step s = true /\ region_okb r shp = true.
Proof.
  unfold region_okb. cbn [map idx_okb forallb]. rewrite !andb_true_iff. split; [tauto|].
  intros [Hu H]. rewrite (unit_step_of s Hu). tauto.
Qed.

Lemma region_shape_length r : forall shp, region_okb r shp = true -> length (slice_shape (map ISlice r) shp) = length shp.
Proof.
  induction r as [|s r IH]; intros [|n shp] H; try discriminate; [reflexivity|].
  apply region_okb_cons in H. cbn [map slice_shape hd tl length]. f_equal. apply IH, H.
Qed.

Lemma region_full r : forall shp, nonneg_shape shp -> region_okb r shp = true ->
  zip2 slice_len r shp = shp ->
  slice_shape (map ISlice r) shp = shp /\
  forall out, in_bounds out shp -> slice_src (map ISlice r) shp out = out.
Proof.
  induction r as [|s r IH]; intros [|n shp] Hn Hok Hz; try discriminate.
  - split; [reflexivity|]. intros; reflexivity.
  - apply region_okb_cons in Hok. destruct Hok as [Hu Hok]. apply nonneg_shape_cons in Hn as [Hn0 Hn'].
    cbn [zip2] in Hz. injection Hz as Hz1 Hz2.
    destruct (IH shp Hn' Hok Hz2) as [Hs Hg].
    cbn [map slice_shape slice_src hd tl]. rewrite Hz1, Hs. split; [reflexivity|].
    intros [|j out] Ho; cbn [in_bounds] in Ho; [tauto|]. cbn [hd tl].
    rewrite (unit_full_sel s n Hn0 Hu Hz1), nthZ_sel_colon by tauto. f_equal. apply Hg. tauto.
Qed.

Lemma compose_slices_unit outer inner n :
  0 <= n -> unit_step outer = true -> unit_step inner = true -> unit_step (compose_slices outer inner n) = true.
Proof.
  intros Hn Ho Hi. destruct (indices_unit outer n Hn (unit_step_cases _ Ho)) as (A & B & HO & _).
  unfold compose_slices. rewrite HO.
  destruct (indices_unit inner (range_len A B 1) (range_len_nonneg _ _ _) (unit_step_cases _ Hi)) as (C & E & HI & _).
  rewrite HI. cbn [Z.eqb Pos.eqb negb orb]. reflexivity.
Qed.

Lemma compose_regions old : forall new shp,
  nonneg_shape shp -> region_okb old shp = true ->
  region_okb new (slice_shape (map ISlice old) shp) = true ->
  let comp := zip3 compose_slices old new shp in
  region_okb comp shp = true /\
  slice_shape (map ISlice comp) shp = slice_shape (map ISlice new) (slice_shape (map ISlice old) shp) /\
  forall out, in_bounds out (slice_shape (map ISlice comp) shp) ->
    slice_src (map ISlice comp) shp out =
    slice_src (map ISlice old) shp (slice_src (map ISlice new) (slice_shape (map ISlice old) shp) out).
Proof.
  induction old as [|o old IH]; intros [|i new] [|n shp] Hn Hold Hnew; try discriminate.
  - repeat split; reflexivity.
  - apply region_okb_cons in Hold, Hnew. destruct Hold as [Huo Hold], Hnew as [Hui Hnew].
    apply nonneg_shape_cons in Hn as [Hn0 Hn'].
    destruct (IH new shp Hn' Hold Hnew) as (Hc & Hs & Hg).
    pose proof (compose_slices_unit_exact o i n Hn0 (unit_step_cases _ Huo) (unit_step_cases _ Hui)) as Hex.
    destruct (pick_sel_axis o i _ n (eq_sym Hex)) as [Hlen Hnth].
    cbn zeta in *. cbn [zip3 map slice_shape slice_src hd tl].
    split; [|split].
    + apply region_okb_cons. split; [apply compose_slices_unit; assumption | exact Hc].
    + rewrite Hlen, Hs. reflexivity.
    + intros [|j out] Ho; cbn [in_bounds] in Ho; [tauto|]. destruct Ho as [Hj Ho]. cbn [hd tl].
      rewrite Hg, Hnth by tauto. reflexivity.
Qed.

Lemma int_slice_sel z n : 0 <= z < n ->
  sel (mkslice (Some z) (Some (z + 1)) None) n = [z] /\ slice_len (mkslice (Some z) (Some (z + 1)) None) n = 1.
Proof.
  intros Hz. unfold sel, slice_len. rewrite (indices_inbounds z (z + 1) n) by lia.
  split.
  - unfold zrange. rewrite range_len_unit. replace (Z.max (z + 1 - z) 0) with 1 by lia. change (Z.to_nat 1) with 1%nat. cbn [seq map Z.of_nat]. f_equal. lia.
  - rewrite range_len_unit. lia.
Qed.

(* integers read as size-1 regions and extracted by [0] *)
Lemma int_split ix shp : idx_okb ix shp = true -> forall ri,
  nonneg_shape shp -> ints_nonnegb ix = true ->
  existsb (fun i => match i with ISlice t => negb (unit_step t) | _ => false end) ix = false ->
  omap int_to_slice ix = Some ri ->
  region_okb ri shp = true /\
  idx_okb (extract_index ix) (slice_shape (map ISlice ri) shp) = true /\
  slice_shape (extract_index ix) (slice_shape (map ISlice ri) shp) = slice_shape ix shp /\
  forall out, in_bounds out (slice_shape ix shp) ->
    slice_src (map ISlice ri) shp (slice_src (extract_index ix) (slice_shape (map ISlice ri) shp) out)
    = slice_src ix shp out.
Proof.
  revert ix shp. refine (idx_okb_ind _ _ _ _).
  - intros ri _ _ _ Hri. injection Hri as <-. repeat split; reflexivity.
  - intros z ix n shp Hz _ IH ri Hn Hnn Hu Hri. apply nonneg_shape_cons in Hn as [Hn0 Hn'].
    cbn [omap int_to_slice] in Hri. destruct (omap int_to_slice ix) as [r|]; [|discriminate]. injection Hri as <-.
    cbn [ints_nonnegb] in Hnn. apply andb_true_iff in Hnn. destruct Hnn as [Hz0 Hnn].
    destruct (IH r Hn' Hnn Hu eq_refl) as (H1 & H2 & H3 & H4).
    destruct (int_slice_sel z n) as [Hsel Hlen]; [unfold check_int in Hz; lia|].
    split; [apply region_okb_cons; split; [reflexivity | exact H1]|].
    cbn [map extract_index is_int slice_shape slice_src hd tl]. fold (extract_index ix).
    rewrite Hlen. cbn [idx_okb slice_shape slice_src hd tl]. rewrite H2, H3.
    repeat split; try reflexivity.
    intros out Ho. rewrite H4, Hsel by exact Ho. f_equal.
    unfold posify_int. cbn. destruct (z <? 0) eqn:E; [lia | reflexivity].
  - intros s ix n shp Hk _ IH ri Hn Hnn Hu Hri. apply nonneg_shape_cons in Hn as [Hn0 Hn'].
    cbn [omap int_to_slice] in Hri. destruct (omap int_to_slice ix) as [r|]; [|discriminate]. injection Hri as <-.
    cbn [existsb] in Hu. apply orb_false_iff in Hu. destruct Hu as [Hu1 Hu]. apply negb_false_iff in Hu1.
    destruct (IH r Hn' Hnn Hu eq_refl) as (H1 & H2 & H3 & H4).
    split; [apply region_okb_cons; split; assumption|].
    cbn [map extract_index is_int slice_shape slice_src hd tl]. fold (extract_index ix).
    rewrite slice_len_colon by apply slice_len_nonneg. cbn [idx_okb]. rewrite H2, H3.
    repeat split; try reflexivity.
    intros [|j out] Ho; cbn [in_bounds] in Ho; [tauto|]. cbn [hd tl].
    rewrite nthZ_sel_colon, H4 by tauto. reflexivity.
Qed.

Lemma int_to_slice_no_int ix : forall ri, existsb is_int ix = false -> omap int_to_slice ix = Some ri -> map ISlice ri = ix.
Proof.
  induction ix as [|i ix IH]; intros ri He H; cbn [omap] in H.
  - injection H as <-. reflexivity.
  - cbn [existsb] in He. apply orb_false_iff in He. destruct He as [He1 He].
    destruct (int_to_slice i) as [t|] eqn:Et; [|discriminate].
    destruct (omap int_to_slice ix) as [r|] eqn:Er; [|discriminate]. injection H as <-.
    destruct i; try discriminate. cbn [int_to_slice] in Et. injection Et as <-. cbn [map]. f_equal. apply IH; [exact He | reflexivity].
Qed.

(* R7, on lists: slicing through expand_dims *)
Lemma accepted_len1 s : step_of s <> 0 -> start_ok1 s = true ->
  (let '(a, b, _) := indices s 1 in (b <=? a) = false) -> slice_len s 1 = 1.
Proof.
  intros Hk Hn Hacc. unfold start_ok1 in Hn.
  unfold slice_len. destruct (indices s 1) as [[a b] k] eqn:Hi.
  destruct (indices_bounds s 1 a b k ltac:(lia) Hi) as (Hstep & Hpos & Hneg).
  destruct (Z_lt_le_dec 0 k) as [Hkp|Hkn].
  - specialize (Hpos Hkp). assert (a = 0) by lia. assert (b = 1) by lia. subst a b.
    rewrite range_len_pos_step by exact Hkp. change (0 <? 1) with true. cbn iota.
    replace (1 - 0 - 1) with 0 by lia. rewrite Z.div_0_l by lia. reflexivity.
  - assert (k < 0) as Hk0 by lia. specialize (Hneg Hk0). lia.
Qed.

Section ExpandSlice.
  Variable axes : list nat.

  Lemma new_axes_ge ix : forall pos removed r, (removed <= pos)%nat ->
    In r (expand_new_axes pos removed axes ix) -> (pos - removed <= r)%nat.
  Proof.
    induction ix as [|i ix IH]; intros pos removed r Hle Hin; [destruct Hin|].
    cbn [expand_new_axes] in Hin. destruct (is_int i).
    - specialize (IH (S pos) (S removed) r ltac:(lia) Hin). lia.
    - destruct (memn pos axes).
      + destruct Hin as [<-|Hin]; [lia|]. specialize (IH (S pos) removed r ltac:(lia) Hin). lia.
      + specialize (IH (S pos) removed r ltac:(lia) Hin). lia.
  Qed.

  (* how many of the positions pos, ..., pos + fuel - 1 are in [axes] *)
  Fixpoint cnt_in (pos fuel : nat) : nat :=
    match fuel with
    | O => O
    | S f => ((if memn pos axes then 1 else 0) + cnt_in (S pos) f)%nat
    end.

  Lemma cnt_in_le fuel : forall pos, (cnt_in pos fuel <= fuel)%nat.
  Proof. induction fuel as [|f IH]; intros pos; cbn [cnt_in]; [lia|]. specialize (IH (S pos)). destruct (memn pos axes); lia. Qed.

  (* an index accepted on an expanded axis leaves the input index to the rest; a slice keeps the axis *)
  Lemma expanded_axis_input pos i ix iin :
    memn pos axes = true -> expand_input_index pos axes (i :: ix) = Some iin ->
    expand_input_index (S pos) axes ix = Some iin.
  Proof.
    intros Em H. cbn [expand_input_index] in H. rewrite Em in H. destruct i as [z|s|]; try discriminate.
    - destruct ((z =? 0) || (z =? -1)); [exact H | discriminate].
    - destruct (pslice_eqb s colon); [exact H|].
      destruct (indices s 1) as [[a b] k]. destruct (b <=? a); [discriminate | exact H].
  Qed.

  Lemma expanded_axis_slice pos s ix iin :
    step_of s <> 0 -> start_ok1 s = true -> memn pos axes = true ->
    expand_input_index pos axes (ISlice s :: ix) = Some iin -> slice_len s 1 = 1.
  Proof.
    intros Hk Hn Em Hacc. cbn [expand_input_index] in Hacc. rewrite Em in Hacc.
    destruct (pslice_eqb s colon) eqn:Ec.
    - apply pslice_eqb_eq in Ec. subst s. apply slice_len_colon. lia.
    - apply accepted_len1; [exact Hk | exact Hn|].
      destruct (indices s 1) as [[a b] k]. destruct (b <=? a); [discriminate | reflexivity].
  Qed.

  (* Slice(ExpandDims(x, axes), ix) against ExpandDims(Slice(x, iin), new axes), from position [pos]
     on: [removed] integers have been met so far, [pre] are the new axes already placed (all below the
     current output position [pos - removed]) *)
  Lemma xs_commute ix : forall pos removed sx iin pre,
    (removed <= pos)%nat -> (forall y, In y pre -> (y < pos - removed)%nat) ->
    idx_okb ix (expand_shape_from pos (length ix) axes sx) = true -> xnormb axes pos ix = true ->
    expand_input_index pos axes ix = Some iin ->
    (length sx + cnt_in pos (length ix) = length ix)%nat ->
    let na := pre ++ expand_new_axes pos removed axes ix in
    let E := expand_shape_from pos (length ix) axes sx in
    let R := slice_shape ix E in
    expand_shape_from (pos - removed) (length R) na (slice_shape iin sx) = R /\
    (forall out, length out = length R ->
       slice_src iin sx (drop_axes_from (pos - removed) na out) = drop_axes_from pos axes (slice_src ix E out)) /\
    length R = (nslices iin + length (expand_new_axes pos removed axes ix))%nat /\
    (forall out, in_bounds out R -> in_bounds (drop_axes_from (pos - removed) na out) (slice_shape iin sx)).
  Proof.
    induction ix as [|i ix IH]; intros pos removed sx iin pre Hle Hpre Hok Hnorm Hacc Hcnt.
    - injection Hacc as <-. destruct sx; [|cbn [length cnt_in] in Hcnt; lia].
      (* no index, no axis: the four conjuncts speak of empty lists *)
      cbn. repeat split; intros [|] Ho; solve [reflexivity | discriminate | exact I | destruct Ho].
    - cbn [length expand_shape_from cnt_in] in Hok, Hcnt |- *. cbn [xnormb] in Hnorm. cbn [expand_new_axes]. cbn zeta.
      apply andb_true_iff in Hnorm. destruct Hnorm as [Hn1 Hnorm].
      set (q := (pos - removed)%nat) in *.
      destruct (memn pos axes) eqn:Em.
      + destruct i as [z|s|]; cbn [idx_okb] in Hok; try discriminate; apply andb_true_iff in Hok; destruct Hok as [Hi Hok]; cbn [is_int].
        * (* an integer removes the expanded axis *)
          cbn [slice_shape slice_src hd tl drop_axes_from]. rewrite Em.
          apply (IH (S pos) (S removed) sx iin pre); try assumption; try lia.
          apply (expanded_axis_input pos _ _ _ Em Hacc).
        * (* a slice keeps it: it is the new axis q of the result *)
          pose proof (expanded_axis_slice pos s ix iin ltac:(lia) Hn1 Em Hacc) as Hl.
          pose proof (expanded_axis_input pos _ _ _ Em Hacc) as Hacc'.
          destruct (IH (S pos) removed sx iin (pre ++ [q]) ltac:(lia)) as (H1 & H2 & H3 & H4); try assumption; try lia.
          { intros y Hy. apply in_app_or in Hy. destruct Hy as [Hy|[<-|[]]]; [specialize (Hpre y Hy)|]; unfold q; lia. }
          replace (S pos - removed)%nat with (S q) in * by (unfold q; lia).
          rewrite <- app_assoc in H1, H2, H4. cbn [app] in H1, H2, H4.
          assert (memn q (pre ++ q :: expand_new_axes (S pos) removed axes ix) = true) as Hm.
          { rewrite memn_app. apply orb_true_iff. right. apply memn_In. left. reflexivity. }
          cbn [slice_shape hd tl length expand_shape_from]. rewrite Hl, Hm, H1. split; [reflexivity|]. split; [|split].
          -- intros [|j out] Ho; [discriminate|]. cbn [slice_src hd tl drop_axes_from]. rewrite Hm, Em.
             apply H2. cbn [length] in Ho. lia.
          -- rewrite H3. cbn [length]. lia.
          -- intros [|j out] Ho; cbn [in_bounds] in Ho; [destruct Ho|].
             cbn [drop_axes_from]. rewrite Hm. apply H4. tauto.
      + cbn [expand_input_index] in Hacc. rewrite Em in Hacc.
        destruct (expand_input_index (S pos) axes ix) as [iin'|] eqn:Ea; [|discriminate]. injection Hacc as <-.
        pose proof (cnt_in_le (length ix) (S pos)) as Hcl.
        assert (length (tl sx) + cnt_in (S pos) (length ix) = length ix)%nat as Hcnt' by (destruct sx; cbn [length tl] in *; lia).
        destruct i as [z|s|]; cbn [idx_okb] in Hok; try discriminate; apply andb_true_iff in Hok; destruct Hok as [Hi Hok]; cbn [is_int].
        * (* an integer on an axis of x *)
          destruct (IH (S pos) (S removed) (tl sx) iin' pre ltac:(lia) Hpre Hok Hnorm Ea Hcnt') as (H1 & H2 & H3 & H4).
          cbn [Nat.sub] in H1, H2, H4. fold q in H1, H2, H4.
          cbn [slice_shape slice_src hd tl]. split; [exact H1|]. split; [|split; assumption].
          intros out Ho. cbn [drop_axes_from]. rewrite Em, H2 by exact Ho. reflexivity.
        * (* a slice on an axis of x *)
          destruct (IH (S pos) removed (tl sx) iin' pre ltac:(lia)) as (H1 & H2 & H3 & H4); try assumption.
          { intros y Hy. specialize (Hpre y Hy). lia. }
          replace (S pos - removed)%nat with (S q) in * by (unfold q; lia).
          assert (memn q (pre ++ expand_new_axes (S pos) removed axes ix) = false) as Hm.
          { rewrite memn_app. apply orb_false_iff. split.
            - apply memn_notin. intros Hy. specialize (Hpre q Hy). lia.
            - apply memn_notin. intros Hy. pose proof (new_axes_ge ix (S pos) removed q ltac:(lia) Hy) as Hge. unfold q in Hge. lia. }
          cbn [length expand_shape_from slice_shape hd tl]. rewrite Hm, H1. split; [reflexivity|]. split; [|split].
          -- intros [|j out] Ho; [discriminate|]. cbn [slice_src drop_axes_from hd tl]. rewrite Hm, Em.
             cbn [slice_src hd tl]. rewrite H2 by (cbn [length] in Ho; lia). reflexivity.
          -- rewrite H3, nslices_slice. cbn [length]. lia.
          -- intros [|j out] Ho; cbn [in_bounds] in Ho; [destruct Ho|].
             cbn [drop_axes_from]. rewrite Hm. split; [tauto | apply H4; tauto].
  Qed.

  Lemma input_index_length ix : forall pos iin, expand_input_index pos axes ix = Some iin ->
    (length iin + cnt_in pos (length ix) = length ix)%nat.
  Proof.
    induction ix as [|i ix IH]; intros pos iin H.
    - injection H as <-. reflexivity.
    - cbn [length cnt_in]. destruct (memn pos axes) eqn:Em.
      + specialize (IH _ _ (expanded_axis_input pos i ix iin Em H)). lia.
      + cbn [expand_input_index] in H. rewrite Em in H.
        destruct (expand_input_index (S pos) axes ix) as [r|] eqn:E; [|discriminate]. injection H as <-.
        specialize (IH _ _ E). cbn [length]. lia.
  Qed.
End ExpandSlice.

Lemma expand_shape_from_length fuel : forall pos axes shp, length (expand_shape_from pos fuel axes shp) = fuel.
Proof. induction fuel as [|f IH]; intros; cbn [expand_shape_from]; [reflexivity|]. destruct (memn pos axes); cbn [length]; rewrite IH; reflexivity. Qed.

Lemma strictly_increasing_cons a l : strictly_increasing (a :: l) = true ->
  strictly_increasing l = true /\ forall b, In b l -> (a < b)%nat.
Proof.
  revert a. induction l as [|c l IH]; intros a H; [split; [reflexivity | intros b []]|].
  cbn [strictly_increasing] in H. apply andb_true_iff in H. destruct H as [Hac H]. apply Nat.ltb_lt in Hac.
  split; [exact H|]. intros b [<-|Hb]; [exact Hac|]. pose proof (proj2 (IH c H) b Hb). lia.
Qed.

(* positions from [pos] on do not see a member below [pos] *)
Lemma cnt_in_drop a l fuel : forall pos, (a < pos)%nat -> cnt_in (a :: l) pos fuel = cnt_in l pos fuel.
Proof.
  induction fuel as [|f IH]; intros pos H; [reflexivity|]. cbn [cnt_in]. rewrite memn_cons, IH by lia.
  replace (Nat.eqb pos a) with false by (symmetry; apply Nat.eqb_neq; lia). reflexivity.
Qed.

(* a strictly increasing list inside [pos, pos + fuel) marks exactly its length many positions *)
Lemma cnt_in_sorted fuel : forall pos axes,
  strictly_increasing axes = true -> (forall a, In a axes -> (pos <= a < pos + fuel)%nat) ->
  cnt_in axes pos fuel = length axes.
Proof.
  induction fuel as [|f IH]; intros pos [|a rest] Hs Hr; try reflexivity.
  - specialize (Hr a (or_introl eq_refl)). lia.
  - cbn [cnt_in]. apply (IH (S pos) []); [reflexivity | intros a []].
  - destruct (strictly_increasing_cons a rest Hs) as [Hsr Hgt]. pose proof (Hr a (or_introl eq_refl)) as Ha.
    cbn [cnt_in]. rewrite memn_cons. destruct (Nat.eqb pos a) eqn:E.
    + apply Nat.eqb_eq in E. subst a. rewrite cnt_in_drop by lia. cbn [orb length Nat.add]. f_equal.
      apply (IH (S pos) rest Hsr). intros b Hb. specialize (Hgt b Hb). specialize (Hr b (or_intror Hb)). lia.
    + apply Nat.eqb_neq in E. rewrite (memn_notin pos rest) by (intros Hy; specialize (Hgt pos Hy); lia).
      apply (IH (S pos) (a :: rest) Hs). intros b Hb. specialize (Hr b Hb).
      destruct Hb as [<-|Hb]; [lia | specialize (Hgt b Hb); lia].
Qed.

Lemma expand_nil_shape shp : forall pos, expand_shape_from pos (length shp) [] shp = shp.
Proof. induction shp as [|n shp IH]; intros pos; [reflexivity|]. cbn [length expand_shape_from memn existsb hd tl]. rewrite IH. reflexivity. Qed.

Lemma drop_nil out : forall pos, drop_axes_from pos [] out = out.
Proof. induction out as [|i out IH]; intros pos; [reflexivity|]. cbn [drop_axes_from memn existsb]. rewrite IH. reflexivity. Qed.

Lemma natlist_eqb_eq a b : natlist_eqb a b = true <-> a = b.
Proof. apply list_eqb_eq, Nat.eqb_eq. Qed.

Lemma no_int_all_slices ix : basicb ix = true -> existsb is_int ix = false -> forallb is_sliceb ix = true.
Proof.
  induction ix as [|i ix IH]; intros Hb He; [reflexivity|].
  cbn [basicb forallb existsb] in *. apply andb_true_iff in Hb. apply orb_false_iff in He.
  destruct Hb as [Hi Hb], He as [He1 He]. destruct i; try discriminate. cbn [is_sliceb andb]. apply IH; assumption.
Qed.

Lemma all_slices_nslices ix : forallb is_sliceb ix = true -> nslices ix = length ix.
Proof.
  induction ix as [|i ix IH]; intros H; [reflexivity|]. cbn [forallb] in H. apply andb_true_iff in H. destruct H as [Hi H].
  rewrite nslices_cons, Hi, IH by exact H. reflexivity.
Qed.

Lemma perm_small l m : (m <= 1)%nat -> is_permb l m = true -> l = seq 0 m.
Proof.
  intros Hm Hp. destruct (is_permb_spec l m Hp) as (Hl & _ & Hin).
  destruct m as [|[|m]]; [| |lia].
  - destruct l; [reflexivity | discriminate].
  - destruct l as [|a [|b l]]; try discriminate. cbn [seq]. f_equal.
    assert (a < 1)%nat by (apply Hin; left; reflexivity). lia.
Qed.

(* What the success of a rule says of its argument and of its result: the soundness theorem and the measure theorem of
   the rule both start from it. *)
Lemma rule_slice_elemwise_inv e e' : rule_slice_elemwise e = Some e' ->
  exists op args ix o args', e = ESlice (EElemwise op args) ix o /\ e' = EElemwise op args' /\
    let osh := bshape_all (map eshape args) in
    Forall2 (fun a a' => (if is_const a then Some a
                          else mk_getitem a (elem_arg_index (pad_index ix (length osh)) (eshape a) osh)) = Some a')
            args args'.
Proof.
  destruct e as [| |y ix o| | | | | | | | | | |]; try discriminate.
  destruct y as [| | | |op args| | | | | | | | |]; try discriminate. cbn [rule_slice_elemwise].
  destruct (_ && _); [discriminate|].
  destruct (omap _ args) as [args'|] eqn:Eo; [|discriminate]. intros H. injection H as <-.
  exists op, args, ix, o, args'. split; [reflexivity|]. split; [reflexivity|]. exact (omap_Forall2 _ _ _ Eo).
Qed.

Lemma rule_slice_arange_inv e e' : rule_slice_arange e = Some e' ->
  exists start step count ch s o a b k, e = ESlice (EArange start step count ch) [ISlice s] o /\
    indices s count = (a, b, k) /\
    e' = EArange (start + a * step) (step * k) (range_len a b k) (new_blockdim count ch s).
Proof.
  destruct e as [| |y ix o| | | | | | | | | | |]; try discriminate.
  destruct y as [| | | | | | | | |start step count ch| | | |]; try discriminate.
  destruct ix as [|i ix]; try discriminate. destruct i as [z|s|]; try discriminate.
  destruct ix; try discriminate. cbn [rule_slice_arange].
  destruct (indices s count) as [[a b] k] eqn:Hi. intros H. injection H as <-.
  exists start, step, count, ch, s, o, a, b, k. split; [reflexivity|]. split; [exact Hi | reflexivity].
Qed.

Lemma rule_transpose_identity_inv e e' : rule_transpose_identity e = Some e' -> e = ETranspose e' (seq 0 (endim e')).
Proof.
  destruct e as [| | |x axes| | | | | | | | | |]; try discriminate. cbn [rule_transpose_identity].
  destruct (natlist_eqb axes (seq 0 (endim x))) eqn:E; [|discriminate]. intros H. injection H as <-.
  apply natlist_eqb_eq in E. subst axes. reflexivity.
Qed.

Section Sound.
  Variable V : Type.
  Variable leafv : Z -> list Z -> V.
  Variable constv : Z -> V.
  Variable fop : Z -> list V -> V.
  Variable inj : Z -> V.
  Notation D := (den V leafv constv fop inj).

  (* Names in the proofs of this section: [Hw] a subterm is well formed, [Hok] an index is valid for a shape
     ([idx_okb]); where two arrays or two index maps are compared, [Hs] is the equation of the shapes and
     [Hg] that of the elements read. *)

  Lemma srcden_shape s : shape (srcden V leafv s) = src_shape s.
  Proof. induction s as [id shp|s IH r]; cbn [srcden src_shape aslice shape]; [reflexivity | rewrite IH; reflexivity]. Qed.

  Lemma den_shape e : shape (D e) = eshape e.
  Proof.
    induction e using expr_ind'; cbn [den eshape aslice atranspose aelemwise arechunk aexpand_dims aconcat abroadcast_to aarange astack afull shape];
      try reflexivity; try (rewrite IHe; reflexivity).
    - (* EElemwise *) f_equal. rewrite map_map. apply map_ext_in. intros a Ha. rewrite Forall_forall in H. apply H. exact Ha.
    - (* ERechunk *) exact IHe.
    - (* EConcat *) rewrite IHe. f_equal. rewrite map_map. apply map_ext_in. intros a Ha. rewrite Forall_forall in H. apply H. exact Ha.
    - (* ESource *) destruct r; cbn [aslice shape]; rewrite srcden_shape; reflexivity.
    - (* EStack *) rewrite IHe, map_length. reflexivity.
    - (* ETasksRechunk *) exact IHe.
  Qed.

  (* the public __getitem__ denotes the slice *)
  Lemma norm_index_rel ix : forall shp jx, length ix = length shp -> nonneg_shape shp ->
    norm_index ix shp = Some jx -> norm_rel shp ix jx.
  Proof.
    induction ix as [|i ix IH]; intros [|n shp] jx Hl Hn H; cbn [length] in Hl; try discriminate.
    - cbn [norm_index] in H. injection H as <-. exact I.
    - cbn [norm_index] in H. apply nonneg_shape_cons in Hn as [Hn0 Hn'].
      destruct (norm_index1 i n) as [j|] eqn:Ej; [|discriminate].
      destruct (norm_index ix shp) as [r|] eqn:Er; [|discriminate]. injection H as <-.
      cbn [norm_rel]. split; [|apply IH; [lia | assumption | exact Er]].
      destruct i as [z|s|]; cbn [norm_index1] in Ej; try discriminate.
      + destruct (check_int n z) eqn:Ec; [|discriminate]. injection Ej as <-. cbn [norm1_rel]. split; [exact Ec | apply posify_idem; exact Ec].
      + destruct (step_of s =? 0) eqn:Es; [discriminate|]. injection Ej as <-. cbn [norm1_rel].
        split; [lia|]. apply normalize_slice_sel; [assumption | lia].
  Qed.

  Lemma mk_getitem_sound x ix y :
    wfb x = true -> length ix = endim x -> mk_getitem x ix = Some y ->
    aeq (D y) (aslice ix (D x)) /\ idx_okb ix (eshape x) = true.
  Proof.
    intros Hw Hl H. unfold mk_getitem in H.
    pose proof (wfb_nonneg x Hw) as Hn.
    destruct (norm_index ix (eshape x)) as [jx|] eqn:Ej; [|discriminate].
    pose proof (norm_index_rel ix (eshape x) jx Hl Hn Ej) as Hr.
    destruct (norm_rel_same _ _ _ Hr) as (Hs & Hg & Hok). split; [|exact Hok].
    destruct (forallb is_colon jx) eqn:Ec; injection H as <-.
    - (* every normalised entry is a full slice: the array itself *)
      destruct (slice_all_colon jx (eshape x) Hn (norm_rel_length _ _ _ Hr) Ec) as [Hs2 Hg2].
      split; cbn [aslice shape get]; rewrite den_shape.
      + rewrite <- Hs. symmetry. exact Hs2.
      + intros out Ho. rewrite <- Hg. rewrite Hg2 by exact Ho. reflexivity.
    - split; cbn [den aslice shape get]; rewrite den_shape.
      + exact Hs.
      + intros out _. rewrite Hg. reflexivity.
  Qed.

  (* R2: identity slice removal *)
  Lemma aslice_all_colon (a : arr V) ix :
    nonneg_shape (shape a) -> length ix = length (shape a) -> forallb is_colon ix = true -> aeq (aslice ix a) a.
  Proof.
    intros Hn Hl Hc. destruct (slice_all_colon ix (shape a) Hn Hl Hc) as [Hs Hg].
    split; cbn [aslice shape get]; [exact Hs|]. intros out Ho. rewrite Hs in Ho. rewrite Hg by exact Ho. reflexivity.
  Qed.

  Theorem rule_slice_identity_sound e e' :
    rule_slice_identity e = Some e' -> wfb e = true -> aeq (D e) (D e').
  Proof.
    destruct e as [| |x ix o| | | | | | | | | | |]; try discriminate. cbn [rule_slice_identity wfb].
    rewrite andb_true_iff. intros H [Hw _].
    destruct (Nat.eqb (length ix) (endim x) && forallb is_colon ix) eqn:E; [|discriminate].
    injection H as <-. apply andb_true_iff in E. destruct E as [El Ec]. apply Nat.eqb_eq in El.
    apply aslice_all_colon; rewrite ?den_shape; [apply wfb_nonneg, Hw | exact El | exact Ec].
  Qed.

  (* R1: Slice(Slice(x, a), b) -> Slice(x, normalize(fuse a b)) *)
  Lemma normalize_fused_rel c shp : idx_okb c shp = true -> nonneg_shape shp ->
    norm_rel shp c (normalize_fused c shp).
  Proof.
    revert c shp. refine (idx_okb_ind _ _ _ _); [intros; exact I | |]; intros ? c n shp Hi _ IH Hn; apply nonneg_shape_cons in Hn as [Hn0 Hn'];
      (split; [|apply IH; assumption]).
    - split; [exact Hi | reflexivity].
    - split; [exact Hi|]. apply normalize_slice_sel; assumption.
  Qed.

  Theorem rule_slice_slice_sound e e' :
    rule_slice_slice e = Some e' -> wfb e = true -> aeq (D e) (D e').
  Proof.
    destruct e as [| |y b ob| | | | | | | | | | |]; try discriminate.
    destruct y as [| |x a oa| | | | | | | | | | |]; try discriminate. cbn [rule_slice_slice wfb eshape].
    rewrite !andb_true_iff. intros H [[Hw Ha] Hb]. destruct (fuse_tuple a b) as [c|] eqn:Ec; [|discriminate]. injection H as <-.
    pose proof (wfb_nonneg x Hw) as Hn.
    destruct (fuse_tuple_nd a (eshape x) Ha b c Hn Hb Ec) as (Hs & Hg & Hok).
    destruct (norm_rel_same _ _ _ (normalize_fused_rel c (eshape x) Hok Hn)) as (Hs2 & Hg2 & _).
    split; cbn [den aslice shape get]; rewrite !den_shape.
    - rewrite Hs2, Hs. reflexivity.
    - intros out Ho. rewrite Hg2. rewrite Hg; [reflexivity|]. rewrite Hs. exact Ho.
  Qed.

  Theorem rule_slice_down_sound e e' :
    rule_slice_down e = Some e' -> wfb e = true -> aeq (D e) (D e').
  Proof.
    unfold rule_slice_down. destruct (rule_slice_identity e) as [r|] eqn:E.
    - intros H. injection H as <-. apply rule_slice_identity_sound. exact E.
    - apply rule_slice_slice_sound.
  Qed.

  Theorem rule_transpose_transpose_sound e e' :
    rule_transpose_transpose e = Some e' -> wfb e = true -> aeq (D e) (D e').
  Proof.
    destruct e as [| | |y q| | | | | | | | | |]; try discriminate.
    destruct y as [| | |x p| | | | | | | | | |]; try discriminate. cbn [rule_transpose_transpose wfb eshape].
    rewrite !andb_true_iff. intros H [[Hw Hp] Hq]. injection H as <-.
    unfold endim in Hp, Hq. cbn [eshape] in Hq. unfold transpose_shape in Hq at 1. rewrite pickn_length in Hq.
    set (n := length (eshape x)) in *.
    rewrite (perm_len p n Hp) in Hq.
    split; cbn [den atranspose shape get]; rewrite !den_shape.
    - unfold transpose_shape. apply pickn_compose. apply Forall_forall. intros j Hj.
      rewrite (perm_len p n Hp). apply (perm_in q n Hq). exact Hj.
    - intros out Ho. f_equal. apply (transpose_src_compose p q n); try assumption.
      pose proof (in_bounds_length _ _ Ho) as Hl. unfold transpose_shape in Hl.
      rewrite !pickn_length in Hl. rewrite Hl. apply (perm_len q n Hq).
  Qed.

  Lemma atranspose_seq (a : arr V) m : length (shape a) = m -> aeq (atranspose (seq 0 m) a) a.
  Proof.
    intros <-. split; cbn [atranspose shape get]; unfold transpose_shape, transpose_src.
    - apply pickn_seq.
    - intros out Ho. rewrite pickn_seq in Ho. rewrite inv_axes_seq. rewrite <- (in_bounds_length _ _ Ho), pickn_seq. reflexivity.
  Qed.

  Theorem rule_transpose_identity_sound e e' :
    rule_transpose_identity e = Some e' -> wfb e = true -> aeq (D e) (D e').
  Proof.
    intros H _. apply rule_transpose_identity_inv in H. subst e. apply atranspose_seq. rewrite den_shape. reflexivity.
  Qed.

  (* R6: rechunks (chunks are metadata: the denoted array is the operand's) *)
  Theorem rule_rechunk_rechunk_sound e e' :
    rule_rechunk_rechunk e = Some e' -> aeq (D e) (D e') /\ echunks e' = echunks e.
  Proof.
    destruct e as [| | | | |y spec c prm bal2 pp2| | | | | | | |]; try discriminate.
    destruct y as [| | | | |x spec1 c1 prm1 bal1 pp1| | | | | | | |]; try discriminate. cbn [rule_rechunk_rechunk].
    destruct pp1; [discriminate|]. destruct (bal1 && negb bal2); [discriminate|].
    intros H. injection H as <-. split; [apply aeq_refl | reflexivity].
  Qed.

  Theorem rule_rechunk_noop_sound e e' :
    rule_rechunk_noop e = Some e' -> aeq (D e) (D e') /\ echunks e' = echunks e.
  Proof.
    destruct e as [| | | | |x spec c prm bal pp| | | | | | | |]; try discriminate. cbn [rule_rechunk_noop].
    destruct (echunks x) as [cx|] eqn:Ex; [|discriminate].
    destruct (negb bal && zll_eqb c cx) eqn:E; [|discriminate]. intros H. injection H as <-.
    split; [apply aeq_refl|]. rewrite Ex. cbn [echunks]. f_equal.
    apply andb_true_iff in E. symmetry. apply zlist2_eqb_eq, E.
  Qed.

  (* the slice of an element-wise result is the element-wise result of the operands' slices,
     which broadcast again *)
  Lemma aslice_aelemwise (f : list V -> V) (As : list (arr V)) ix :
    let osh := bshape_all (map shape As) in
    let B := map (fun a => aslice (elem_arg_index ix (shape a) osh) a) As in
    idx_okb ix osh = true -> Forall (fun a => bcast_intob (shape a) osh = true) As ->
    aeq (aslice ix (aelemwise f As)) (aelemwise f B) /\
    Forall (fun b => bcast_into (shape b) (bshape_all (map shape B))) B.
  Proof.
    intros osh B Hok Hbc.
    assert (bshape_all (map shape B) = slice_shape ix osh) as HS.
    { unfold B. rewrite map_map. cbn [aslice shape].
      rewrite <- (map_map shape (fun sa => slice_shape (elem_arg_index ix sa osh) sa)).
      apply elem_slice_shape; [exact Hok | apply Forall_map; exact Hbc]. }
    rewrite Forall_forall in Hbc. split.
    - split; cbn [aslice aelemwise shape get]; [symmetry; exact HS|]. fold osh.
      intros out Ho. f_equal. unfold B. rewrite map_map. apply map_ext_in. intros a Ha.
      cbn [aslice shape get]. f_equal.
      apply (elem_bidx_bcast ix _ osh (bcast_intob_spec _ _ (Hbc a Ha)) Hok), Ho.
    - rewrite HS. unfold B. apply Forall_map, Forall_forall. intros a Ha. cbn [aslice shape].
      apply (elem_bidx_bcast ix _ osh (bcast_intob_spec _ _ (Hbc a Ha)) Hok).
  Qed.

  (* each operand is sliced by the public __getitem__ *)
  Lemma elem_args_sound ix osh l : forall l',
    idx_okb ix osh = true ->
    Forall2 (fun a a' => (if is_const a then Some a else mk_getitem a (elem_arg_index ix (eshape a) osh)) = Some a') l l' ->
    (forall a, In a l -> wfb a = true) -> (forall a, In a l -> bcast_intob (eshape a) osh = true) ->
    Forall2 aeq (map (fun a => aslice (elem_arg_index ix (shape a) osh) a) (map D l)) (map D l').
  Proof.
    intros l' Hok Eo. induction Eo as [|a a' l l' Ha _ IH]; intros Hwa Hbc; cbn [map]; constructor.
    - rewrite den_shape. destruct (is_const a) eqn:Ec.
      + injection Ha as <-. destruct a; try discriminate. unfold elem_arg_index. cbn [eshape length].
        replace (zip3 elem_axis_index (lastn 0 ix) [] (lastn 0 osh)) with (@nil pidx) by (destruct (lastn 0 ix); reflexivity).
        split; [reflexivity|]. intros; reflexivity.
      + apply aeq_sym, (mk_getitem_sound a _ a'); [apply Hwa; left; reflexivity | | exact Ha].
        apply elem_arg_shape; [apply bcast_intob_spec, Hbc; left; reflexivity | exact Hok].
    - apply IH; intros x Hx; [apply Hwa | apply Hbc]; right; exact Hx.
  Qed.

  Theorem rule_slice_elemwise_sound e e' :
    rule_slice_elemwise e = Some e' -> wfb e = true -> aeq (D e) (D e').
  Proof.
    intros H Hw. destruct (rule_slice_elemwise_inv _ _ H) as (op & args & ix & o & args' & -> & -> & Eo).
    cbn [wfb eshape] in Hw. cbn zeta in Eo. set (osh := bshape_all (map eshape args)) in *.
    rewrite !andb_true_iff, !forallb_forall in Hw. destruct Hw as [[Hwa Hbc] Hok].
    rewrite (pad_index_full ix (length osh)) in Eo by (apply idx_okb_length; exact Hok).
    assert (map shape (map D args) = map eshape args) as Hsh by (rewrite map_map; apply map_ext; intros a; apply den_shape).
    destruct (aslice_aelemwise (fop op) (map D args) ix) as [H1 H2]; rewrite ?Hsh; fold osh.
    - exact Hok.
    - apply Forall_map, Forall_forall. intros a Ha. rewrite den_shape. apply Hbc, Ha.
    - rewrite Hsh in H1, H2. fold osh in H1, H2. apply (aeq_trans _ _ _ H1), aelemwise_congr; [|exact H2].
      apply elem_args_sound; assumption.
  Qed.

  (* R8: Slice(Arange(start, step, count), [s]) -> Arange(start + a*step, step*k, len) *)
  Theorem rule_slice_arange_sound e e' :
    rule_slice_arange e = Some e' -> wfb e = true -> aeq (D e) (D e').
  Proof.
    intros H _. destruct (rule_slice_arange_inv _ _ H) as (start & step & count & ch & s & o & a & b & k & -> & Hi & ->).
    split; cbn [den aslice aarange shape get slice_shape slice_src hd tl].
    - unfold slice_len. rewrite Hi. reflexivity.
    - intros [|j out] Ho; cbn [in_bounds] in Ho; [tauto|]. destruct Ho as [Hj _]. cbn [hd].
      unfold slice_len in Hj. rewrite Hi in Hj. unfold nthZ, sel. rewrite Hi.
      rewrite zrange_nth by (rewrite Z2Nat.id; lia). rewrite Z2Nat.id by lia. f_equal. ring.
  Qed.

  Theorem rule_slice_transpose_sound e e' :
    rule_slice_transpose e = Some e' -> wfb e = true -> aeq (D e) (D e').
  Proof.
    destruct e as [| |y ix o| | | | | | | | | | |]; try discriminate.
    destruct y as [| | |x axes| | | | | | | | | |]; try discriminate. cbn [rule_slice_transpose wfb eshape].
    rewrite !andb_true_iff. intros H [[Hw Hp] Hok].
    destruct (existsb _ ix); [discriminate|].
    assert (length ix = endim x) as Hlix.
    { rewrite (idx_okb_length _ _ Hok). unfold transpose_shape. rewrite pickn_length. apply (perm_len axes _ Hp). }
    pose proof (idx_okb_basic _ _ Hok) as Hb.
    rewrite (pad_index_full ix (length axes)) in H by (rewrite (perm_len axes _ Hp); exact Hlix).
    change (pickn (ISlice colon) ix (inv_axes axes)) with (t_iin axes ix) in H.
    destruct (mk_getitem x (t_iin axes ix)) as [sliced|] eqn:Eg; [|discriminate].
    destruct (mk_getitem_sound x (t_iin axes ix) sliced Hw (iin_length axes _ ix Hp) Eg) as [Hsl _].
    pose proof (new_axes_nth axes (endim x) ix Hp Hlix Hb) as HK.
    pose proof (new_axes_perm axes (endim x) ix Hp Hlix Hb) as Hnp.
    pose proof (rem_length axes (endim x) ix Hp Hlix Hb) as Hlr.
    (* any permutation [na] of the result's axes that places them as [new_axes_nth] says will do *)
    assert (forall na, is_permb na (nslices ix) = true ->
              (forall k, (k < endim x)%nat -> is_sliceb (nth k ix dcolon) = true ->
                         nth (rank ix k) na O = rank (t_iin axes ix) (nth k axes O)) ->
              aeq (aslice ix (atranspose axes (D x))) (atranspose na (D sliced))) as Hgen.
    { intros na Hna HKna.
      apply (st_aeq axes (endim x) ix Hp Hlix Hb na (eshape x) Hna HKna eq_refl); [apply den_shape | exact Hsl]. }
    assert (t_new_axes axes ix = seq 0 (nslices ix) -> aeq (aslice ix (atranspose axes (D x))) (D sliced)) as Hid.
    { intros Heq. apply (aeq_trans _ (atranspose (seq 0 (nslices ix)) (D sliced))).
      - apply Hgen; [apply is_permb_seq|]. rewrite <- Heq. exact HK.
      - apply atranspose_seq. destruct Hsl as [-> _]. cbn [aslice shape].
        rewrite (slice_shape_basic_length _ (iin_basic axes ix Hb)), den_shape, (nslices_iin axes _ ix Hp Hlix Hb), (iin_length axes _ ix Hp).
        unfold endim. lia. }
    cbn [den]. destruct (negb (existsb is_int ix)) eqn:Eint.
    - (* no integer: every axis stays, in the same order *)
      injection H as <-. cbn [den]. apply negb_true_iff in Eint.
      pose proof (no_int_all_slices ix Hb Eint) as Hall.
      apply Hgen.
      + rewrite (all_slices_nslices ix Hall), Hlix. exact Hp.
      + intros k Hk _. rewrite !rank_all_slices; [reflexivity | | | exact Hall | lia].
        * apply forallb_pickn; [reflexivity | exact Hall].
        * rewrite (iin_length axes _ ix Hp). pose proof (perm_nth_lt axes _ Hp k Hk). lia.
    - change (remaining_dims axes ix) with (t_rem axes ix) in H.
      change (map (fun d => count_lt d (t_rem axes ix)) (t_rem axes ix)) with (t_new_axes axes ix) in H.
      destruct (Nat.leb (length (t_rem axes ix)) 1) eqn:Ele.
      + injection H as <-. apply Hid, perm_small; [|exact Hnp]. apply Nat.leb_le in Ele. lia.
      + destruct (natlist_eqb (t_new_axes axes ix) (seq 0 (length (t_new_axes axes ix)))) eqn:Eid; injection H as <-.
        * apply Hid. apply natlist_eqb_eq in Eid. rewrite Eid at 1. f_equal.
          unfold t_new_axes. rewrite map_length. exact Hlr.
        * cbn [den]. apply Hgen; assumption.
  Qed.

  (* Transpose(Elemwise(op, args), axes) -> Elemwise(op, Transpose(arg, axes) ...) *)
  Theorem rule_transpose_elemwise_sound e e' :
    rule_transpose_elemwise e = Some e' -> wfb e = true -> aeq (D e) (D e').
  Proof.
    destruct e as [| | |y axes| | | | | | | | | |]; try discriminate.
    destruct y as [| | | |op args| | | | | | | | |]; try discriminate. cbn [rule_transpose_elemwise wfb eshape].
    set (osh := bshape_all (map eshape args)).
    destruct (forallb _ args) eqn:Eall; [|discriminate]. rewrite andb_true_iff. intros H [_ Hp]. injection H as <-.
    unfold endim in Hp. cbn [eshape] in Hp. fold osh in Hp. pose proof (perm_len axes _ Hp) as Hlosh.
    rewrite forallb_forall in Eall.
    set (tr := fun a => if is_const a then a else ETranspose a axes).
    (* an operand is a scalar and stays, or has all the axes and is transposed *)
    assert (forall a, In a args -> tr_rel axes (eshape a) (eshape (tr a)) /\
              (is_const a = false -> length (eshape a) = length axes)) as Harg.
    { intros a Ha. specialize (Eall a Ha). unfold tr. destruct (is_const a) eqn:Ec.
      - destruct a; try discriminate. split; [left; split; reflexivity | discriminate].
      - apply Nat.eqb_eq in Eall. split; [right; split; [exact Eall | reflexivity] | intros _; exact Eall]. }
    assert (bshape_all (map eshape (map tr args)) = transpose_shape axes osh) as HS.
    { rewrite map_map. destruct (tr_rel_bshape_all axes eshape (fun a => eshape (tr a)) args) as [[Hosh1 Hosh2]|[_ Hosh2]];
        [intros a Ha; apply Harg, Ha | | exact Hosh2].
      fold osh in Hosh1. rewrite Hosh2. rewrite Hosh1 in Hlosh |- *. destruct axes; [reflexivity | discriminate]. }
    assert (forall l, map shape (map D l) = map eshape l) as Hsh by (intros l; rewrite map_map; apply map_ext; intros a; apply den_shape).
    split; cbn [den atranspose aelemwise shape get]; rewrite !Hsh; fold osh.
    - symmetry. exact HS.
    - intros out Ho. f_equal. rewrite !map_map. apply map_ext_in. intros a Ha.
      destruct (Harg a Ha) as [_ Hla]. unfold tr. destruct (is_const a) eqn:Ec.
      + destruct a; try discriminate. reflexivity.
      + specialize (Hla eq_refl). cbn [den atranspose shape get]. rewrite !den_shape. f_equal.
        pose proof (in_bounds_length _ _ Ho) as Hlo. unfold transpose_shape in Hlo. rewrite pickn_length in Hlo.
        rewrite !bidx_full by (unfold transpose_src, transpose_shape; rewrite ?pickn_length, ?inv_axes_length; congruence).
        apply (mask_transpose axes (length axes)); [rewrite Hlosh; exact Hp | exact Hla | exact Hlo].
  Qed.

  Theorem rule_transpose_down_sound e e' :
    rule_transpose_down e = Some e' -> wfb e = true -> aeq (D e) (D e').
  Proof.
    unfold rule_transpose_down. destruct e as [| | |x axes| | | | | | | | | |]; try discriminate.
    destruct (is_transpose x); [apply rule_transpose_transpose_sound|].
    destruct (rule_transpose_identity (ETranspose x axes)) as [r|] eqn:E.
    - intros H. injection H as <-. apply rule_transpose_identity_sound. exact E.
    - destruct (is_elemwise x); [apply rule_transpose_elemwise_sound | discriminate].
  Qed.

  (* R9: Slice(FromArray(src, region), ix) -> FromArray(src', region') [ [0, :, ...] ] *)
  Theorem rule_slice_fromarray_sound limit e e' :
    rule_slice_fromarray limit e = Some e' -> wfb e = true ->
    (forall y ix o, e = ESlice y ix o -> ints_nonnegb ix = true) ->
    aeq (D e) (D e').
  Proof.
    destruct e as [| |y ix o| | | | | | | | | | |]; try discriminate.
    destruct y as [| | | | | | | | | |s chunks region nd isz other| | |]; try discriminate.
    cbn [rule_slice_fromarray wfb]. rewrite !andb_true_iff. intros H [[Hws Hwr] Hok] Hnn. specialize (Hnn _ _ _ eq_refl).
    destruct (existsb _ ix); [discriminate|].
    destruct (existsb (fun i => match i with ISlice t => negb (unit_step t) | _ => false end) ix) eqn:Eunit; [discriminate|].
    set (ssh := src_shape s) in *. set (A := srcden V leafv s).
    pose proof (src_wfb_nonneg s Hws) as Hnssh. fold ssh in Hnssh.
    assert (shape A = ssh) as HshA by apply srcden_shape.
    set (eff := eshape (ESource s chunks region nd isz other)) in *.
    set (B := D (ESource s chunks region nd isz other)).
    assert (shape B = eff) as HshB by apply den_shape.
    assert (nonneg_shape eff /\ length eff = length ssh) as [Hneff Hleff].
    { unfold eff. cbn [eshape]. fold ssh. destruct region; [|split; [exact Hnssh | reflexivity]].
      split; [apply slice_shape_nonneg, Hnssh | apply region_shape_length, Hwr]. }
    rewrite (pad_index_full ix (length ssh)) in H by (rewrite <- Hleff; apply idx_okb_length; exact Hok).
    destruct (omap int_to_slice ix) as [ri|] eqn:Eri; [|discriminate].
    destruct (int_split ix eff Hok ri Hneff Hnn Eunit Eri) as (Hri & Hex & Hexs & Hexg).
    set (nr := match region with Some old => zip3 compose_slices old ri ssh | None => ri end) in *.
    (* first: the new region of the source is the region index applied to the old region *)
    assert (region_okb nr ssh = true /\ aeq (aslice (map ISlice ri) B) (aslice (map ISlice nr) A)) as [Hnr Hregion].
    { unfold nr, B, eff in *. cbn [den eshape] in *. fold A. destruct region as [old|].
      - destruct (compose_regions old ri ssh Hnssh Hwr Hri) as (Hc & Hs & Hg). split; [exact Hc|].
        split; cbn [aslice shape get]; rewrite HshA.
        + symmetry. exact Hs.
        + intros out Ho. rewrite Hg; [reflexivity|]. rewrite Hs. exact Ho.
      - split; [exact Hri | apply aeq_refl]. }
    (* second: whatever the materialisation choice, the new read denotes that region of the source *)
    set (pick3 := if nd then
                    if list_eqb Z.eqb (zip2 slice_len nr ssh) ssh then (s, @None (list pslice))
                    else if zprod (zip2 slice_len nr ssh) * isz <=? limit then (SSliced s nr, None)
                    else (s, Some nr)
                  else (s, Some nr)) in *.
    assert (forall ch, aeq (D (ESource (fst pick3) ch (snd pick3) nd isz other)) (aslice (map ISlice nr) A)) as Hread.
    { intros ch. unfold pick3. destruct nd; [|apply aeq_refl].
      destruct (list_eqb Z.eqb (zip2 slice_len nr ssh) ssh) eqn:Efull.
      - cbn [fst snd den]. fold A.
        pose proof (proj1 (zlist_eqb_eq _ _) Efull) as Hz.
        destruct (region_full nr ssh Hnssh Hnr Hz) as [Hs Hg].
        split; cbn [aslice shape get]; rewrite HshA; [symmetry; exact Hs|].
        intros out Ho. rewrite Hg by exact Ho. reflexivity.
      - destruct (zprod (zip2 slice_len nr ssh) * isz <=? limit); apply aeq_refl. }
    destruct pick3 as [s' region'] eqn:Epick. cbn [fst snd] in Hread.
    set (newch := zip3 compute_sliced_chunks chunks ri eff) in *.
    assert (aeq (D (ESource s' newch region' nd isz other)) (aslice (map ISlice ri) B)) as Hio
      by (apply (aeq_trans _ (aslice (map ISlice nr) A)); [apply Hread | apply aeq_sym; exact Hregion]).
    destruct (existsb is_int ix) eqn:Eint; injection H as <-.
    - (* integers: extract with [0] *)
      change (map (fun i => if is_int i then IInt 0 else ISlice colon) ix) with (extract_index ix).
      change (D (ESlice (ESource s chunks region nd isz other) ix o)) with (aslice ix B).
      change (D (ESlice (ESource s' newch region' nd isz other) (extract_index ix) false))
        with (aslice (extract_index ix) (D (ESource s' newch region' nd isz other))).
      apply aeq_sym. apply (aeq_trans _ (aslice (extract_index ix) (aslice (map ISlice ri) B))).
      + pose proof Hio as [Hs _].
        apply aslice_congr; [rewrite Hs | rewrite Hs | exact Hio]; cbn [aslice shape]; rewrite ?HshB.
        * apply slice_shape_nonneg. exact Hneff.
        * exact Hex.
      + split; cbn [aslice shape get]; rewrite HshB; [exact Hexs|].
        intros out Ho. rewrite Hexs in Ho. rewrite Hexg by exact Ho. reflexivity.
    - apply aeq_sym. rewrite (int_to_slice_no_int ix ri Eint Eri) in Hio. exact Hio.
  Qed.

  Theorem rule_rechunk_fromarray_sound e e' :
    rule_rechunk_fromarray e = Some e' -> aeq (D e) (D e') /\ echunks e' = echunks e.
  Proof.
    destruct e as [| | | | |y spec c prm bal pp| | | | | | | |]; try discriminate.
    destruct y as [| | | | | | | | | |s chunks region nd isz other| | |]; try discriminate. cbn [rule_rechunk_fromarray].
    destruct (pp || negb nd); [discriminate|]. intros H. injection H as <-. split; [apply aeq_refl | reflexivity].
  Qed.

  Theorem rule_rechunk_elemwise_sound e e' :
    rule_rechunk_elemwise e = Some e' -> aeq (D e) (D e').
  Proof.
    destruct e as [| | | | |y spec c prm bal pp| | | | | | | |]; try discriminate.
    destruct y as [| | | |op args| | | | | | | | |]; try discriminate. cbn [rule_rechunk_elemwise].
    destruct (negb (spec =? 0)); [discriminate|].
    destruct (omap _ args) as [args'|] eqn:Eo; [|discriminate]. intros H. injection H as <-.
    apply omap_Forall2 in Eo. cbn [den arechunk].
    replace (map D args') with (map D args); [apply aeq_refl|].
    induction Eo as [|a a' l l' Ha _ IH]; [reflexivity|]. cbn [map]. f_equal; [|exact IH].
    destruct (is_const a); [injection Ha as <-; reflexivity|].
    unfold mk_rechunk in Ha. destruct (echunks a) as [ca|]; [|discriminate].
    destruct (zll_eqb _ ca); injection Ha as <-; reflexivity.
  Qed.

  (* R7: Slice(ExpandDims(x, axes), ix) -> ExpandDims(Slice(x, ix without the expanded axes), axes') *)
  Lemma colon_all_slices ix : forallb is_colon ix = true -> forallb is_sliceb ix = true.
  Proof.
    induction ix as [|i ix IH]; intros H; [reflexivity|]. cbn [forallb] in *. apply andb_true_iff in H. destruct H as [Hi H].
    destruct i; try discriminate. cbn [is_sliceb andb]. apply IH. exact H.
  Qed.

  Theorem rule_slice_expand_dims_sound e e' :
    rule_slice_expand_dims e = Some e' -> wfb e = true ->
    (forall x axes ix o, e = ESlice (EExpandDims x axes) ix o -> xnormb axes 0 ix = true) ->
    aeq (D e) (D e').
  Proof.
    destruct e as [| |y ix o| | | | | | | | | | |]; try discriminate.
    destruct y as [| | | | | |x axes| | | | | | |]; try discriminate. cbn [rule_slice_expand_dims wfb eshape].
    rewrite !andb_true_iff. intros H [[[Hw Hinc] Hlt] Hok] Hnorm. specialize (Hnorm _ _ _ _ eq_refl).
    set (sx := eshape x) in *. pose proof (wfb_nonneg x Hw) as Hnsx. fold sx in Hnsx.
    set (N := (endim x + length axes)%nat) in *.
    unfold expand_shape in Hok. unfold endim in N. fold sx in N. fold N in Hok.
    assert (length ix = N) as Hlix by (rewrite (idx_okb_length _ _ Hok); apply expand_shape_from_length).
    rewrite (pad_index_full ix N Hlix) in H.
    destruct (expand_input_index 0 axes ix) as [iin|] eqn:Eiin; [|discriminate].
    assert (cnt_in axes 0 N = length axes) as Hcnt.
    { apply cnt_in_sorted; [exact Hinc|]. intros a Ha. rewrite forallb_forall in Hlt. specialize (Hlt a Ha).
      apply Nat.ltb_lt in Hlt. unfold endim in Hlt. fold sx in Hlt. fold N in Hlt. lia. }
    pose proof (input_index_length axes ix 0 iin Eiin) as Hliin. rewrite Hlix, Hcnt in Hliin.
    assert (length iin = length sx) as Hli by (unfold N in Hliin; lia).
    rewrite <- Hlix in Hok.
    assert (length sx + cnt_in axes 0 (length ix) = length ix)%nat as Hc2 by (rewrite Hlix, Hcnt; reflexivity).
    destruct (xs_commute axes ix 0 0 sx iin [] (le_n 0) ltac:(intros y []) Hok Hnorm Eiin Hc2) as (H1 & H2 & H3 & H4).
    cbn [app Nat.sub] in H1, H2, H3, H4.
    set (E := expand_shape_from 0 (length ix) axes sx) in *. set (R := slice_shape ix E) in *.
    set (new := expand_new_axes 0 0 axes ix) in *.
    assert (D (ESlice (EExpandDims x axes) ix o)
            = mkarr R (fun out => get (D x) (drop_axes_from 0 axes (slice_src ix E out)))) as ->.
    { cbn [den]. unfold aslice, aexpand_dims. cbn [shape get]. rewrite den_shape. unfold expand_shape, expand_src.
      fold sx. fold N. rewrite <- Hlix. reflexivity. }
    destruct (if forallb is_colon iin then Some x else mk_getitem x iin) as [sliced|] eqn:Esl; [|discriminate].
    assert (aeq (D sliced) (aslice iin (D x)) /\ length (slice_shape iin sx) = nslices iin) as [[Hshs Hg] HF2].
    { destruct (forallb is_colon iin) eqn:Ec.
      - injection Esl as <-. split.
        + apply aeq_sym, aslice_all_colon; rewrite ?den_shape; assumption.
        + rewrite (proj1 (slice_all_colon iin sx Hnsx Hli Ec)), (all_slices_nslices iin (colon_all_slices iin Ec)).
          symmetry. exact Hli.
      - destruct (mk_getitem_sound x iin sliced Hw Hli Esl) as [Ha Hoki]. split; [exact Ha|].
        apply slice_shape_length. exact Hoki. }
    cbn [aslice shape get] in Hshs, Hg. rewrite (den_shape x) in Hshs, Hg. fold sx in Hshs, Hg.
    destruct new as [|n0 rest] eqn:Enew; injection H as <-.
    - (* every expanded axis was removed by an integer *)
      cbn [length] in H3. rewrite Nat.add_0_r, <- HF2 in H3. rewrite H3, expand_nil_shape in H1.
      split; cbn [shape get]; [rewrite Hshs; symmetry; exact H1|].
      intros out Ho. specialize (H4 out Ho). rewrite drop_nil in H4.
      rewrite Hg by (rewrite Hshs; exact H4). rewrite <- H2, drop_nil by (apply in_bounds_length; exact Ho). reflexivity.
    - rewrite <- Enew in *. clear Enew.
      split; cbn [den aexpand_dims shape get]; unfold expand_shape, expand_src; rewrite ?Hshs.
      + rewrite HF2, <- H3. symmetry. exact H1.
      + intros out Ho. rewrite Hg by (rewrite Hshs; apply H4; exact Ho). rewrite H2 by (apply in_bounds_length; exact Ho). reflexivity.
  Qed.
End Sound.

(* C08: every rule of the simplify system strictly decreases the measure [mu]; [rule_transpose_elemwise],
   which is not one of them (Rewrite.v), at most doubles it *)
Lemma mu_pos e : (1 <= mu e)%nat.
Proof. induction e using expr_ind'; cbn [mu]; lia. Qed.

Lemma mu_elemwise op args : mu (EElemwise op args) = S (length args + mu_sum args).
Proof.
  cbn [mu]. f_equal. induction args as [|x l IH]; [reflexivity|]. cbn [length mu_sum]. rewrite IH. lia.
Qed.

Lemma mk_getitem_mu x ix y : mk_getitem x ix = Some y -> (mu y <= 3 * mu x)%nat.
Proof.
  unfold mk_getitem. destruct (norm_index ix (eshape x)) as [jx|]; [|discriminate].
  destruct (forallb is_colon jx); intros H; injection H as <-; cbn [mu]; lia.
Qed.

Theorem rule_slice_identity_mu e e' : rule_slice_identity e = Some e' -> (mu e' < mu e)%nat.
Proof.
  destruct e as [| |x ix o| | | | | | | | | | |]; try discriminate. cbn [rule_slice_identity].
  destruct (_ && _); [|discriminate]. intros H. injection H as <-. cbn [mu]. pose proof (mu_pos x). lia.
Qed.

Theorem rule_slice_slice_mu e e' : rule_slice_slice e = Some e' -> (mu e' < mu e)%nat.
Proof.
  destruct e as [| |y b ob| | | | | | | | | | |]; try discriminate.
  destruct y as [| |x a oa| | | | | | | | | | |]; try discriminate. cbn [rule_slice_slice].
  destruct (fuse_tuple a b); [|discriminate]. intros H. injection H as <-. cbn [mu]. pose proof (mu_pos x). lia.
Qed.

Theorem rule_slice_elemwise_mu e e' : rule_slice_elemwise e = Some e' -> (mu e' < mu e)%nat.
Proof.
  intros H. destruct (rule_slice_elemwise_inv _ _ H) as (op & args & ix & o & args' & -> & -> & Eo).
  clear H. cbn zeta in Eo. set (osh := bshape_all (map eshape args)) in Eo. clearbody osh.
  change (mu (ESlice (EElemwise op args) ix o)) with (3 * mu (EElemwise op args))%nat.
  rewrite !mu_elemwise.
  assert (mu_sum args' <= 3 * mu_sum args /\ length args' = length args)%nat as [Hs Hl].
  { induction Eo as [|a a' l l' Ha _ [IH1 IH2]]; [cbn; lia|]. cbn [mu_sum length].
    assert (mu a' <= 3 * mu a)%nat.
    { destruct (is_const a); [injection Ha as <-; lia | apply (mk_getitem_mu _ _ _ Ha)]. }
    lia. }
  lia.
Qed.

Theorem rule_slice_transpose_mu e e' : rule_slice_transpose e = Some e' -> (mu e' < mu e)%nat.
Proof.
  destruct e as [| |y ix o| | | | | | | | | | |]; try discriminate.
  destruct y as [| | |x axes| | | | | | | | | |]; try discriminate. cbn [rule_slice_transpose].
  destruct (existsb _ ix); [discriminate|].
  destruct (mk_getitem x _) as [sliced|] eqn:Eg; [|discriminate].
  pose proof (mk_getitem_mu _ _ _ Eg) as Hm. pose proof (mu_pos x) as Hx.
  repeat match goal with |- context [if ?c then _ else _] => destruct c end;
    intros H; injection H as <-; cbn [mu]; lia.
Qed.

Theorem rule_transpose_transpose_mu e e' : rule_transpose_transpose e = Some e' -> (mu e' < mu e)%nat.
Proof.
  destruct e as [| | |y q| | | | | | | | | |]; try discriminate.
  destruct y as [| | |x p| | | | | | | | | |]; try discriminate. cbn [rule_transpose_transpose].
  intros H. injection H as <-. cbn [mu]. lia.
Qed.

Theorem rule_transpose_identity_mu e e' : rule_transpose_identity e = Some e' -> (mu e' < mu e)%nat.
Proof.
  intros H. apply rule_transpose_identity_inv in H. subst e. cbn [mu]. lia.
Qed.

Theorem rule_rechunk_rechunk_mu e e' : rule_rechunk_rechunk e = Some e' -> (mu e' < mu e)%nat.
Proof.
  destruct e as [| | | | |y spec c prm bal2 pp2| | | | | | | |]; try discriminate.
  destruct y as [| | | | |x spec1 c1 prm1 bal1 pp1| | | | | | | |]; try discriminate. cbn [rule_rechunk_rechunk].
  destruct pp1; [discriminate|]. destruct (bal1 && negb bal2); [discriminate|].
  intros H. injection H as <-. cbn [mu]. lia.
Qed.

Theorem rule_rechunk_noop_mu e e' : rule_rechunk_noop e = Some e' -> (mu e' < mu e)%nat.
Proof.
  destruct e as [| | | | |x spec c prm bal pp| | | | | | | |]; try discriminate. cbn [rule_rechunk_noop].
  destruct (echunks x); [|discriminate]. destruct (_ && _); [|discriminate].
  intros H. injection H as <-. cbn [mu]. lia.
Qed.

Theorem rule_slice_arange_mu e e' : rule_slice_arange e = Some e' -> (mu e' < mu e)%nat.
Proof.
  intros H. destruct (rule_slice_arange_inv _ _ H) as (start & step & count & ch & s & o & a & b & k & -> & _ & ->). cbn [mu]. lia.
Qed.

(* the measure is strictly monotone in every child, so a rule applied anywhere inside an
   expression decreases the measure of the whole expression *)
Lemma mu_sum_app l1 l2 : mu_sum (l1 ++ l2) = (mu_sum l1 + mu_sum l2)%nat.
Proof. induction l1 as [|x l1 IH]; [reflexivity|]. cbn [app mu_sum]. rewrite IH. lia. Qed.

Theorem mu_monotone_unary e e' :
  (mu e' < mu e)%nat ->
  (forall ix o, mu (ESlice e' ix o) < mu (ESlice e ix o))%nat /\
  (forall axes, mu (ETranspose e' axes) < mu (ETranspose e axes))%nat /\
  (forall s c p b pp, mu (ERechunk e' s c p b pp) < mu (ERechunk e s c p b pp))%nat /\
  (forall axes, mu (EExpandDims e' axes) < mu (EExpandDims e axes))%nat /\
  (forall shp c, mu (EBroadcastTo e' shp c) < mu (EBroadcastTo e shp c))%nat /\
  (forall c p, mu (ETasksRechunk e' c p) < mu (ETasksRechunk e c p))%nat.
Proof. intros H. repeat split; intros; cbn [mu]; lia. Qed.

Theorem mu_monotone_elemwise op l1 e e' l2 :
  (mu e' < mu e)%nat -> (mu (EElemwise op (l1 ++ e' :: l2)) < mu (EElemwise op (l1 ++ e :: l2)))%nat.
Proof. intros H. rewrite !mu_elemwise, !mu_sum_app, !app_length. cbn [mu_sum length]. lia. Qed.

Theorem rule_slice_expand_dims_mu e e' : rule_slice_expand_dims e = Some e' -> (mu e' < mu e)%nat.
Proof.
  destruct e as [| |y ix o| | | | | | | | | | |]; try discriminate.
  destruct y as [| | | | | |x axes| | | | | | |]; try discriminate. cbn [rule_slice_expand_dims].
  destruct (expand_input_index _ _ _) as [iin|]; [|discriminate].
  destruct (if forallb is_colon iin then Some x else mk_getitem x iin) as [sliced|] eqn:Es; [|discriminate].
  assert (mu sliced <= 3 * mu x)%nat as Hm.
  { destruct (forallb is_colon iin); [injection Es as <-; lia | apply (mk_getitem_mu _ _ _ Es)]. }
  destruct (expand_new_axes _ _ _ _); intros H; injection H as <-; cbn [mu]; lia.
Qed.

Theorem rule_transpose_elemwise_mu e e' : rule_transpose_elemwise e = Some e' -> (mu e' <= mu e + mu e)%nat.
Proof.
  destruct e as [| | |y axes| | | | | | | | | |]; try discriminate.
  destruct y as [| | | |op args| | | | | | | | |]; try discriminate. cbn [rule_transpose_elemwise].
  destruct (forallb _ args); [|discriminate]. intros H. injection H as <-.
  change (mu (ETranspose (EElemwise op args) axes)) with (S (mu (EElemwise op args))).
  rewrite !mu_elemwise.
  assert (mu_sum (map (fun a => if is_const a then a else ETranspose a axes) args) <= 2 * mu_sum args)%nat.
  { induction args as [|a args IH]; [cbn; lia|]. cbn [map mu_sum]. pose proof (mu_pos a).
    destruct (is_const a); cbn [mu]; lia. }
  rewrite map_length. lia.
Qed.
