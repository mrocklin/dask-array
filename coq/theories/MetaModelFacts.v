From DA Require Import PyBase PyBaseFacts MetaModel.
Open Scope Z_scope.

(* slice(0, 0, None) selects nothing from an axis of ANY length (no sign hypothesis) *)
Lemma slice_len_empty_slice n : slice_len empty_slice n = 0.
Proof.
  unfold slice_len, indices, empty_slice, step_of, adjust_endpoint. cbn [s_start s_stop s_step].
  change (0 <? 0) with false. change (1 <? 0) with false. cbv iota.
  destruct (0 >=? n) eqn:E; unfold range_len; change (1 >? 0) with true; cbv iota;
    rewrite Z.ltb_irrefl; reflexivity.
Qed.

Lemma zprod_nil : zprod [] = 1.
Proof. reflexivity. Qed.

Lemma zprod_repeat0 n : n <> 0%nat -> zprod (repeat 0 n) = 0.
Proof. destruct n; [congruence|reflexivity]. Qed.

Lemma selection_shape_meta_index shape :
  selection_shape (meta_index (length shape)) shape = repeat 0 (length shape).
Proof.
  induction shape as [|n t IH]; [reflexivity|].
  unfold meta_index in *. cbn [length repeat selection_shape].
  rewrite slice_len_empty_slice, IH. reflexivity.
Qed.

Lemma selection_size_meta_index shape :
  shape <> [] -> selection_size (meta_index (length shape)) shape = 0.
Proof.
  intros H. unfold selection_size. rewrite selection_shape_meta_index.
  apply zprod_repeat0. destruct shape; [congruence|discriminate].
Qed.

Lemma selection_size_zero_dim : selection_size (meta_index (length (@nil Z))) [] = 1.
Proof. reflexivity. Qed.

Lemma zero_dim_source_refuted :
  exists shape : list Z, selection_size (meta_index (length shape)) shape = 1.
Proof. exists []. reflexivity. Qed.

(* one request, as long as the source's rank: so a request for a source of dimension >= 1 is never the
   0-d request and vice versa *)
Lemma meta_from_array_requests_spec xndim :
  meta_from_array_requests xndim = [meta_index xndim] /\ length (meta_index xndim) = xndim.
Proof. split; [reflexivity|]. unfold meta_index. apply repeat_length. Qed.

Lemma meta_from_array_shape_gen_spec r xshape ndim :
  meta_from_array_shape_gen r xshape ndim = repeat 0 (target_ndim xshape ndim).
Proof.
  unfold meta_from_array_shape_gen, target_ndim.
  set (nd := match ndim with None => length xshape | Some n => n end).
  destruct r; [reflexivity|].
  rewrite selection_shape_meta_index. rewrite repeat_length.
  destruct (Nat.eqb (length xshape) nd) eqn:E1.
  - apply Nat.eqb_eq in E1. rewrite E1. reflexivity.
  - destruct (Nat.ltb (length xshape) nd) eqn:E2.
    + apply Nat.ltb_lt in E2.
      unfold np_add_trailing_axes.
      set (m1 := repeat 0 (length xshape) ++ repeat 1 (nd - length xshape)).
      assert (Hlen : length m1 = nd).
      { unfold m1. rewrite app_length, !repeat_length, Nat.add_comm. apply Nat.sub_add, Nat.lt_le_incl, E2. }
      rewrite selection_shape_meta_index, Hlen. reflexivity.
    + destruct (Nat.eqb nd 0) eqn:E3.
      * apply Nat.eqb_eq in E3. rewrite E3. reflexivity.
      * unfold np_reshape. destruct (zprod (repeat 0 (length xshape)) =? zprod (repeat 0 nd)); reflexivity.
Qed.

Lemma meta_from_array_shape_spec xshape ndim :
  meta_from_array_shape xshape ndim = repeat 0 (target_ndim xshape ndim).
Proof. apply meta_from_array_shape_gen_spec. Qed.

Lemma from_array_meta_spec xshape :
  from_array_meta_requests (length xshape) = [meta_index (length xshape)] /\
  from_array_meta_shape xshape = repeat 0 (length xshape).
Proof. split; [reflexivity|]. unfold from_array_meta_shape. rewrite meta_from_array_shape_spec. reflexivity. Qed.

Lemma arg_meta_spec a : arg_meta a = arg_call_shape a.
Proof.
  destruct a as [sh|sh|sh|]; cbn [arg_meta arg_call_shape]; try reflexivity;
    rewrite meta_from_array_shape_spec; reflexivity.
Qed.

Lemma sizes_of_repeat0 n :
  (repeat 0 n <> [] -> zprod (repeat 0 n) = 0) /\ (repeat 0 n = [] -> zprod (repeat 0 n) = 1).
Proof.
  split.
  - intros Hn. apply zprod_repeat0. intros ->. apply Hn. reflexivity.
  - intros ->. reflexivity.
Qed.

Lemma arg_meta_size a sh :
  (forall m, a = MExprArg m -> m <> [] -> zprod m = 0) ->
  arg_meta a = Some sh -> (sh <> [] -> zprod sh = 0) /\ (sh = [] -> zprod sh = 1).
Proof.
  intros Hm. rewrite arg_meta_spec.
  destruct a as [m|m|m|]; cbn [arg_call_shape]; intros H; try discriminate; injection H as <-.
  - split; [apply Hm; reflexivity | intros ->; reflexivity].
  - apply sizes_of_repeat0.
  - apply sizes_of_repeat0.
Qed.

Lemma compute_meta_one_call args kwargs :
  exists call, compute_meta_calls args kwargs = [call] /\
    length (fst call) = length args /\ length (snd call) = length kwargs.
Proof.
  eexists. split; [reflexivity|]. cbn [fst snd]. rewrite !map_length. split; reflexivity.
Qed.

Lemma compute_meta_call_shapes args kwargs :
  compute_meta_calls args kwargs = [(map arg_call_shape args, map arg_call_shape kwargs)].
Proof.
  unfold compute_meta_calls. f_equal. f_equal; apply map_ext; apply arg_meta_spec.
Qed.

Lemma compute_meta_calls_on_empty args kwargs call sh :
  (forall m, In (MExprArg m) (args ++ kwargs) -> m <> [] -> zprod m = 0) ->
  In call (compute_meta_calls args kwargs) ->
  In (Some sh) (fst call ++ snd call) ->
  (sh <> [] -> zprod sh = 0) /\ (sh = [] -> zprod sh = 1).
Proof.
  intros Hm Hc Hs. destruct Hc as [<-|[]]. cbn [fst snd] in Hs.
  rewrite <- map_app in Hs. apply in_map_iff in Hs. destruct Hs as [a [Ha Hin]].
  eapply arg_meta_size; [|eassumption].
  intros m ->. apply Hm. exact Hin.
Qed.

(* array-likes and collections are normalised whatever their shape: no hypothesis *)
Lemma compute_meta_arraylike_normalised args kwargs call i sh :
  In call (compute_meta_calls args kwargs) ->
  (nth_error (args ++ kwargs) i = Some (MArrayLike sh) \/ nth_error (args ++ kwargs) i = Some (MCollection sh)) ->
  nth_error (fst call ++ snd call) i = Some (Some (repeat 0 (length sh))).
Proof.
  intros Hc H. rewrite compute_meta_call_shapes in Hc. destruct Hc as [<-|[]]. cbn [fst snd].
  rewrite <- map_app, nth_error_map. destruct H as [-> | ->]; reflexivity.
Qed.

Lemma compute_meta_expr_meta_refuted :
  exists args kwargs call sh, compute_meta_calls args kwargs = [call] /\
    In (Some sh) (fst call) /\ sh <> [] /\ zprod sh = 1.
Proof.
  exists [MExprArg [1]], [], ([Some [1]], []), [1]. repeat split.
  - left. reflexivity.
  - discriminate.
Qed.

Lemma compute_meta_requests_spec args kwargs i a :
  nth_error (args ++ kwargs) i = Some a ->
  nth_error (compute_meta_requests args kwargs) i =
    Some (match a with MArrayLike sh => [meta_index (length sh)] | _ => [] end).
Proof.
  intros H. unfold compute_meta_requests. rewrite <- map_app.
  rewrite nth_error_map, H. cbn [option_map]. destruct a; reflexivity.
Qed.

Lemma compute_meta_requests_empty args kwargs reqs idx :
  In reqs (compute_meta_requests args kwargs) -> In idx reqs ->
  exists shape, In (MArrayLike shape) (args ++ kwargs) /\ idx = meta_index (length shape) /\
    (shape <> [] -> selection_size idx shape = 0) /\ (shape = [] -> selection_size idx shape = 1).
Proof.
  unfold compute_meta_requests. rewrite <- map_app. intros Hr Hi.
  apply in_map_iff in Hr. destruct Hr as [a [Ha Hin]].
  destruct a as [m|m|sh|]; cbn [arg_requests] in Ha; subst reqs; try (destruct Hi; fail).
  unfold meta_from_array_requests in Hi. destruct Hi as [<-|[]].
  exists sh. split; [exact Hin|]. split; [reflexivity|]. split.
  - apply selection_size_meta_index.
  - intros ->. reflexivity.
Qed.

Lemma compute_meta_zero_dim_arg :
  exists args kwargs call, compute_meta_calls args kwargs = [call] /\
    In (Some []) (fst call) /\ zprod [] = 1.
Proof. exists [MExprArg []], [], ([Some []], []). repeat split. left. reflexivity. Qed.

(* parametricity of metadata in the toy language (true by construction) *)
Lemma eval_meta_of e env : a_meta (eval e env) = meta_of e (fun i => src_meta (env i)).
Proof.
  induction e as [id|e IH|e1 IH1 e2 IH2|s e IH|e IH|c e IH]; cbn [eval meta_of a_meta];
    try rewrite IH; try rewrite IH1; try rewrite IH2; reflexivity.
Qed.

Lemma meta_of_ext e m1 m2 : (forall i, m1 i = m2 i) -> meta_of e m1 = meta_of e m2.
Proof.
  intros H. induction e as [id|e IH|e1 IH1 e2 IH2|s e IH|e IH|c e IH]; cbn [meta_of];
    try rewrite IH; try rewrite IH1; try rewrite IH2; try reflexivity. apply H.
Qed.

Lemma metadata_parametric e env1 env2 :
  (forall i, src_meta (env1 i) = src_meta (env2 i)) ->
  a_meta (eval e env1) = a_meta (eval e env2) /\
  a_meta (eval e env1) = meta_of e (fun i => src_meta (env1 i)).
Proof.
  intros H. split; [|apply eval_meta_of].
  rewrite !eval_meta_of. apply meta_of_ext. exact H.
Qed.
