(* C19 — the native sliding-window and moving-window reductions (block plan + banded reduce)
   compute the windowed reduction of the whole array. *)
From DA Require Import PyBase PyBaseFacts Slicing Slice1dBase Scan ScanFacts Window WindowBase.
Open Scope Z_scope.

Lemma swr_chunks_loop_spec : forall cs remaining,
  Forall (fun c => 0 < c) cs -> 0 <= remaining <= zsum cs ->
  Forall (fun c => 0 < c) (swr_chunks_loop cs remaining) /\ zsum (swr_chunks_loop cs remaining) = remaining.
Proof.
  induction cs as [|c t IH]; intros remaining Hpos Hr; cbn [swr_chunks_loop].
  - cbn in Hr. split; [constructor | cbn; lia].
  - inversion Hpos as [|c' t' Hc Ht]; subst. cbn [zsum] in Hr.
    destruct (remaining <=? 0) eqn:E; [split; [constructor | cbn; lia]|].
    pose proof (zsum_nonneg t (Forall_pos_nonneg t Ht)) as Hz.
    destruct (IH (remaining - Z.min c remaining) Ht ltac:(lia)) as [H1 H2].
    split; [constructor; [lia | exact H1] | cbn [zsum]; lia].
Qed.

(* what supports_native_sliding_window has checked *)
Lemma supports_native_sliding_window_inv cs w :
  supports_native_sliding_window cs w = true ->
  1 < w <= zsum cs /\ Forall (fun c => 0 < c) cs /\ supports_loop cs 0 (zsum cs - (w - 1)) (w - 1) = true.
Proof.
  unfold supports_native_sliding_window. intros H.
  destruct (w - 1 <=? 0) eqn:E1; [discriminate|].
  destruct (zmin_list cs) as [mn|] eqn:Emn; [|discriminate].
  destruct (mn <=? 0) eqn:E2; [discriminate|].
  destruct (zsum cs <? w) eqn:E3; [discriminate|].
  destruct ((mn >=? w - 1) && (last cs 0 >? w - 1)); [discriminate|].
  apply zmin_list_spec in Emn as [_ Emn]. split; [lia|]. split; [|exact H].
  exact (Forall_ge_pos mn cs ltac:(lia) Emn).
Qed.

(* C19_sliding_chunks: the advertised chunks are a layout of the n - w + 1 outputs *)
Theorem swr_chunks_valid cs w :
  supports_native_sliding_window cs w = true ->
  Forall (fun c => 0 < c) (swr_chunks cs w) /\ zsum (swr_chunks cs w) = zsum cs - w + 1.
Proof.
  intros H. apply supports_native_sliding_window_inv in H as (Hw & Hpos & _).
  apply swr_chunks_loop_spec; [exact Hpos | lia].
Qed.

(* MovingWindowReduction._block_plan for a block of c <= w - 1 elements that starts at s > 0: the
   first nt windows are clipped at the array start, the window starts run from bf to bl *)
Lemma moving_plan_arith s c w nt bf bl :
  nt = Z.max 0 (Z.min c (w - 1 - s)) -> bf = Z.max 0 (s - w + 1) -> bl = Z.max bf (s + c - w) ->
  0 < s -> 0 < c <= w - 1 ->
  0 <= nt <= c /\ 0 <= bf <= bl /\ bl < s /\ bf + c - nt <= bl + 1 /\
  forall t, 0 <= t < c -> Z.max 0 (s + t - w + 1) = bf + Z.max 0 (t - nt) /\ Z.max 0 (s + t - w + 1) <= bl.
Proof. intros -> -> -> Hs Hc. do 4 (split; [lia|]). intros t Ht. lia. Qed.

Section Sliding.
  Variable M : Type.
  Variable op : M -> M -> M.
  Variable dflt : M.
  Hypothesis op_assoc : forall a b c, op a (op b c) = op (op a b) c.
  Hypothesis op_comm : forall a b, op a b = op b a.

  Local Notation mconcat1 := (mconcat1 op dflt).
  Local Notation scan := (scan op).

  Lemma mconcat1_cons x l : l <> [] -> mconcat1 (x :: l) = op x (mconcat1 l).
  Proof.
    destruct l as [|y t]; [congruence|]. intros _. cbn [Window.mconcat1 fold_left]. apply fold_left_op_out, op_assoc.
  Qed.

  Lemma mconcat1_app a b : a <> [] -> b <> [] -> mconcat1 (a ++ b) = op (mconcat1 a) (mconcat1 b).
  Proof.
    intros Ha Hb. induction a as [|x a IH]; [congruence|].
    destruct a as [|y a'].
    - cbn [app]. rewrite mconcat1_cons by exact Hb. reflexivity.
    - change ((x :: y :: a') ++ b) with (x :: ((y :: a') ++ b)).
      rewrite mconcat1_cons by discriminate. rewrite IH by discriminate.
      rewrite (mconcat1_cons x (y :: a')) by discriminate. apply op_assoc.
  Qed.

  Lemma mconcat1_snoc a x : a <> [] -> mconcat1 (a ++ [x]) = op (mconcat1 a) x.
  Proof. intros Ha. rewrite mconcat1_app by (assumption || discriminate). reflexivity. Qed.

  Lemma mconcat1_rev a : mconcat1 (rev a) = mconcat1 a.
  Proof.
    induction a as [|x a IH]; [reflexivity|]. cbn [rev].
    destruct a as [|y a']; [reflexivity|].
    rewrite mconcat1_snoc by apply snoc_neq_nil.
    rewrite IH. rewrite (mconcat1_cons x (y :: a')) by discriminate. apply op_comm.
  Qed.

  Lemma mconcat1_concat : forall Bs a, a <> [] -> Forall (fun b => b <> []) Bs ->
    mconcat1 (a ++ concat Bs) = fold_left op (map mconcat1 Bs) (mconcat1 a).
  Proof.
    induction Bs as [|b Bs IH]; intros a Ha HB; cbn [concat map fold_left]; [rewrite app_nil_r; reflexivity|].
    inversion HB as [|b' Bs' Hb HBs]; subst.
    rewrite app_assoc, IH; [|intros E; apply app_eq_nil in E as [E _]; congruence | exact HBs].
    rewrite mconcat1_app by assumption. reflexivity.
  Qed.

  Lemma scan_as_map l : scan l = map (fun j => mconcat1 (firstn (S j) l)) (seq 0 (length l)).
  Proof.
    destruct l as [|x t]; [reflexivity|]. cbn [Scan.scan length seq map]. f_equal.
    rewrite scan_from_as_map, <- seq_shift, map_map. reflexivity.
  Qed.

  Lemma scan_snoc l x : l <> [] -> scan (l ++ [x]) = scan l ++ [op (mconcat1 l) x].
  Proof.
    intros Hl. destruct l as [|y t]; [congruence|]. cbn [Scan.scan app]. f_equal.
    clear Hl. cbn [Window.mconcat1]. revert y. induction t as [|z t IH]; intros y; [reflexivity|].
    cbn [app scan_from fold_left]. f_equal. apply IH.
  Qed.

  (* the flipped accumulate of the flipped block: entry t reduces block[t:] *)
  Lemma suffix_scan_as_map a :
    suffix_scan op a = map (fun t => mconcat1 (skipn t a)) (seq 0 (length a)).
  Proof.
    unfold suffix_scan. induction a as [|x a IH]; [reflexivity|].
    cbn [rev length seq map skipn].
    destruct a as [|y a'].
    - reflexivity.
    - rewrite scan_snoc by apply snoc_neq_nil.
      rewrite rev_app_distr. cbn [rev app]. change (rev a' ++ [y]) with (rev (y :: a')). f_equal.
      + rewrite mconcat1_rev. rewrite (mconcat1_cons x (y :: a')) by discriminate. apply op_comm.
      + rewrite IH, <- seq_shift, map_map. reflexivity.
  Qed.

  Lemma fold_totals totals : forall out : list M,
    fold_left (fun out total => map (fun o => op o total) out) totals out = map (fun o => fold_left op totals o) out.
  Proof.
    induction totals as [|x t IH]; intros out; cbn [fold_left]; [symmetry; apply map_id|].
    rewrite IH, map_map. reflexivity.
  Qed.

  Lemma map2_map_seq {A B C} (f : A -> B -> C) (g : nat -> A) (h : nat -> B) s n :
    map2 f (map g (seq s n)) (map h (seq s n)) = map (fun t => f (g t) (h t)) (seq s n).
  Proof. revert s. induction n as [|n IH]; intros s; [reflexivity|]. cbn [seq map map2]. f_equal. apply IH. Qed.

  Lemma mconcat1_swap a b : a <> [] -> b <> [] -> mconcat1 (a ++ b) = mconcat1 (b ++ a).
  Proof. intros Ha Hb. rewrite !mconcat1_app by assumption. apply op_comm. Qed.

  Lemma mconcat1_concat_pre Bs c : c <> [] -> Forall (fun b => b <> []) Bs ->
    mconcat1 (concat Bs ++ c) = fold_left op (map mconcat1 Bs) (mconcat1 c).
  Proof.
    intros Hc HB. destruct (concat Bs) as [|y l] eqn:E.
    - destruct Bs as [|b Bs']; [reflexivity|]. inversion HB as [|? ? Hb _]; subst.
      cbn [concat] in E. apply app_eq_nil in E as [E _]. congruence.
    - rewrite mconcat1_swap by (assumption || discriminate). rewrite <- E. apply mconcat1_concat; assumption.
  Qed.

  (* xs[L : start of block v], L before block u: the totals of blocks u .. v-1 are appended *)
  Lemma mconcat1_blocks_after cs xs u v L :
    Forall (fun c => 0 < c) cs -> zsum cs <= zlen xs -> 0 <= u <= v -> v <= zlen cs -> 0 <= L < psum cs u ->
    mconcat1 (pyslice xs L (psum cs v)) =
    fold_left op (map (fun q => mconcat1 (getblock (split_blocks cs xs) q)) (zrange u v 1))
              (mconcat1 (pyslice xs L (psum cs u))).
  Proof.
    intros Hpos Hfit Huv Hv HL. pose proof (Forall_pos_nonneg cs Hpos) as Hnn.
    pose proof (psum_mono cs u v Hnn ltac:(lia) ltac:(lia)). pose proof (psum_le_total cs v Hnn).
    rewrite (pyslice_app xs L (psum cs u) (psum cs v)) by lia.
    rewrite <- (concat_getblocks cs xs u v) by (assumption || lia).
    rewrite mconcat1_concat, map_map;
      [reflexivity | apply pyslice_nonempty; lia | apply getblocks_nonempty; assumption || lia].
  Qed.

  (* xs[start of block u : R], R after block v-1: the same totals, by commutativity *)
  Lemma mconcat1_blocks_before cs xs u v R :
    Forall (fun c => 0 < c) cs -> zsum cs <= zlen xs -> 0 <= u <= v -> v <= zlen cs -> psum cs v < R <= zlen xs ->
    mconcat1 (pyslice xs (psum cs u) R) =
    fold_left op (map (fun q => mconcat1 (getblock (split_blocks cs xs) q)) (zrange u v 1))
              (mconcat1 (pyslice xs (psum cs v) R)).
  Proof.
    intros Hpos Hfit Huv Hv HR. pose proof (Forall_pos_nonneg cs Hpos) as Hnn.
    pose proof (psum_mono cs u v Hnn ltac:(lia) ltac:(lia)). pose proof (psum_nonneg cs u Hnn).
    rewrite (pyslice_app xs (psum cs u) (psum cs v) R) by lia.
    rewrite <- (concat_getblocks cs xs u v) by (assumption || lia).
    rewrite mconcat1_concat_pre, map_map;
      [reflexivity | apply pyslice_nonempty; lia | apply getblocks_nonempty; assumption || lia].
  Qed.

  (* _sliding_window_banded_reduce entry by entry: a suffix of the block, the totals, a prefix of the band *)
  Lemma banded_reduce_as_map block tots parts n off :
    0 <= n <= zlen block -> 0 <= off -> off + n <= zlen (concat parts) ->
    banded_reduce op block tots parts n off =
    map (fun t => op (fold_left op tots (mconcat1 (skipn t block)))
                     (mconcat1 (firstn (S (Z.to_nat off + t)) (concat parts))))
        (seq 0 (Z.to_nat n)).
  Proof.
    intros Hn Hoff Hfit. unfold banded_reduce. set (band := concat parts) in *. unfold zlen in Hn, Hfit.
    rewrite suffix_scan_as_map, fold_totals, scan_as_map.
    rewrite pyslice_map_seq by lia. rewrite Z.sub_0_r. change (Z.to_nat 0) with 0%nat. rewrite map_map.
    assert (Lpre : length (pyslice band 0 (off + n)) = Z.to_nat (off + n)).
    { pose proof (pyslice_length band 0 (off + n) ltac:(lia) ltac:(lia) Hfit) as HL. unfold zlen in HL. lia. }
    rewrite Lpre, pyslice_map_seq by lia.
    replace (Z.to_nat (off + n - off)) with (Z.to_nat n) by lia.
    rewrite (map_seq_shift _ (Z.to_nat off)), map2_map_seq.
    apply map_ext_in. intros t Ht. apply in_seq in Ht. do 2 f_equal.
    unfold pyslice. cbn [Z.to_nat skipn]. rewrite firstn_firstn. f_equal. lia.
  Qed.

  (* the value of output position g of the whole array *)
  Definition wval (w : Z) (xs : list M) (g : nat) : M := mconcat1 (firstn (Z.to_nat w) (skipn g xs)).

  (* the task of block i (no longer than w - 1, so every window that starts in it leaves it) computes the
     out_len window values that start in the block: a window is a suffix of the block, the blocks
     i+1..b-1 whole (their totals), and a prefix of the band of blocks b..e *)
  Lemma banded_block cs w xs i out_len :
    Forall (fun c => 0 < c) cs -> zsum cs = zlen xs ->
    0 <= i < zlen cs -> nthZ cs i <= w - 1 -> 0 < out_len <= nthZ cs i ->
    psum cs i + out_len <= zsum cs - w + 1 ->
    let sts := starts cs in
    let edge := nthZ sts i + w - 1 in
    let b := bisect_right sts edge - 1 in
    let e := bisect_right sts (edge + out_len - 1) - 1 in
    let blocks := split_blocks cs xs in
    banded_reduce op (getblock blocks i)
                  (map (fun q => mconcat1 (getblock blocks q)) (zrange (i + 1) b 1))
                  (map (getblock blocks) (zrange b (e + 1) 1)) out_len (edge - nthZ sts b)
    = map (wval w xs) (seq (Z.to_nat (psum cs i)) (Z.to_nat out_len)).
  Proof.
    intros Hpos Hlen Hi Hci Hout Hfit sts edge b e blocks.
    pose proof (Forall_pos_nonneg cs Hpos) as Hnn.
    pose proof (psum_nonneg cs i Hnn) as HSi0. pose proof (psum_succ cs i Hi) as HSi1.
    assert (Hedge : edge = psum cs i + w - 1) by (unfold edge, sts; rewrite nthZ_starts; lia).
    (* b holds the first position after the block's own windows, e the last position read *)
    destruct (bisect_band cs xs edge (edge + out_len - 1) b e Hnn eq_refl eq_refl ltac:(lia) ltac:(lia))
      as (Hbe & He & Hb2 & He2 & Hoff & Eband).
    assert (Hbi : i + 1 < b + 1) by (apply (psum_lt_inv cs); [exact Hnn | lia | lia]).
    pose proof (psum_mono cs (i + 1) b Hnn ltac:(lia) ltac:(lia)) as HSbi.
    pose proof (psum_mono cs (b + 1) (e + 1) Hnn ltac:(lia) ltac:(lia)) as HSbe.
    pose proof (psum_le_total cs (e + 1) Hnn) as HSe.
    assert (Eblock : getblock blocks i = pyslice xs (psum cs i) (psum cs (i + 1))) by (apply getblock_split; assumption).
    fold sts in Hoff. fold blocks in Eband.
    rewrite Hoff, banded_reduce_as_map, Eband, Eblock, (map_seq_shift (wval w xs));
      [| rewrite Eblock, pyslice_length; lia | lia | rewrite Eband, pyslice_length; lia].
    apply map_ext_in. intros t Ht. apply in_seq in Ht.
    (* the window of output position psum i + t, cut at the start of block b *)
    unfold wval. rewrite pyslice_skipn.
    set (L := Z.of_nat (Z.to_nat (psum cs i) + t)). assert (HL : L = psum cs i + Z.of_nat t) by lia. clearbody L.
    rewrite (pyslice_app xs L (psum cs b) (L + w)), mconcat1_app by (lia || apply pyslice_nonempty; lia).
    rewrite (mconcat1_blocks_after cs xs (i + 1) b) by (assumption || lia).
    f_equal; [f_equal|]; f_equal.
    - rewrite <- (Nat2Z.id t) at 1. rewrite skipn_pyslice by lia. f_equal. lia.
    - replace (S (Z.to_nat (edge - psum cs b) + t)) with (Z.to_nat (L + w - psum cs b)) by lia.
      rewrite firstn_pyslice by lia. f_equal. lia.
  Qed.

  (* one step along a layout of positive chunks: the block behind the prefix pre *)
  Lemma layout_step cs (pre rest : list Z) c :
    cs = pre ++ c :: rest -> Forall (fun c => 0 < c) cs ->
    let i := zlen pre in
    0 <= i < zlen cs /\ nthZ cs i = c /\ 0 < c /\ psum cs (i + 1) = psum cs i + c /\
    cs = (pre ++ [c]) ++ rest /\ zlen (pre ++ [c]) = i + 1.
  Proof.
    intros Hcs Hpos i.
    assert (Hi : 0 <= i < zlen cs) by (subst cs i; rewrite zlen_app, zlen_cons; pose proof (zlen_nonneg pre); pose proof (zlen_nonneg rest); lia).
    assert (Hci : nthZ cs i = c) by (subst cs; apply nthZ_lenZ_app).
    pose proof (nthZ_pos cs i Hpos Hi). pose proof (psum_succ cs i Hi).
    repeat split; try lia; [rewrite <- app_assoc; exact Hcs | apply zlen_app].
  Qed.

  (* the loops of the plan and of the layer in step, at the blocks `rest` behind `pre` with `remaining`
     outputs still due: each planned block yields its share of them (banded_block), in the chunks that
     swr_chunks_loop advertises *)
  Lemma swr_loop_spec cs w xs :
    Forall (fun c => 0 < c) cs -> zsum cs = zlen xs -> 1 < w ->
    forall rest pre remaining, cs = pre ++ rest ->
      Z.max 0 remaining = Z.max 0 (zsum cs - w + 1 - psum cs (zlen pre)) ->
      supports_loop rest (psum cs (zlen pre)) (zsum cs - (w - 1)) (w - 1) = true ->
      let out := swr_layer_loop op dflt (split_blocks cs xs) (zlen pre)
                                (block_plan_loop (starts cs) w (zlen pre) rest remaining) in
      concat out = map (wval w xs) (seq (Z.to_nat (psum cs (zlen pre))) (Z.to_nat remaining)) /\
      map zlen out = swr_chunks_loop rest remaining.
  Proof.
    intros Hpos Hlen Hw. pose proof (Forall_pos_nonneg cs Hpos) as Hnn.
    induction rest as [|c rest IH]; intros pre remaining Hcs Hrem Hsup; cbv zeta.
    - cbn [block_plan_loop swr_layer_loop concat map swr_chunks_loop].
      rewrite app_nil_r in Hcs. subst pre. rewrite psum_all in Hrem.
      replace (Z.to_nat remaining) with 0%nat by lia. split; reflexivity.
    - destruct (layout_step cs pre rest c Hcs Hpos) as (Hi & Hci & Hc & HS1 & Hcs' & Hi'). set (i := zlen pre) in *.
      pose proof (psum_nonneg cs i Hnn) as HS0.
      cbn [block_plan_loop swr_chunks_loop].
      destruct (remaining <=? 0) eqn:Er.
      + replace (Z.max 0 (Z.min c remaining)) with 0 by lia.
        change (0 <=? 0) with true. cbv iota. cbn [swr_layer_loop]. change (0 <=? 0) with true. cbv iota.
        replace (Z.to_nat remaining) with 0%nat by lia. split; reflexivity.
      + cbn [supports_loop] in Hsup.
        destruct (psum cs i >=? zsum cs - (w - 1)) eqn:E1; [lia|].
        destruct (c >? w - 1) eqn:E2; [discriminate|].
        set (out_len := Z.max 0 (Z.min c remaining)) in *.
        assert (Hol : out_len = Z.min c remaining) by (unfold out_len; lia).
        destruct (out_len <=? 0) eqn:E3; [lia|].
        cbn [swr_layer_loop]. rewrite E3.
        specialize (IH (pre ++ [c]) (remaining - out_len) Hcs').
        rewrite Hi' in IH. rewrite HS1 in IH.
        specialize (IH ltac:(lia) Hsup). cbv zeta in IH. destruct IH as [IH1 IH2].
        pose proof (banded_block cs w xs i out_len Hpos Hlen Hi ltac:(lia) ltac:(lia) ltac:(lia)) as HB.
        cbv zeta in HB.
        cbn [concat map]. rewrite HB, IH1, IH2. split.
        * replace (Z.to_nat remaining) with (Z.to_nat out_len + Z.to_nat (remaining - out_len))%nat by lia.
          rewrite seq_app, map_app. f_equal.
          destruct (Z.eq_dec (remaining - out_len) 0) as [E0|E0].
          -- rewrite E0. reflexivity.
          -- do 2 f_equal. lia.
        * f_equal; [|rewrite Hol; reflexivity].
          unfold zlen. rewrite map_length, seq_length. lia.
  Qed.

  (* C19_sliding_native: the block results, concatenated, are the reduction of every window of the whole
     array, in the advertised chunks *)
  Theorem sliding_native_correct cs w xs :
    supports_native_sliding_window cs w = true -> zsum cs = zlen xs ->
    concat (sliding_native op dflt cs w xs) = sliding_spec op dflt w xs /\
    map zlen (sliding_native op dflt cs w xs) = swr_chunks cs w.
  Proof.
    intros H Hlen. apply supports_native_sliding_window_inv in H as (Hw & Hpos & H).
    pose proof (swr_loop_spec cs w xs Hpos Hlen ltac:(lia) cs [] (zsum cs - w + 1) eq_refl) as HL.
    change (zlen (@nil Z)) with 0 in HL. rewrite psum_0 in HL.
    specialize (HL ltac:(lia) H). cbv zeta in HL.
    unfold sliding_native, block_plan, sliding_spec, swr_chunks. destruct HL as [HL1 HL2].
    split; [|exact HL2]. rewrite HL1. change (Z.to_nat 0) with 0%nat. rewrite <- Hlen. reflexivity.
  Qed.

  Lemma repeat_as_map (x : M) n : repeat x n = map (fun _ => x) (seq 0 n).
  Proof. induction n as [|n IH]; [reflexivity|]. cbn [repeat seq map]. f_equal. rewrite IH, <- seq_shift, map_map. reflexivity. Qed.

  (* the value of output position j of the whole array (window clipped at the array start) *)
  Definition mval (w : Z) (xs : list M) (j : nat) : M :=
    mconcat1 (pyslice xs (Z.max 0 (Z.of_nat j - w + 1)) (Z.of_nat j + 1)).

  (* _moving_window_banded_reduce entry by entry: a prefix of the block, the totals, a suffix of the
     band; the first nt entries read the band from the same place (their windows are clipped) *)
  Lemma moving_banded_reduce_as_map block tots lp nt off :
    lp <> [] -> 0 <= nt <= zlen block -> 0 <= off -> off + 1 <= zlen (concat lp) ->
    off + zlen block - nt <= zlen (concat lp) ->
    moving_banded_reduce op block tots lp nt off =
    map (fun t => op (fold_left op tots (mconcat1 (firstn (S t) block)))
                     (mconcat1 (skipn (Z.to_nat (off + Z.max 0 (Z.of_nat t - nt))) (concat lp))))
        (seq 0 (length block)).
  Proof.
    intros Hlp Hnt Hoff Hone Hfit. unfold moving_banded_reduce. destruct lp as [|p0 lp']; [congruence|].
    set (band := concat (p0 :: lp')) in *. set (c := zlen block) in *.
    rewrite fold_totals, scan_as_map, suffix_scan_as_map, map_map.
    set (sfx := fun t : nat => mconcat1 (skipn t band)). unfold zlen in Hone, Hfit.
    assert (Eseg : (if nt =? 0 then pyslice (map sfx (seq 0 (length band))) off (off + c - nt)
                    else repeat_each (pyslice (map sfx (seq 0 (length band))) off (off + 1)) nt
                         ++ pyslice (map sfx (seq 0 (length band))) off (off + c - nt))
                   = map (fun t => sfx (Z.to_nat (off + Z.max 0 (Z.of_nat t - nt)))) (seq 0 (length block))).
    { replace (length block) with (Z.to_nat c) by (unfold c, zlen; lia).
      rewrite (pyslice_map_seq _ (length band) off (off + c - nt)) by lia.
      replace (Z.to_nat (off + c - nt - off)) with (Z.to_nat (c - nt)) by lia.
      rewrite (map_seq_shift _ (Z.to_nat off)).
      destruct (nt =? 0) eqn:E0.
      - assert (nt = 0) by lia. subst nt. rewrite Z.sub_0_r. apply map_ext_in. intros t Ht. f_equal. lia.
      - rewrite (pyslice_map_seq _ (length band) off (off + 1)) by lia.
        replace (Z.to_nat (off + 1 - off)) with 1%nat by lia. cbn [seq map]. unfold repeat_each. cbn [map concat]. rewrite app_nil_r.
        rewrite repeat_as_map.
        replace (Z.to_nat c) with (Z.to_nat nt + Z.to_nat (c - nt))%nat by lia. rewrite seq_app, map_app. f_equal.
        + apply map_ext_in. intros t Ht. apply in_seq in Ht. f_equal. lia.
        + rewrite (map_seq_shift _ (0 + Z.to_nat nt)). apply map_ext_in. intros t Ht. apply in_seq in Ht. f_equal. lia. }
    rewrite Eseg. apply map2_map_seq.
  Qed.

  (* block 0: every window ends in the block and is clipped at the array start, so there is no band *)
  Lemma moving_block_first cs w xs :
    Forall (fun c => 0 < c) cs -> zsum cs = zlen xs -> 0 < zlen cs -> nthZ cs 0 <= w - 1 ->
    moving_banded_reduce op (getblock (split_blocks cs xs) 0) [] []
                         (Z.max 0 (Z.min (nthZ cs 0) (w - 1 - 0))) 0
    = map (mval w xs) (seq 0 (Z.to_nat (nthZ cs 0))).
  Proof.
    intros Hpos Hlen Hk Hc. pose proof (Forall_pos_nonneg cs Hpos) as Hnn.
    unfold moving_banded_reduce. cbn [fold_left].
    rewrite getblock_split by (assumption || lia). rewrite psum_0.
    pose proof (psum_succ cs 0 ltac:(lia)) as H1. rewrite psum_0 in H1. change (0 + 1) with 1 in *.
    pose proof (nthZ_pos cs 0 Hpos ltac:(lia)) as Hc0. pose proof (psum_le_total cs 1 Hnn) as Hle.
    rewrite scan_as_map.
    pose proof (pyslice_length xs 0 (psum cs 1) ltac:(lia) ltac:(lia) ltac:(lia)) as HL. unfold zlen in HL.
    replace (length (pyslice xs 0 (psum cs 1))) with (Z.to_nat (nthZ cs 0)) by lia.
    apply map_ext_in. intros t Ht. apply in_seq in Ht. unfold mval.
    rewrite Z.max_l by lia. f_equal.
    replace (S t) with (Z.to_nat (Z.of_nat t + 1)) by lia. rewrite firstn_pyslice by lia. reflexivity.
  Qed.

  (* the task of a later block i: its windows end in the block and start in the blocks g..h (the band);
     the blocks h+1..i-1 lie inside every one of them and enter as totals *)
  Lemma moving_block cs w xs i :
    Forall (fun c => 0 < c) cs -> zsum cs = zlen xs ->
    0 < i < zlen cs -> nthZ cs i <= w - 1 ->
    let sts := starts cs in
    let start := nthZ sts i in
    let c := nthZ cs i in
    let band_first := Z.max 0 (start - w + 1) in
    let band_last := Z.max band_first (start + c - w) in
    let g := bisect_right sts band_first - 1 in
    let h := bisect_right sts band_last - 1 in
    let blocks := split_blocks cs xs in
    moving_banded_reduce op (getblock blocks i)
                         (map (fun q => mconcat1 (getblock blocks q)) (zrange (h + 1) i 1))
                         (map (getblock blocks) (zrange g (h + 1) 1))
                         (Z.max 0 (Z.min c (w - 1 - start))) (band_first - nthZ sts g)
    = map (mval w xs) (seq (Z.to_nat (psum cs i)) (Z.to_nat c)).
  Proof.
    intros Hpos Hlen Hi Hci sts start c band_first band_last g h blocks.
    pose proof (Forall_pos_nonneg cs Hpos) as Hnn.
    assert (HSi : start = psum cs i) by (apply nthZ_starts; lia).
    assert (HSi1 : psum cs (i + 1) = psum cs i + c) by (apply psum_succ; lia).
    assert (Hc0 : 0 < c) by (apply nthZ_pos; [exact Hpos | lia]).
    assert (HS0 : 0 < psum cs i) by (rewrite <- (psum_0 cs); apply psum_lt; [exact Hpos | lia | lia]).
    pose proof (psum_le_total cs (i + 1) Hnn) as HSn.
    set (nt := Z.max 0 (Z.min c (w - 1 - start))).
    destruct (moving_plan_arith start c w nt band_first band_last eq_refl eq_refl eq_refl ltac:(lia) ltac:(lia))
      as (Hnt & Hbf & Hbl & Hfit & Hwin).
    clearbody nt.
    (* g and h hold the first and the last window start of the block *)
    destruct (bisect_band cs xs band_first band_last g h Hnn eq_refl eq_refl ltac:(lia) ltac:(lia))
      as (Hgh & Hh & Hg2 & Hh2 & Hoff & Eband).
    assert (Hhi : h < i) by (apply (psum_lt_inv cs); [exact Hnn | lia | lia]).
    pose proof (psum_mono cs (h + 1) i Hnn ltac:(lia) ltac:(lia)) as HShi.
    pose proof (psum_mono cs (g + 1) (h + 1) Hnn ltac:(lia) ltac:(lia)) as HSgh.
    pose proof (psum_nonneg cs g Hnn) as HSg0.
    assert (Eblock : getblock blocks i = pyslice xs (psum cs i) (psum cs (i + 1))) by (apply getblock_split; [exact Hnn | lia]).
    fold sts in Hoff. fold blocks in Eband.
    assert (Lblock : zlen (getblock blocks i) = c) by (rewrite Eblock, pyslice_length; lia).
    assert (Lband : zlen (concat (map (getblock blocks) (zrange g (h + 1) 1))) = psum cs (h + 1) - psum cs g)
      by (rewrite Eband, pyslice_length; lia).
    rewrite Hoff, moving_banded_reduce_as_map, Eband;
      [| rewrite zrange_1_cons by lia; discriminate | rewrite Lblock; lia | lia | rewrite Lband; lia
       | rewrite Lband, Lblock; lia].
    replace (length (getblock blocks i)) with (Z.to_nat c) by (unfold zlen in Lblock; lia).
    rewrite Eblock, (map_seq_shift (mval w xs)).
    apply map_ext_in. intros t Ht. apply in_seq in Ht.
    (* the window of output position psum i + t, cut at the end of block h *)
    unfold mval.
    replace (Z.of_nat (Z.to_nat (psum cs i) + t) - w + 1) with (start + Z.of_nat t - w + 1) by lia.
    destruct (Hwin (Z.of_nat t) ltac:(lia)) as [HL HLb]. set (L := Z.max 0 (start + Z.of_nat t - w + 1)) in *.
    set (R := Z.of_nat (Z.to_nat (psum cs i) + t) + 1). assert (HR : R = psum cs i + Z.of_nat t + 1) by lia.
    clearbody L R.
    rewrite (pyslice_app xs L (psum cs (h + 1)) R), mconcat1_app by (lia || apply pyslice_nonempty; lia).
    rewrite (mconcat1_blocks_before cs xs (h + 1) i) by (assumption || lia).
    rewrite op_comm. f_equal; [|f_equal]; f_equal.
    - rewrite skipn_pyslice by lia. f_equal. lia.
    - replace (S t) with (Z.to_nat (Z.of_nat t + 1)) by lia. rewrite firstn_pyslice by lia. f_equal. lia.
  Qed.

  (* the loops of the plan and of the layer in step, at the blocks `rest` behind `pre`: every block yields
     one output per input position (moving_block_first for block 0, moving_block after it) *)
  Lemma mwr_loop_spec cs w xs :
    Forall (fun c => 0 < c) cs -> zsum cs = zlen xs -> Forall (fun c => c <= w - 1) cs ->
    forall rest pre, cs = pre ++ rest ->
      let out := mwr_layer_loop op dflt (split_blocks cs xs) w (zlen pre)
                                (moving_plan_loop (starts cs) w (zlen pre) rest) in
      concat out = map (mval w xs) (seq (Z.to_nat (psum cs (zlen pre))) (Z.to_nat (zsum rest))) /\
      map zlen out = rest.
  Proof.
    intros Hpos Hlen Hmax. pose proof (Forall_pos_nonneg cs Hpos) as Hnn.
    induction rest as [|c rest IH]; intros pre Hcs; cbv zeta.
    - cbn. split; reflexivity.
    - destruct (layout_step cs pre rest c Hcs Hpos) as (Hi & Hci & Hc & HS1 & Hcs' & Hi'). set (i := zlen pre) in *.
      assert (Hcw : c <= w - 1) by (rewrite Forall_forall in Hmax; apply Hmax; subst cs; apply in_or_app; right; left; reflexivity).
      pose proof (psum_nonneg cs i Hnn) as HS0.
      assert (Hzr : 0 <= zsum rest).
      { apply zsum_nonneg. subst cs. apply Forall_app in Hnn as [_ Hnn]. inversion Hnn; assumption. }
      specialize (IH (pre ++ [c]) Hcs'). rewrite Hi' in IH. cbv zeta in IH.
      set (tl := mwr_layer_loop op dflt (split_blocks cs xs) w (i + 1) (moving_plan_loop (starts cs) w (i + 1) rest)) in *.
      destruct IH as [IH1 IH2].
      assert (HSi : nthZ (starts cs) i = psum cs i) by (apply nthZ_starts; lia).
      assert (Hfin : forall B : list M, B = map (mval w xs) (seq (Z.to_nat (psum cs i)) (Z.to_nat c)) ->
                concat (B :: tl) = map (mval w xs) (seq (Z.to_nat (psum cs i)) (Z.to_nat (zsum (c :: rest)))) /\
                map zlen (B :: tl) = c :: rest).
      { intros B ->. cbn [concat map zsum]. rewrite IH1, IH2. split.
        - replace (Z.to_nat (c + zsum rest)) with (Z.to_nat c + Z.to_nat (zsum rest))%nat by lia.
          rewrite seq_app, map_app. do 3 f_equal. lia.
        - f_equal. unfold zlen. rewrite map_length, seq_length. lia. }
      (* the block starts at position 0 exactly when it is block 0 *)
      assert (H0 : psum cs i = 0 <-> i = 0).
      { split; [|intros ->; apply psum_0]. intros E. destruct (Z.eq_dec i 0) as [|Hne]; [assumption|].
        pose proof (psum_lt cs 0 i Hpos ltac:(lia) ltac:(lia)) as Hlt. rewrite psum_0 in Hlt. lia. }
      cbn [moving_plan_loop]. rewrite HSi. destruct (psum cs i =? 0) eqn:E0; cbn [mwr_layer_loop]; apply Hfin.
      + assert (Ei : i = 0) by (apply H0; lia). rewrite Ei, psum_0. rewrite Ei in Hci. rewrite <- Hci.
        apply moving_block_first; try assumption; lia.
      + pose proof (moving_block cs w xs i Hpos Hlen ltac:(lia) ltac:(lia)) as HB. cbv zeta in HB.
        rewrite Hci, HSi in HB. exact HB.
  Qed.

  Lemma fold_max_le : forall t x m, fold_left Z.max t x <= m -> x <= m /\ Forall (fun c => c <= m) t.
  Proof.
    induction t as [|y t IH]; intros x m H; cbn [fold_left] in H; [split; [exact H | constructor]|].
    destruct (IH _ _ H) as [H1 H2]. split; [lia|]. constructor; [lia | exact H2].
  Qed.

  (* C19_moving_native: output j reduces xs[max(0, j-w+1) : j+1], and the layout is the input's *)
  Theorem moving_native_correct cs w xs :
    supports_native_moving_window cs w = true -> zsum cs = zlen xs ->
    concat (moving_native op dflt cs w xs) = moving_spec op dflt w xs /\
    map zlen (moving_native op dflt cs w xs) = cs.
  Proof.
    unfold supports_native_moving_window. intros H Hlen.
    destruct (w <=? 1) eqn:E1; [discriminate|].
    destruct (zmin_list cs) as [mn|] eqn:Emn; [|discriminate].
    destruct (mn <=? 0) eqn:E2; [discriminate|].
    destruct ((zlen cs <? 2) || (zsum cs <? w)); [discriminate|].
    apply zmin_list_spec in Emn as [_ Emn].
    pose proof (Forall_ge_pos mn cs ltac:(lia) Emn) as Hpos.
    assert (Hmax : Forall (fun c => c <= w - 1) cs).
    { destruct cs as [|c0 t0]; [constructor|]. cbn [tl hd] in H. apply Z.leb_le in H.
      destruct (fold_max_le _ _ _ H) as [H1 H2]. constructor; assumption. }
    pose proof (mwr_loop_spec cs w xs Hpos Hlen Hmax cs [] eq_refl) as HL.
    change (zlen (@nil Z)) with 0 in HL. rewrite psum_0 in HL. cbv zeta in HL.
    unfold moving_native, moving_plan, moving_spec. destruct HL as [HL1 HL2].
    split; [|exact HL2]. rewrite HL1. change (Z.to_nat 0) with 0%nat.
    replace (Z.to_nat (zsum cs)) with (length xs) by (unfold zlen in Hlen; lia). reflexivity.
  Qed.
End Sliding.
