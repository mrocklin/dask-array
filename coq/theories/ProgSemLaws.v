(* Chunking independence and the algebraic laws the optimizer's pushdown rewrites rely on, each as a
   theorem about [eval] for all programs.  Each law is an array-level equation ([..._arr], or inline) fed to
   one of ProgSemDen's [law_un2_un] / [law_un2_un2] / [law_un_n]. *)
From DA Require Import PyBase PyBaseFacts Slicing NormalizeFacts FuseFacts NdArray NdArrayFacts ProgSem ProgSemFacts ProgSemDen.
Open Scope Z_scope.

(* broadcasting among equal shapes changes nothing *)
Lemma rbshape_same a : rbshape a a = a.
Proof. induction a as [|n a IH]; [reflexivity|]. cbn [rbshape]. rewrite IH. unfold bdim. break_if; [f_equal; lia | reflexivity]. Qed.

Lemma bshape_same s : bshape s s = s.
Proof. unfold bshape. rewrite rbshape_same. apply rev_involutive. Qed.

Lemma bshape_all_same s ss : ss <> [] -> Forall (fun t => t = s) ss -> bshape_all ss = s.
Proof.
  intros Hne H. induction H as [|t ss -> Hs IH]; [congruence|].
  cbn [bshape_all fold_right]. destruct ss as [|u ss]; [apply bshape_nil_r|].
  fold (bshape_all (u :: ss)). rewrite IH by discriminate. apply bshape_same.
Qed.

Lemma rbcast_intob_same a : rbcast_intob a a = true.
Proof. induction a as [|n a IH]; [reflexivity|]. cbn [rbcast_intob]. rewrite IH, Z.eqb_refl, orb_true_r. reflexivity. Qed.

Lemma mask_id s : forall out, in_bounds out s -> mask s out = out.
Proof.
  induction s as [|n s IH]; intros [|i out] H; cbn [in_bounds] in H; try (exfalso; tauto); [reflexivity|].
  cbn [mask]. rewrite IH by tauto. destruct (n =? 1) eqn:E; [f_equal; lia | reflexivity].
Qed.

Lemma bidx_id s out : in_bounds out s -> bidx s out = out.
Proof.
  intros H. unfold bidx, lastn. rewrite (in_bounds_length _ _ H), Nat.sub_diag. cbn [skipn]. apply mask_id. exact H.
Qed.

(* C01 (c), chunking independence: rechunk is the identity on values and on advertised shapes *)
Theorem eval_rechunk c p : eval (PRechunk c p) = eval p.
Proof. cbn [eval]. destruct (eval p); reflexivity. Qed.

Theorem pshape_rechunk c p : pshape (PRechunk c p) = pshape p.
Proof. cbn [pshape]. destruct (pshape p); reflexivity. Qed.

Lemma is_permb_bound axes n : is_permb axes n = true -> Forall (fun j => (j < n)%nat) axes.
Proof. intros H. apply Forall_forall. intros j Hj. apply (perm_in axes n H). exact Hj. Qed.

Theorem eval_transpose_transpose p q x r :
  eval (PT q (PT p x)) = Some r -> eval (PT (pickn O p q) x) = Some r.
Proof.
  apply law_un2_un. intros y _ Hp Hq. cbn [un_ok un_shape un_arr] in *.
  unfold transpose_shape in Hq. rewrite pickn_length in Hq. rewrite (perm_len p _ Hp) in Hq.
  set (n := length (shape y)) in *.
  split; [apply is_permb_compose; assumption|]. apply aeq_sym.
  split; cbn [atranspose shape get].
  - unfold transpose_shape. apply pickn_compose. rewrite (perm_len p n Hp). apply is_permb_bound. exact Hq.
  - intros out Ho. f_equal. apply (transpose_src_compose p q n); try assumption.
    pose proof (in_bounds_length _ _ Ho) as Hl. unfold transpose_shape in Hl.
    rewrite !pickn_length in Hl. rewrite Hl. apply (perm_len q n Hq).
Qed.

Lemma indices_rev n : indices rev_slice n = (n - 1, -1, -1).
Proof. reflexivity. Qed.

Lemma slice_len_rev n : 0 <= n -> slice_len rev_slice n = n.
Proof.
  intros Hn. unfold slice_len. rewrite indices_rev.
  apply range_len_neg_unique; lia.
Qed.

Lemma nthZ_sel_rev n j : 0 <= j < n -> nthZ (sel rev_slice n) j = n - 1 - j.
Proof.
  intros Hj. unfold sel, nthZ. rewrite indices_rev.
  rewrite zrange_nth.
  - rewrite Z2Nat.id by lia. lia.
  - rewrite Z2Nat.id by lia. change (range_len (n - 1) (-1) (-1)) with (slice_len rev_slice n).
    rewrite slice_len_rev; lia.
Qed.

(* x[:, ..., :, sl] with sl on axis ax *)
Lemma ax_ix_ok ax sl : forall s,
  ixokb (repeat (ISlice colon) ax ++ [ISlice sl]) s = ltn ax (length s) && negb (step_of sl =? 0).
Proof.
  unfold ltn. induction ax as [|ax IH]; intros [|n s]; cbn [repeat app ixokb length]; try reflexivity.
  - rewrite andb_true_r. reflexivity.
  - rewrite IH. reflexivity.
Qed.

Lemma ax_ix_shape ax sl : forall s, nonneg_shape s -> (ax < length s)%nat ->
  slice_shape (repeat (ISlice colon) ax ++ [ISlice sl]) s = set_nth ax (slice_len sl (nth ax s 0)) s.
Proof.
  induction ax as [|ax IH]; intros [|n s] Hn Hl; cbn [length] in Hl; try lia;
    inversion Hn; subst; cbn [repeat app slice_shape hd tl set_nth nth].
  - reflexivity.
  - rewrite slice_len_colon by assumption. f_equal. apply IH; [assumption | lia].
Qed.

Lemma ax_ix_src ax sl : forall s out, in_bounds out s -> (ax < length s)%nat ->
  slice_src (repeat (ISlice colon) ax ++ [ISlice sl]) s out = upd ax (nthZ (sel sl (nth ax s 0))) out.
Proof.
  unfold upd. induction ax as [|ax IH]; intros [|n s] [|j out] Ho Hl; cbn [length in_bounds] in Ho, Hl; try lia; try (exfalso; tauto);
    destruct Ho as [Hj Ho]; cbn [repeat app slice_src hd tl nth set_nth].
  - reflexivity.
  - rewrite nthZ_sel_colon by assumption. f_equal. apply IH; [assumption | lia].
Qed.

(* flip = slice with step -1 on that axis ([flip_index]: full slices before it, nothing after it) *)
Theorem eval_flip_is_slice ax p : eval (PFlip ax p) = eval (PSlice (flip_index ax) p).
Proof.
  rewrite !eval_is_tabulated_den. cbn [pden]. destruct (pden p) as [x|] eqn:Ex; [|reflexivity].
  pose proof (pden_nonneg p x Ex) as Hs. cbn [un_ok]. unfold flip_index. rewrite ax_ix_ok, andb_true_r.
  destruct (ltn ax (length (shape x))) eqn:El; [|reflexivity]. apply ltn_lt in El.
  cbn [option_map]. f_equal. apply to_nd_ext. cbn [un_arr]. split; cbn [aflip aslice shape get].
  - rewrite ax_ix_shape, slice_len_rev by (try apply nth_nonneg; assumption). symmetry. apply set_nth_same.
  - intros out Ho. rewrite ax_ix_src by assumption. unfold upd. rewrite nthZ_sel_rev; [reflexivity|].
    apply in_bounds_nth; assumption.
Qed.

Lemma indices_elem_range s n a b k t :
  0 <= n -> step_of s <> 0 -> indices s n = (a, b, k) -> 0 <= t < range_len a b k -> 0 <= a + t * k < n.
Proof.
  intros Hn Hk Hi Ht.
  pose proof (sel_nth_range s n t Hn Hk) as H. unfold slice_len, sel, nthZ in H. rewrite Hi in H.
  specialize (H Ht). rewrite zrange_nth in H by (rewrite Z2Nat.id; lia). rewrite Z2Nat.id in H by lia. exact H.
Qed.

Lemma indices_some_inrange x st k n : 0 <= x < n -> k <> 0 ->
  indices (mkslice (Some x) st (Some k)) n =
  (x, adjust_endpoint st n k (-1) n, k).
Proof.
  intros Hx Hk. unfold indices, step_of. cbn [s_start s_stop s_step]. f_equal. f_equal.
  unfold adjust_endpoint. repeat break_if; lia.
Qed.

(* With o selecting a + u*k (u < m) and i selecting c + t*j (t < len) of those, both sides are the progression
   a + c*k + t*(k*j), t < len; what is left is that the stop chosen by [compose_sel] gives exactly len elements,
   by the sign of k*j and whether the progression would run below 0. *)
Theorem compose_sel_exact o i n :
  0 <= n -> step_of o <> 0 -> step_of i <> 0 ->
  sel (compose_sel o i n) n = pick (sel o n) (sel i (slice_len o n)) /\ step_of (compose_sel o i n) <> 0.
Proof.
  intros Hn Ho Hi. unfold compose_sel, slice_len.
  destruct (indices o n) as [[a b] k] eqn:HO.
  pose proof (indices_bounds o n a b k Hn HO) as (Hk & _).
  pose proof (range_len_nonneg a b k) as Hm.
  set (m := range_len a b k) in *.
  destruct (indices i m) as [[c d] j] eqn:HI.
  pose proof (indices_bounds i m c d j Hm HI) as (Hj & _).
  pose proof (range_len_nonneg c d j) as Hlen.
  unfold sel at 2 3. rewrite HO. fold m. rewrite HI.
  set (len := range_len c d j) in *.
  destruct (len =? 0) eqn:El.
  - split; [|unfold step_of; cbn; lia].
    rewrite (zrange_empty c d j) by (fold len; lia). unfold pick. cbn [map].
    unfold sel, indices, adjust_endpoint, step_of. cbn [s_start s_stop s_step].
    apply zrange_empty. repeat break_if; try lia; rewrite range_len_unit; lia.
  - assert (0 < len) as Hlen0 by lia.
    assert (forall t, 0 <= t < len -> 0 <= c + t * j < m) as Hin1
      by (intros t Ht; apply (indices_elem_range i m c d j t); assumption).
    assert (forall u, 0 <= u < m -> 0 <= a + u * k < n) as Hin2
      by (intros u Hu; apply (indices_elem_range o n a b k u); assumption).
    assert (forall t, 0 <= t < len -> 0 <= a + (c + t * j) * k < n) as Hin
      by (intros t Ht; apply Hin2; apply Hin1; exact Ht).
    pose proof (Hin 0 ltac:(lia)) as H0. pose proof (Hin (len - 1) ltac:(lia)) as Hlast.
    assert (k * j <> 0) as HK by nia.
    split; [|unfold step_of; cbn [s_step]; exact HK].
    unfold sel. rewrite indices_some_inrange by (try exact HK; lia).
    symmetry. apply pick_zrange.
    + fold len. unfold adjust_endpoint.
      destruct (Z_lt_le_dec 0 (k * j)) as [Hp|Hp].
      * destruct (a + c * k + len * (k * j) <? 0) eqn:E1; [nia|].
        apply range_len_pos_unique; try lia; repeat break_if; try lia; try nia.
      * apply range_len_neg_unique; try lia; repeat break_if; try lia; try nia.
    + fold len. exact Hin1.
    + intros _. reflexivity.
    + reflexivity.
Qed.

(* a per-axis composition [comp] is exact on a class [ok] of slices when it selects what
   selecting twice selects *)
Definition comp_exact (ok : pslice -> Prop) (comp : pslice -> pslice -> Z -> pslice) : Prop :=
  forall o i n, 0 <= n -> ok o -> ok i ->
    sel (comp o i n) n = pick (sel o n) (sel i (slice_len o n)) /\ step_of (comp o i n) <> 0.

Lemma comp_exact_general : comp_exact (fun s => step_of s <> 0) compose_sel.
Proof. intros o i n Hn Ho Hi. apply compose_sel_exact; assumption. Qed.

Definition unit_stepP (s : pslice) : Prop := s_step s = None \/ s_step s = Some 1.

Lemma unit_stepb_iff s : unit_stepb s = true <-> unit_stepP s.
Proof.
  unfold unit_stepb, unit_stepP. destruct (s_step s) as [k|]; [|split; [left; reflexivity | reflexivity]].
  rewrite Z.eqb_eq. split; [intros ->; right; reflexivity | intros [H|H]; [discriminate | injection H as ->; reflexivity]].
Qed.

Lemma unit_steps_iff sl : forallb unit_stepb sl = true <-> Forall unit_stepP sl.
Proof. rewrite forallb_forall, Forall_forall. split; intros H a Ha; apply unit_stepb_iff, H, Ha. Qed.

(* Slicing.compose_slices (= the library's _compose_slices) on unit steps *)
Lemma comp_exact_unit : comp_exact unit_stepP compose_slices.
Proof.
  intros o i n Hn Ho Hi. split; [apply compose_slices_unit_exact; assumption|].
  destruct (indices_unit o n Hn Ho) as (A & B & HO & _).
  unfold compose_slices. rewrite HO.
  destruct (indices_unit i _ (range_len_nonneg A B 1) Hi) as (C & D & HI & _). rewrite HI.
  cbn [negb Z.eqb Pos.eqb orb]. unfold step_of. cbn [s_step]. lia.
Qed.

Lemma sl_okb_iff sl : sl_okb sl = true <-> Forall (fun a => step_of a <> 0) sl.
Proof.
  unfold sl_okb. rewrite forallb_forall, Forall_forall. split; intros H a Ha; specialize (H a Ha); lia.
Qed.

Lemma idx_okb_sl sl : forall s, length sl = length s -> idx_okb (map ISlice sl) s = sl_okb sl.
Proof.
  induction sl as [|a sl IH]; intros [|n s] Hl; cbn [length] in Hl; try discriminate; [reflexivity|].
  cbn [map idx_okb sl_okb forallb]. f_equal. apply IH. lia.
Qed.

Lemma ixokb_sl sl : forall s, length sl = length s -> ixokb (map ISlice sl) s = sl_okb sl.
Proof.
  induction sl as [|a sl IH]; intros [|n s] Hl; cbn [length] in Hl; try discriminate; [reflexivity|].
  cbn [map ixokb sl_okb forallb]. f_equal. apply IH. lia.
Qed.

Lemma ixokb_sl_length sl : forall s, ixokb (map ISlice sl) s = true -> (length sl <= length s)%nat.
Proof.
  induction sl as [|a sl IH]; intros s H; cbn [length]; [lia|].
  cbn [map ixokb] in H. destruct s as [|n s]; [discriminate|]. apply andb_true_iff in H.
  cbn [length]. specialize (IH s ltac:(tauto)). lia.
Qed.

Lemma sl_shape_length sl : forall s, length sl = length s -> length (slice_shape (map ISlice sl) s) = length s.
Proof.
  induction sl as [|a sl IH]; intros [|n s] Hl; cbn [length] in Hl; try discriminate; [reflexivity|].
  cbn [map slice_shape hd tl length]. f_equal. apply IH. lia.
Qed.

Lemma sl_shape_nth sl : forall s k, (k < length sl)%nat ->
  nth k (slice_shape (map ISlice sl) s) 0 = slice_len (nth k sl colon) (nth k s 0).
Proof.
  induction sl as [|a sl IH]; intros s k Hk; cbn [length] in Hk; [lia|].
  cbn [map slice_shape]. destruct k as [|k]; cbn [nth]; [rewrite hd_nth; reflexivity|].
  rewrite IH by lia. rewrite nth_tl. reflexivity.
Qed.

Lemma sl_src_nth sl : forall s out k, (k < length sl)%nat ->
  nth k (slice_src (map ISlice sl) s out) 0 = nthZ (sel (nth k sl colon) (nth k s 0)) (nth k out 0).
Proof.
  induction sl as [|a sl IH]; intros s out k Hk; cbn [length] in Hk; [lia|].
  cbn [map slice_src]. destruct k as [|k]; cbn [nth]; [rewrite !hd_nth; reflexivity|].
  rewrite IH by lia. rewrite !nth_tl. reflexivity.
Qed.

Lemma sl_src_length sl : forall s out, length out = length sl -> length (slice_src (map ISlice sl) s out) = length sl.
Proof.
  induction sl as [|a sl IH]; intros s out Hl; cbn [map slice_src length] in *; [exact Hl|].
  f_equal. apply IH. destruct out; cbn [length tl] in *; lia.
Qed.

Lemma slice_slice_nd ok comp : comp_exact ok comp -> forall sl1 sl2 s,
  nonneg_shape s -> length sl1 = length s -> length sl2 = length s ->
  Forall ok sl1 -> Forall ok sl2 ->
  slice_shape (map ISlice (map3 comp sl1 sl2 s)) s = slice_shape (map ISlice sl2) (slice_shape (map ISlice sl1) s) /\
  (forall out, in_bounds out (slice_shape (map ISlice sl2) (slice_shape (map ISlice sl1) s)) ->
     slice_src (map ISlice (map3 comp sl1 sl2 s)) s out =
     slice_src (map ISlice sl1) s (slice_src (map ISlice sl2) (slice_shape (map ISlice sl1) s) out)) /\
  Forall (fun a => step_of a <> 0) (map3 comp sl1 sl2 s) /\ length (map3 comp sl1 sl2 s) = length s.
Proof.
  intros Hc. induction sl1 as [|o sl1 IH]; intros [|i sl2] [|n s] Hn H1 H2 Ho Hi; cbn [length] in *; try discriminate.
  - repeat split; try reflexivity. constructor.
  - inversion Hn; inversion Ho; inversion Hi; subst.
    destruct (IH sl2 s ltac:(assumption) ltac:(lia) ltac:(lia) ltac:(assumption) ltac:(assumption)) as (Hs & Hg & Hk & Hl).
    destruct (Hc o i n ltac:(assumption) ltac:(assumption) ltac:(assumption)) as [Hsel Hstep].
    assert (slice_len (comp o i n) n = slice_len i (slice_len o n)) as Hlen.
    { rewrite <- (slice_len_length (comp o i n) n), Hsel, pick_length. apply slice_len_length. }
    cbn [map3 map slice_shape slice_src hd tl length]. rewrite Hlen, Hs.
    repeat split; try reflexivity.
    + intros [|j out] Hout; cbn [in_bounds] in Hout; [tauto|]. destruct Hout as [Hj Hout]. cbn [hd tl].
      rewrite Hg by exact Hout. f_equal.
      unfold nthZ. rewrite Hsel. rewrite pick_nth; [reflexivity|].
      pose proof (slice_len_length i (slice_len o n)). lia.
    + constructor; assumption.
    + f_equal. exact Hl.
Qed.

Lemma pshape_nonneg p s : pshape p = Some s -> nonneg_shape s.
Proof.
  intros H. destruct (pshape_some_eval p s H) as (a & Ea & <-). apply (eval_wf p a Ea).
Qed.

Lemma eval_slice_slice_gen ok comp : comp_exact ok comp ->
  forall sl1 sl2 p s r,
  pshape p = Some s -> length sl1 = length s -> length sl2 = length s ->
  Forall ok sl1 -> Forall ok sl2 ->
  eval (PSlice (map ISlice sl2) (PSlice (map ISlice sl1) p)) = Some r ->
  eval (PSlice (map ISlice (map3 comp sl1 sl2 s)) p) = Some r.
Proof.
  intros Hc sl1 sl2 p s r Hp H1 H2 Ho Hi.
  apply law_un2_un. intros x Hx _ _.
  pose proof (pden_nonneg p x Hx) as Hs. apply pden_pshape in Hx. rewrite Hp in Hx. injection Hx as Hx. rewrite <- Hx in Hs |- *.
  destruct (slice_slice_nd ok comp Hc sl1 sl2 s Hs H1 H2 Ho Hi) as (Hshape & Hsrc & Hk & Hl).
  cbn [un_ok un_arr un_shape]. split.
  - rewrite ixokb_sl by exact Hl. apply sl_okb_iff. exact Hk.
  - split; cbn [aslice shape get]; rewrite <- Hx; [exact Hshape|].
    intros out Hout. f_equal. apply Hsrc. rewrite <- Hshape. exact Hout.
Qed.

(* slice of slice composes — for all non-zero steps, with the specification-side composition *)
Theorem eval_slice_slice sl1 sl2 p s r :
  pshape p = Some s -> length sl1 = length s -> length sl2 = length s ->
  sl_okb sl1 = true -> sl_okb sl2 = true ->
  eval (PSlice (map ISlice sl2) (PSlice (map ISlice sl1) p)) = Some r ->
  eval (PSlice (map ISlice (map3 compose_sel sl1 sl2 s)) p) = Some r.
Proof.
  intros Hp H1 H2 Ho Hi. apply (eval_slice_slice_gen _ _ comp_exact_general); try assumption; apply sl_okb_iff; assumption.
Qed.

(* — and with the library's own composition (Slicing.compose_slices = _compose_slices) on unit steps *)
Theorem eval_slice_slice_unit sl1 sl2 p s r :
  pshape p = Some s -> length sl1 = length s -> length sl2 = length s ->
  forallb unit_stepb sl1 = true -> forallb unit_stepb sl2 = true ->
  eval (PSlice (map ISlice sl2) (PSlice (map ISlice sl1) p)) = Some r ->
  eval (PSlice (map ISlice (map3 compose_slices sl1 sl2 s)) p) = Some r.
Proof.
  intros Hp H1 H2 Ho Hi. apply (eval_slice_slice_gen _ _ comp_exact_unit); try assumption; apply unit_steps_iff; assumption.
Qed.

Theorem slice_transpose_arr axes sl (x : arr Z) :
  nonneg_shape (shape x) -> is_permb axes (length (shape x)) = true -> length sl = length (shape x) ->
  aeq (aslice (map ISlice sl) (atranspose axes x))
      (atranspose axes (aslice (map ISlice (pickn colon sl (inv_axes axes))) x)).
Proof.
  intros Hs Hp Hl. set (n := length (shape x)) in *.
  pose proof (perm_len axes n Hp) as Hla.
  assert (length (pickn colon sl (inv_axes axes)) = n) as Hl' by (rewrite pickn_length, inv_axes_length; exact Hla).
  split; cbn [aslice atranspose shape get]; unfold transpose_shape.
  - apply list_eq_nth.
    + rewrite sl_shape_length by (rewrite pickn_length; lia). rewrite !pickn_length. reflexivity.
    + intros k Hk. rewrite sl_shape_length in Hk by (rewrite pickn_length; lia). rewrite pickn_length, Hla in Hk.
      pose proof (perm_nth_lt axes n Hp k Hk) as Hlt.
      rewrite sl_shape_nth, !pickn_nth, sl_shape_nth, pickn_inv_nth by lia.
      rewrite (perm_index_nth axes n Hp k Hk). reflexivity.
  - intros out Hout. f_equal.
    pose proof (in_bounds_length _ _ Hout) as Hlo.
    rewrite sl_shape_length, pickn_length, Hla in Hlo by (rewrite pickn_length; lia).
    unfold transpose_src. apply list_eq_nth.
    + rewrite pickn_length, inv_axes_length, Hla.
      rewrite sl_src_length; [lia|]. rewrite pickn_length, inv_axes_length. lia.
    + intros d Hd. rewrite pickn_length, inv_axes_length, Hla in Hd.
      pose proof (perm_index_lt axes n Hp d Hd) as Hid.
      rewrite pickn_inv_nth, !sl_src_nth, !pickn_inv_nth, pickn_nth by lia.
      rewrite (perm_nth_index axes n Hp d Hd). reflexivity.
Qed.

Theorem eval_slice_transpose axes sl p s r :
  pshape p = Some s -> length sl = length s ->
  eval (PSlice (map ISlice sl) (PT axes p)) = Some r ->
  eval (PT axes (PSlice (map ISlice (pickn colon sl (inv_axes axes))) p)) = Some r.
Proof.
  intros Hp Hl. apply law_un2_un2. intros y Hy Hperm Hok. cbn [un_ok un_shape un_arr] in *.
  pose proof (pden_nonneg p y Hy) as Hs. apply pden_pshape in Hy. rewrite Hp in Hy. injection Hy as ->.
  pose proof (perm_len axes _ Hperm) as Hla.
  assert (length (pickn colon sl (inv_axes axes)) = length (shape y)) as Hl'
    by (rewrite pickn_length, inv_axes_length; exact Hla).
  split; [|split].
  - rewrite ixokb_sl in Hok by (unfold transpose_shape; rewrite pickn_length; lia). rewrite ixokb_sl by exact Hl'.
    apply sl_okb_iff, Forall_map, Forall_forall. apply sl_okb_iff in Hok. intros j _.
    destruct (nth_in_or_default j sl colon) as [Hin | ->]; [|discriminate].
    exact (proj1 (Forall_forall _ _) Hok _ Hin).
  - rewrite sl_shape_length by exact Hl'. exact Hperm.
  - apply aeq_sym, slice_transpose_arr; assumption.
Qed.

Lemma sequence_some_length {A} (l : list (option A)) r : sequence l = Some r -> length r = length l.
Proof.
  revert r. induction l as [|[a|] l IH]; intros r H; cbn [sequence] in H; try discriminate.
  - injection H as <-. reflexivity.
  - destruct (sequence l) as [t|]; [|discriminate]. injection H as <-. cbn [length]. f_equal. apply IH. reflexivity.
Qed.

Lemma ef_arity_pos {A} f (l : list A) : length l = ef_arity f -> l <> [].
Proof. destruct l; [destruct f; discriminate | discriminate]. Qed.

Lemma n_ok_elem_same f s ss : length ss = ef_arity f -> Forall (fun t => t = s) ss -> n_ok (NElem f) ss = true.
Proof.
  intros Hl H. cbn [n_ok]. rewrite Hl, Nat.eqb_refl. cbn [andb].
  rewrite (bshape_all_same s ss (ef_arity_pos f ss Hl) H). apply forallb_forall. intros t Ht.
  rewrite Forall_forall in H. rewrite (H t Ht). unfold bcast_intob. apply rbcast_intob_same.
Qed.

(* slice distributes over element-wise operations on operands of one shape s (no broadcasting: [bidx] is the
   identity); ProgSemBcast has the general case *)
Lemma slice_elemwise_arr f ix s (xs : list (arr Z)) :
  xs <> [] -> nonneg_shape s -> ixokb ix s = true -> Forall (fun x => shape x = s) xs ->
  aeq (aslice ix (aelemwise f xs)) (aelemwise f (map (aslice ix) xs)).
Proof.
  intros Hne Hs Hok Hxs.
  assert (bshape_all (map shape xs) = s) as Hb.
  { apply bshape_all_same; [destruct xs; [congruence | discriminate] | apply Forall_map; exact Hxs]. }
  assert (bshape_all (map shape (map (aslice ix) xs)) = slice_shape ix s) as Hb'.
  { apply bshape_all_same; [destruct xs; [congruence | discriminate]|]. rewrite map_map. apply Forall_map.
    eapply Forall_impl; [|exact Hxs]. intros x Hx. cbn [aslice shape]. rewrite Hx. reflexivity. }
  split; cbn [aslice aelemwise shape get].
  - rewrite Hb, Hb'. reflexivity.
  - rewrite Hb. intros out Hout. f_equal. rewrite map_map. apply map_ext_in. intros x Hx.
    rewrite Forall_forall in Hxs. cbn [aslice shape get]. rewrite (Hxs x Hx).
    rewrite (bidx_id s (slice_src ix s out)) by (apply ix_src_in_bounds; assumption).
    rewrite (bidx_id (slice_shape ix s) out) by exact Hout. reflexivity.
Qed.

Theorem eval_slice_elemwise f ix ps s r :
  Forall (fun p => pshape p = Some s) ps ->
  eval (PSlice ix (PElem f ps)) = Some r ->
  eval (PElem f (map (fun p => PSlice ix p) ps)) = Some r.
Proof.
  intros Hps. apply (law_un_n (OSlice ix) (NElem f) (fun _ => OSlice ix)). intros ys Hys Hnok Hok zs.
  assert (Forall (fun y => shape y = s) ys) as Hsh.
  { apply (sequence_Forall _ pden ps ys); [|exact Hys]. eapply Forall_impl; [|exact Hps].
    intros p Hp y Hy. apply pden_pshape in Hy. congruence. }
  assert (length ys = ef_arity f) as Hlen.
  { cbn [n_ok] in Hnok. apply andb_true_iff in Hnok. destruct Hnok as [Hn _]. apply Nat.eqb_eq in Hn.
    rewrite map_length in Hn. exact Hn. }
  pose proof (ef_arity_pos f ys Hlen) as Hne.
  assert (nonneg_shape s) as Hs.
  { pose proof (pden_seq_nonneg ps ys Hys) as Hnn. destruct Hsh as [|y ys' <- _]; [congruence|]. exact (Forall_inv Hnn). }
  cbn [un_ok n_arr aelemwise shape] in Hok.
  rewrite (bshape_all_same s (map shape ys)) in Hok; [|destruct ys; [congruence | discriminate] | apply Forall_map; exact Hsh].
  split; [|split].
  - eapply Forall_impl; [|exact Hsh]. intros y Hy. cbn [un_ok]. rewrite Hy. exact Hok.
  - apply (n_ok_elem_same f (slice_shape ix s)); unfold zs; [rewrite !map_length; exact Hlen|].
    rewrite map_map. apply Forall_map. eapply Forall_impl; [|exact Hsh].
    intros y Hy. cbn [un_arr aslice shape]. rewrite Hy. reflexivity.
  - apply aeq_sym. apply (slice_elemwise_arr _ ix s); assumption.
Qed.

(* a full slice on an axis leaves that axis alone: its length, and the positions read along it *)
Lemma sl_shape_set_nth ax v : forall sl s, (ax < length sl)%nat -> (ax < length s)%nat ->
  slice_shape (map ISlice sl) (set_nth ax v s) =
  set_nth ax (slice_len (nth ax sl colon) v) (slice_shape (map ISlice sl) s).
Proof.
  induction ax as [|ax IH]; intros [|a sl] [|n s] Hl Hs; cbn [length] in Hl, Hs; try lia;
    cbn [map slice_shape set_nth hd tl nth]; [reflexivity|].
  f_equal. apply IH; lia.
Qed.

Lemma sl_src_set_nth ax v : forall sl s out,
  nth ax sl colon = colon -> 0 <= v < nth ax s 0 -> (ax < length out)%nat ->
  slice_src (map ISlice sl) s (set_nth ax v out) = set_nth ax v (slice_src (map ISlice sl) s out).
Proof.
  induction ax as [|ax IH]; intros [|a sl] s [|j out] Hc Hv Hl; cbn [length] in Hl; try (exfalso; lia); try reflexivity;
    (destruct s as [|n s]; cbn [nth] in Hc, Hv; [exfalso; lia|]); cbn [map slice_src set_nth hd tl].
  - rewrite Hc, nthZ_sel_colon by exact Hv. reflexivity.
  - f_equal. apply IH; [exact Hc | exact Hv | lia].
Qed.

(* the operand shape matters only off the axis, as long as the position on the axis is inside it *)
Lemma sl_src_agree ax sl s t out :
  nth ax sl colon = colon -> agree_off ax s t -> length out = length sl ->
  0 <= nth ax out 0 < nth ax s 0 -> nth ax out 0 < nth ax t 0 ->
  slice_src (map ISlice sl) s out = slice_src (map ISlice sl) t out.
Proof.
  intros Hc [_ Hoff] Hlo Hs Ht. apply list_eq_nth; [rewrite !sl_src_length by exact Hlo; reflexivity|].
  intros k Hk. rewrite sl_src_length in Hk by exact Hlo. rewrite !sl_src_nth by exact Hk.
  destruct (Nat.eq_dec k ax) as [->|Hne]; [|rewrite (Hoff k Hne); reflexivity].
  rewrite Hc, !nthZ_sel_colon by lia. reflexivity.
Qed.

(* C is the shape of the whole concatenation: every part agrees with it off the axis and fits in it along the axis.
   Induction follows [concat_get]: inside the first part read it, else shift the position by its length and go on. *)
Lemma concat_slice_get ax sl C :
  nth ax sl colon = colon -> (ax < length sl)%nat ->
  forall rest (x : arr Z) out,
  Forall (fun b => agree_off ax C (shape b) /\ 0 <= nth ax (shape b) 0) (x :: rest) ->
  length out = length sl ->
  0 <= nth ax out 0 < zsum (map (fun t => nth ax t 0) (map shape (x :: rest))) ->
  zsum (map (fun t => nth ax t 0) (map shape (x :: rest))) <= nth ax C 0 ->
  concat_get ax x rest (slice_src (map ISlice sl) C out) =
  concat_get ax (aslice (map ISlice sl) x) (map (aslice (map ISlice sl)) rest) out.
Proof.
  intros Hc Hax. induction rest as [|b rest IH]; intros x out Hg Hlo Hj Hsum;
    destruct (Forall_inv Hg) as [Hx Hnx]; pose proof (Forall_inv_tail Hg) as Hr; clear Hg;
    cbn [map zsum] in Hj, Hsum; cbn [concat_get map].
  - cbn [aslice get shape]. f_equal. apply (sl_src_agree ax sl C (shape x) out Hc Hx Hlo); lia.
  - pose proof (proj2 (Forall_inv Hr)) as Hnb. assert (Hjc : 0 <= nth ax out 0 < nth ax C 0) by lia.
    cbn [aslice shape]. rewrite sl_src_nth, sl_shape_nth, Hc, slice_len_colon, nthZ_sel_colon by assumption.
    destruct (nth ax out 0 <? nth ax (shape x) 0) eqn:Elt.
    + cbn [aslice get shape]. f_equal. apply (sl_src_agree ax sl C (shape x) out Hc Hx Hlo); lia.
    + rewrite <- sl_src_set_nth by (try exact Hc; lia).
      apply IH; [exact Hr | rewrite set_nth_length; exact Hlo | rewrite nth_set_nth_eq by lia |]; cbn [map zsum]; lia.
Qed.

(* concatenate then slice the OTHER axes (a full slice on ax) = concatenate the slices *)
Theorem concat_slice_arr ax sl (x : arr Z) rest :
  (ax < length (shape x))%nat -> length sl = length (shape x) -> nth ax sl colon = colon ->
  Forall (fun b => agree_off ax (shape x) (shape b)) rest ->
  Forall (fun b => nonneg_shape (shape b)) (x :: rest) ->
  aeq (aslice (map ISlice sl) (aconcat ax x rest))
      (aconcat ax (aslice (map ISlice sl) x) (map (aslice (map ISlice sl)) rest)).
Proof.
  intros Hax Hl Hcolon Hag Hnn.
  set (N := zsum (map (fun t => nth ax t 0) (shape x :: map shape rest))).
  assert (HN : 0 <= N).
  { apply zsum_nonneg. change (shape x :: map shape rest) with (map shape (x :: rest)). rewrite map_map.
    apply Forall_map. eapply Forall_impl; [|exact Hnn]. intros b. apply nth_nonneg. }
  (* the sliced parts have the lengths of the parts along the axis *)
  assert (Hsum : zsum (map (fun t => nth ax t 0) (map shape (map (aslice (map ISlice sl)) (x :: rest)))) = N).
  { unfold N. change (shape x :: map shape rest) with (map shape (x :: rest)).
    rewrite !map_map. f_equal. apply map_ext_in. intros b Hb. cbn [aslice shape].
    rewrite sl_shape_nth, Hcolon by lia. apply slice_len_colon, nth_nonneg.
    rewrite Forall_forall in Hnn. apply Hnn, Hb. }
  assert (Hshape : slice_shape (map ISlice sl) (concat_shape ax (shape x) (map shape rest)) =
                   set_nth ax N (slice_shape (map ISlice sl) (shape x))).
  { unfold concat_shape. fold N. rewrite sl_shape_set_nth, Hcolon, slice_len_colon by (exact HN || lia). reflexivity. }
  split; cbn [aslice aconcat shape get]; rewrite Hshape.
  - unfold concat_shape. rewrite <- Hsum. reflexivity.
  - intros out Ho.
    pose proof (in_bounds_set_nth _ _ _ _ Ho ltac:(rewrite sl_shape_length; lia)) as Hj.
    apply in_bounds_length in Ho. rewrite set_nth_length, sl_shape_length in Ho by exact Hl.
    apply concat_slice_get; [exact Hcolon | lia | | lia | exact Hj |].
    + apply Forall_and; [|eapply Forall_impl; [|exact Hnn]; intros b; apply nth_nonneg].
      eapply Forall_impl; [intros b; apply agree_off_set_nth | exact (Forall_cons x (agree_off_refl ax _) Hag)].
    + unfold concat_shape. rewrite nth_set_nth_eq by exact Hax. apply Z.le_refl.
Qed.

Theorem eval_slice_concat ax sl ps s r :
  pshape (PConcat ax ps) = Some s -> length sl = length s -> nth ax sl colon = colon ->
  eval (PSlice (map ISlice sl) (PConcat ax ps)) = Some r ->
  eval (PConcat ax (map (fun p => PSlice (map ISlice sl) p) ps)) = Some r.
Proof.
  intros Hp Hl Hcolon. apply (law_un_n _ (NConcat ax) (fun _ => OSlice (map ISlice sl))). intros ys Hys Hnok Hok zs.
  pose proof (pden_pshape _ _ (pden_n _ _ _ Hys Hnok)) as Hs. rewrite Hp in Hs. injection Hs as ->.
  pose proof (pden_seq_nonneg ps ys Hys) as Hnn.
  destruct ys as [|y rest]; [discriminate|]. unfold zs.
  cbn [map n_arr aconcat shape un_ok un_arr] in Hnok, Hok, Hl |- *. rewrite concat_shape_length in Hl.
  apply n_ok_concat_agree in Hnok. destruct Hnok as [Hax Hag]. apply (Forall_map shape) in Hag.
  rewrite ixokb_sl in Hok by (rewrite concat_shape_length; exact Hl).
  split; [|split].
  - eapply Forall_impl; [|exact (Forall_cons y (agree_off_refl ax _) Hag)].
    intros b [Hlb _]. rewrite ixokb_sl by lia. exact Hok.
  - apply n_ok_concat_agree. cbn [aslice shape]. split; [rewrite sl_shape_length by exact Hl; exact Hax|].
    rewrite map_map. apply Forall_map. eapply Forall_impl; [|exact Hag]. intros b [Hlb Hob]. cbn [aslice shape].
    split; [rewrite !sl_shape_length by lia; exact Hlb|]. intros k Hk.
    destruct (Nat.lt_ge_cases k (length sl)) as [Hlt|Hge].
    + rewrite !sl_shape_nth by exact Hlt. rewrite (Hob k Hk). reflexivity.
    + rewrite !nth_overflow by (rewrite sl_shape_length by lia; lia). reflexivity.
  - apply aeq_sym, concat_slice_arr; assumption.
Qed.
