From Coq Require Import List Bool ZArith PArith Lia.
From DA Require Import PyBase History.
Import ListNotations.

Lemma c_find_in : forall n c l, c_find n c = Some l -> In (n, l) c.
Proof.
  induction c as [|[k l0] t IH]; cbn [c_find In]; intros l H; [discriminate|].
  destruct (Pos.eqb n k) eqn:E.
  - apply Pos.eqb_eq in E. injection H as <-. subst k. left; reflexivity.
  - right. apply IH. exact H.
Qed.

Lemma In_set_nth : forall A (l : list A) i x y, In y (set_nth l i x) -> y = x \/ In y l.
Proof.
  induction l as [|z t IH]; intros [|i] x y H; cbn in *; try contradiction.
  - destruct H as [H|H]; auto.
  - destruct H as [H|H]; auto. destruct (IH _ _ _ H); auto.
Qed.

Section Soundness.
  Variable lower1 : cfg -> name -> name.
  Variable simp : name -> name.
  Variable D : Type.
  Variable den : name -> D.          (* what an expression computes *)
  Hypothesis lower_sound : forall k n, den (lower1 k n) = den n.
  Hypothesis simp_sound : forall n, den (simp n) = den n.

  Definition cache_ok (c : cache) : Prop := forall n l, In (n, l) c -> den l = den n.

  Definition state_ok (st : state) : Prop :=
    cache_ok (st_cache st) /\
    forall x l, In x (st_colls st) -> c_low x = Some l -> den l = den (c_root x).

  Lemma lower_once_ok : forall k c n l c',
    cache_ok c -> lower_once lower1 k c n = (l, c') -> cache_ok c' /\ den l = den n.
  Proof.
    intros k c n l c' Hc H. unfold lower_once in H. destruct (c_find n c) as [l0|] eqn:E.
    - injection H as <- <-. split; [exact Hc|]. apply Hc. apply c_find_in. exact E.
    - injection H as <- <-. split; [|apply lower_sound].
      intros n' l' Hin. apply in_app_or in Hin. destruct Hin as [Hin|[Hin|[]]]; [apply Hc; exact Hin|].
      injection Hin as <- <-. apply lower_sound.
  Qed.

  Lemma c_evict_ok : forall dead c, cache_ok c -> cache_ok (c_evict dead c).
  Proof. intros dead c Hc n l Hin. unfold c_evict in Hin. apply filter_In in Hin. apply Hc. apply Hin. Qed.

  Lemma lower_stream_ok : forall k items c head done ls c2 h d,
    cache_ok c -> lower_stream lower1 k c head done items = (ls, c2, h, d) ->
    cache_ok c2 /\ den h = den head.
  Proof.
    intros k items; induction items as [|it t IH]; intros c head done ls c2 h d Hc H; cbn in H.
    - inversion H; subst. auto.
    - destruct it as [n| | |dead].
      + (* Req n *)
        destruct (lower_once lower1 k c n) as [l c1] eqn:E1.
        destruct (lower_stream lower1 k c1 head done t) as [[[ls' c2'] h'] d'] eqn:E2.
        inversion H; subst. destruct (lower_once_ok _ _ _ _ _ Hc E1) as [Hc1 _].
        eapply IH; [exact Hc1|exact E2].
      + (* Top *)
        destruct done; [eapply IH; [exact Hc|exact H]|].
        destruct (lower_once lower1 k c head) as [l c1] eqn:E1.
        destruct (lower_stream lower1 k c1 l (Pos.eqb l head) t) as [[[ls' c2'] h'] d'] eqn:E2.
        inversion H; subst. destruct (lower_once_ok _ _ _ _ _ Hc E1) as [Hc1 Hl].
        apply IH in E2 as [Hc2 Hh]; [|exact Hc1]. split; [exact Hc2|congruence].
      + (* TopSelf *)
        destruct done; [eapply IH; [exact Hc|exact H]|].
        destruct (lower_stream lower1 k c head true t) as [[[ls' c2'] h'] d'] eqn:E2.
        inversion H; subst. eapply IH; [exact Hc|exact E2].
      + (* Gc dead *)
        eapply IH; [exact (c_evict_ok dead c Hc)|exact H].
  Qed.

  Lemma step_ok : forall st o, state_ok st -> state_ok (step lower1 simp st o).
  Proof.
    intros st o [Hc Hl]. destruct o as [p|c k optimize items|c|dead]; cbn.
    - split; [exact Hc|]. intros x l Hin. apply in_app_or in Hin. destruct Hin as [Hin|[Hin|[]]].
      + apply Hl. exact Hin.
      + subst x. cbn. discriminate.
    - destruct (nth_error (st_colls st) c) as [x|] eqn:Ex; [|split; assumption].
      destruct (c_low x) as [l0|] eqn:El; [split; assumption|].
      set (r0 := if optimize then simp (c_root x) else c_root x).
      destruct (lower_stream lower1 k (st_cache st) r0 false items) as [[[ls c2] h] d] eqn:E.
      assert (Hr0 : den r0 = den (c_root x)).
      { unfold r0. destruct optimize; [apply simp_sound | reflexivity]. }
      destruct (lower_stream_ok _ _ _ _ _ _ _ _ _ Hc E) as [Hc2 Hh].
      split; [exact Hc2|]. cbn. intros y l Hin Hy.
      apply In_set_nth in Hin. destruct Hin as [Hin|Hin].
      + subst y. cbn in *. destruct d; [|discriminate]. inversion Hy; subst. rewrite Hh. exact Hr0.
      + apply Hl; assumption.
    - destruct (nth_error (st_colls st) c) as [x|] eqn:Ex; [|split; assumption].
      split; [exact Hc|]. cbn. intros y l Hin Hy. apply In_set_nth in Hin. destruct Hin as [Hin|Hin].
      + subst y. cbn in Hy. discriminate.
      + apply Hl; assumption.
    - split; [apply c_evict_ok; exact Hc | exact Hl].
  Qed.

  Lemma run_ok : forall ops st, state_ok st -> state_ok (run lower1 simp ops st).
  Proof. induction ops as [|o t IH]; intros st H; cbn; [exact H|]. apply IH. apply step_ok. exact H. Qed.

  Theorem cache_invariant : forall ops, state_ok (run lower1 simp ops init).
  Proof. intro ops. apply run_ok. split; [intros n l []| intros x l []]. Qed.

  Theorem values_history_free : forall ops1 ops2 x1 x2 l1 l2,
    In x1 (st_colls (run lower1 simp ops1 init)) -> In x2 (st_colls (run lower1 simp ops2 init)) ->
    c_root x1 = c_root x2 -> c_low x1 = Some l1 -> c_low x2 = Some l2 -> den l1 = den l2.
  Proof.
    intros ops1 ops2 x1 x2 l1 l2 H1 H2 Hr E1 E2.
    destruct (cache_invariant ops1) as [_ A]. destruct (cache_invariant ops2) as [_ B].
    rewrite (A x1 l1 H1 E1), (B x2 l2 H2 E2), Hr. reflexivity.
  Qed.
End Soundness.

(* the witness for C09_lower_context_free_refuted: a planner that reads the configuration *)
Definition w_lower1 (k : cfg) (n : name) : name :=
  if Pos.eqb n 5 then (if Pos.eqb k 1 then 10%positive else 20%positive) else n.
Definition w_den (n : name) : positive :=
  if Pos.eqb n 5 || Pos.eqb n 10 || Pos.eqb n 20 then 1%positive else n.

Lemma w_lower_sound : forall k n, w_den (w_lower1 k n) = w_den n.
Proof.
  intros k n. unfold w_lower1. destruct (Pos.eqb n 5) eqn:E; [|reflexivity].
  apply Pos.eqb_eq in E. subst n. destruct (Pos.eqb k 1); reflexivity.
Qed.
