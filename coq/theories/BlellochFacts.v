(* C19 — the Blelloch up-sweep / down-sweep of CumReductionBlelloch._layer computes the
   inclusive scan of the block totals for EVERY number of blocks.
   Proof over the free monoid (words of block indices under concatenation); ScanFacts.v
   (naturality of the sweeps) transfers it to every monoid. *)
From DA Require Import PyBase PyBaseFacts Scan ScanFacts.
Open Scope Z_scope.

Definition p2 (k : nat) : Z := 2 ^ Z.of_nat k.

Lemma p2_0 : p2 0 = 1. Proof. reflexivity. Qed.
Lemma p2_S k : p2 (S k) = 2 * p2 k.
Proof. unfold p2. rewrite Nat2Z.inj_succ, Z.pow_succ_r by lia. reflexivity. Qed.
Lemma p2_half k : p2 (S k) / 2 = p2 k.
Proof. rewrite p2_S, (Z.mul_comm 2), Z.div_mul by lia. reflexivity. Qed.
Lemma p2_pos k : 0 < p2 k.
Proof. unfold p2. apply Z.pow_pos_nonneg; lia. Qed.
Lemma p2_mono a b : (a <= b)%nat -> p2 a <= p2 b.
Proof. intros H. unfold p2. apply Z.pow_le_mono_r; lia. Qed.
Lemma p2_lt_inv a b : p2 a < p2 b -> (a < b)%nat.
Proof. intros H. destruct (Nat.lt_ge_cases a b) as [Hl|Hg]; [exact Hl|]. pose proof (p2_mono b a Hg). lia. Qed.
Lemma p2_gt_lin n : Z.of_nat n < p2 n.
Proof. unfold p2. apply Z.pow_gt_lin_r; lia. Qed.

Lemma mod0_le x p : 0 < p -> 0 < x -> x mod p = 0 -> p <= x.
Proof. intros Hp Hx H. apply mod0_divide in H; [|exact Hp]. apply Z.divide_pos_le; assumption. Qed.

Lemma mod_half x p : 0 < p -> x mod (2 * p) = 0 -> x mod p = 0.
Proof.
  intros Hp H. apply mod0_divide in H; [|lia]. apply mod0_divide; [lia|].
  eapply Z.divide_trans; [|exact H]. exists 2. lia.
Qed.

Lemma mod_p2_le x a b : (a <= b)%nat -> x mod p2 b = 0 -> x mod p2 a = 0.
Proof.
  intros Hab. induction Hab as [|b Hab IH]; [auto|]. intros H. apply IH.
  rewrite p2_S in H. apply mod_half; [apply p2_pos | exact H].
Qed.

Lemma mod_odd_multiple x p : 0 < p -> x mod p = 0 -> x mod (2 * p) <> 0 -> (x - p) mod (2 * p) = 0.
Proof.
  intros Hp H0 H1. apply mod0_divide in H0 as [q Hq]; [|lia].
  assert (Hq2 : q = 2 * (q / 2) + q mod 2) by (apply Z.div_mod; lia).
  assert (Hm : q mod 2 = 0 \/ q mod 2 = 1) by (pose proof (Z.mod_pos_bound q 2); lia).
  destruct Hm as [Hm|Hm].
  - exfalso. apply H1. apply mod0_divide; [lia|]. exists (q / 2). nia.
  - apply mod0_divide; [lia|]. exists (q / 2). nia.
Qed.

Lemma mod_shift_nonzero x p : 0 < p -> x mod (2 * p) = 0 -> (x - p) mod (2 * p) <> 0.
Proof.
  intros Hp H0 H1. apply mod0_divide in H0 as [q Hq]; [|lia]. apply mod0_divide in H1 as [q' Hq']; [|lia].
  assert (p * (2 * (q - q') - 1) = 0) by nia.
  assert (2 * (q - q') - 1 = 0) by nia. lia.
Qed.

Lemma mod_shift_inv x p : 0 < p -> (x - p) mod (2 * p) = 0 -> x mod p = 0 /\ x mod (2 * p) <> 0.
Proof.
  intros Hp H. split.
  - apply mod0_divide in H as [q Hq]; [|lia]. apply mod0_divide; [lia|]. exists (2 * q + 1). nia.
  - intros H0. apply (mod_shift_nonzero x p Hp H0). exact H.
Qed.

(* lowp k x: the largest power of two 2^j, j <= k, that divides x *)
Fixpoint lowp (k : nat) (x : Z) : Z :=
  match k with
  | O => 1
  | S k' => if x mod p2 (S k') =? 0 then p2 (S k') else lowp k' x
  end.

Lemma lowp_pos k x : 0 < lowp k x.
Proof. induction k as [|k IH]; cbn [lowp]; [lia|]. destruct (x mod p2 (S k) =? 0); [apply p2_pos | exact IH]. Qed.

Lemma lowp_divides k x : x mod lowp k x = 0.
Proof.
  induction k as [|k IH]; cbn [lowp]; [apply Z.mod_1_r|].
  destruct (x mod p2 (S k) =? 0) eqn:E; [apply Z.eqb_eq in E; exact E | exact IH].
Qed.

Lemma lowp_le k x : 0 < x -> lowp k x <= x.
Proof.
  intros Hx. apply mod0_le; [apply lowp_pos | exact Hx | apply lowp_divides].
Qed.

Lemma lowp_full k x : x mod p2 k = 0 -> lowp k x = p2 k.
Proof. destruct k as [|k]; [reflexivity|]. cbn [lowp]. intros H. rewrite H. reflexivity. Qed.

Lemma lowp_step k x : x mod p2 (S k) <> 0 -> lowp (S k) x = lowp k x.
Proof. intros H. cbn [lowp]. destruct (x mod p2 (S k) =? 0) eqn:E; [apply Z.eqb_eq in E; congruence | reflexivity]. Qed.

(* the exact power of two in x, seen from any larger K *)
Lemma lowp_exact K k x : (k <= K)%nat -> x mod p2 k = 0 -> x mod p2 (S k) <> 0 -> lowp K x = p2 k.
Proof.
  intros HkK H0 H1. induction HkK as [|K HkK IH]; [apply lowp_full; exact H0|].
  rewrite lowp_step; [exact IH|]. intros E. apply H1. apply (mod_p2_le x (S k) (S K)); [lia | exact E].
Qed.

Lemma lowp_of_p2 K m : (m <= K)%nat -> lowp K (p2 m) = p2 m.
Proof.
  intros HmK. induction HmK as [|K HmK IH]; [apply lowp_full, Z.mod_same; pose proof (p2_pos m); lia|].
  rewrite lowp_step; [exact IH|].
  rewrite Z.mod_small; [pose proof (p2_pos m); lia|]. split; [pose proof (p2_pos m); lia|].
  apply Z.lt_le_trans with (p2 (S m)); [rewrite p2_S; pose proof (p2_pos m); lia | apply p2_mono; lia].
Qed.

(* the word a, a+1, ..., b-1 of block indices *)
Definition segZ (a b : Z) : list Z := map Z.of_nat (seq (Z.to_nat a) (Z.to_nat (b - a))).

Lemma segZ_app a b c : 0 <= a -> a <= b -> b <= c -> segZ a b ++ segZ b c = segZ a c.
Proof.
  intros Ha Hab Hbc. unfold segZ. rewrite <- map_app. f_equal.
  replace (Z.to_nat (c - a)) with (Z.to_nat (b - a) + Z.to_nat (c - b))%nat by lia.
  rewrite seq_app. do 2 f_equal. lia.
Qed.

Lemma iota_segZ i : iota i = segZ 0 (Z.of_nat i + 1).
Proof. unfold iota, segZ. do 2 f_equal. lia. Qed.

Section Upd.
  Context {T : Type}.
  Lemma upd_length (l : list T) : forall i v, length (upd l i v) = length l.
  Proof. induction l as [|x t IH]; intros [|i] v; cbn; try reflexivity. rewrite IH. reflexivity. Qed.

  Lemma nth_upd_same (l : list T) : forall i v d, (i < length l)%nat -> nth i (upd l i v) d = v.
  Proof. induction l as [|x t IH]; intros [|i] v d Hi; cbn in *; try lia; [reflexivity|]. apply IH. lia. Qed.

  Lemma nth_upd_other (l : list T) : forall i j v d, i <> j -> nth j (upd l i v) d = nth j l d.
  Proof.
    induction l as [|x t IH]; intros [|i] [|j] v d Hij; cbn; try reflexivity; try congruence.
    apply IH. congruence.
  Qed.
End Upd.

Lemma zrange_In_iff a b k p : 0 < k -> (In p (zrange a b k) <-> a <= p < b /\ (p - a) mod k = 0).
Proof.
  intros Hk. unfold zrange. rewrite in_map_iff. split.
  - intros (i & Hp & Hi). apply in_seq in Hi. subst p.
    assert (Hlen : Z.of_nat i < range_len a b k) by lia.
    rewrite range_len_pos_step in Hlen by lia. destruct (a <? b) eqn:E; [|lia].
    split; [split; [nia|] | ].
    + assert (Z.of_nat i <= (b - a - 1) / k) by lia.
      assert (k * ((b - a - 1) / k) <= b - a - 1) by (apply Z.mul_div_le; lia). nia.
    + replace (a + Z.of_nat i * k - a) with (Z.of_nat i * k) by lia. apply Z_mod_mult.
  - intros [[H1 H2] H3]. apply mod0_divide in H3 as [q Hq]; [|lia].
    assert (Hq0 : 0 <= q) by nia.
    exists (Z.to_nat q). split; [rewrite Z2Nat.id by lia; lia|]. apply in_seq.
    rewrite range_len_pos_step by lia. destruct (a <? b) eqn:E; [|lia].
    assert (q <= (b - a - 1) / k) by (apply Z.div_le_lower_bound; [lia | nia]). lia.
Qed.

(* one pass of either sweep is a parallel update *)
Section Pass.
  Local Notation W := (list Z).
  Local Notation gw pv i := (nth i pv (@nil Z)).

  Lemma getZ_nat (pv : list W) (i : Z) : 0 <= i -> getZ [] pv i = gw pv (Z.to_nat i).
  Proof. reflexivity. Qed.

  Lemma fold_pass_spec stride : forall (idxs : list Z) (pv : list W),
    NoDup idxs -> (forall i, In i idxs -> stride <= i /\ i < Z.of_nat (length pv)) ->
    (forall i, In i idxs -> ~ In (i - stride) idxs) -> 0 < stride ->
    let pv' := fold_left (fun pv i => upd pv (Z.to_nat i) (getZ [] pv (i - stride) ++ getZ [] pv i)) idxs pv in
    length pv' = length pv /\
    forall j : nat,
      (In (Z.of_nat j) idxs -> gw pv' j = gw pv (j - Z.to_nat stride) ++ gw pv j) /\
      (~ In (Z.of_nat j) idxs -> gw pv' j = gw pv j).
  Proof.
    induction idxs as [|i0 t IH]; intros pv Hnd Hrange Hsep Hs; cbv zeta.
    - cbn [fold_left]. split; [reflexivity|]. intros j. split; [intros []|reflexivity].
    - cbn [fold_left]. inversion Hnd as [|? ? Hnot Hnd']; subst.
      set (pv1 := upd pv (Z.to_nat i0) (getZ [] pv (i0 - stride) ++ getZ [] pv i0)).
      destruct (Hrange i0 (or_introl eq_refl)) as [Hi0a Hi0b].
      assert (Hlen1 : length pv1 = length pv) by apply upd_length.
      specialize (IH pv1 Hnd').
      assert (Hr1 : forall i, In i t -> stride <= i /\ i < Z.of_nat (length pv1)).
      { intros i Hi. rewrite Hlen1. apply Hrange. right. exact Hi. }
      assert (Hs1 : forall i, In i t -> ~ In (i - stride) t).
      { intros i Hi Hc. apply (Hsep i (or_intror Hi)). right. exact Hc. }
      specialize (IH Hr1 Hs1 Hs). cbv zeta in IH. destruct IH as [IHl IHv].
      split; [rewrite IHl; exact Hlen1|].
      intros j. destruct (IHv j) as [IH1 IH2]. split.
      + intros [Hj|Hj].
        * (* j = i0: untouched by the rest *)
          assert (Hnj : ~ In (Z.of_nat j) t) by (rewrite <- Hj; exact Hnot).
          rewrite (IH2 Hnj). unfold pv1. subst i0. rewrite Nat2Z.id.
          rewrite nth_upd_same by lia. unfold getZ. rewrite Nat2Z.id.
          replace (Z.to_nat (Z.of_nat j - stride)) with (j - Z.to_nat stride)%nat by lia. reflexivity.
        * rewrite (IH1 Hj).
          destruct (Hrange (Z.of_nat j) (or_intror Hj)) as [Hja Hjb].
          assert (Hne : Z.to_nat i0 <> j).
          { intros E. apply Hnot. replace i0 with (Z.of_nat j) by lia. exact Hj. }
          assert (Hne2 : Z.to_nat i0 <> (j - Z.to_nat stride)%nat).
          { intros E. apply (Hsep (Z.of_nat j) (or_intror Hj)). left. lia. }
          unfold pv1. rewrite !nth_upd_other by assumption. reflexivity.
      + intros Hj. assert (Hj1 : ~ In (Z.of_nat j) t) by (intros Hc; apply Hj; right; exact Hc).
        rewrite (IH2 Hj1). unfold pv1. apply nth_upd_other. intros E. apply Hj. left. lia.
  Qed.

  (* the pass of either sweep: positions x = i + 1 with (x - off) a multiple of s2 = 2s, x >= off + s2 *)
  Lemma sweep_pass_spec (pv : list W) (start n s s2 off : Z) :
    0 < s -> 0 <= off -> s2 = 2 * s -> start = off + s2 - 1 -> n = Z.of_nat (length pv) ->
    let pv' := sweep_pass (@app Z) [] pv start n s s2 in
    length pv' = length pv /\
    forall j : nat, (j < length pv)%nat ->
      let x := Z.of_nat j + 1 in
      ((x - off) mod s2 = 0 -> off + s2 <= x -> gw pv' j = gw pv (j - Z.to_nat s) ++ gw pv j) /\
      (~ ((x - off) mod s2 = 0 /\ off + s2 <= x) -> gw pv' j = gw pv j).
  Proof.
    intros Hs Hoff Hs2 -> Hn pv'. unfold pv', sweep_pass.
    assert (H2s : 0 < s2) by lia.
    pose proof (fold_pass_spec s (zrange (off + s2 - 1) n s2) pv (zrange_NoDup (off + s2 - 1) n s2 ltac:(lia))) as HF.
    assert (Hin : forall i, In i (zrange (off + s2 - 1) n s2) <-> (off + s2 - 1 <= i < n /\ (i + 1 - off) mod s2 = 0)).
    { intros i. rewrite zrange_In_iff by lia.
      replace (i - (off + s2 - 1)) with ((i + 1 - off) + (-1) * s2) by lia.
      rewrite Z_mod_plus_full. reflexivity. }
    specialize (HF ltac:(intros i Hi; apply Hin in Hi; lia)).
    assert (Hsep : forall i, In i (zrange (off + s2 - 1) n s2) -> ~ In (i - s) (zrange (off + s2 - 1) n s2)).
    { intros i Hi Hc. apply Hin in Hi. apply Hin in Hc. destruct Hi as [_ Hi]. destruct Hc as [_ Hc].
      replace (i - s + 1 - off) with ((i + 1 - off) - s) in Hc by lia. subst s2.
      apply (mod_shift_nonzero (i + 1 - off) s Hs Hi). exact Hc. }
    specialize (HF Hsep Hs). cbv zeta in HF. destruct HF as [HFl HFv].
    split; [exact HFl|]. intros j Hj. set (x := Z.of_nat j + 1). destruct (HFv j) as [H1 H2]. split.
    - intros Hm Hx. apply H1. apply Hin. unfold x in *. lia.
    - intros Hn'. apply H2. intros Hc. apply Hin in Hc. apply Hn'. unfold x. split; [tauto | lia].
  Qed.
End Pass.

Section Sweeps.
  Variable nn : nat.                         (* n_vals = number of blocks - 1 *)
  Local Notation n := (Z.of_nat nn).
  Local Notation W := (list Z).
  Local Notation gw pv i := (nth i pv (@nil Z)).

  (* after the up-sweep levels below 2^k: slot i holds the last lowp k (i+1) totals up to i *)
  Definition upinv (k : nat) (pv : list W) : Prop :=
    length pv = nn /\ forall i : nat, (i < nn)%nat ->
      let x := Z.of_nat i + 1 in gw pv i = segZ (x - lowp k x) x.

  Lemma upinv_init : upinv 0 (map (fun i => [Z.of_nat i]) (seq 0 nn)).
  Proof.
    split; [rewrite map_length, seq_length; reflexivity|]. intros i Hi x.
    rewrite nth_map_seq by exact Hi. cbn [lowp]. unfold segZ, x.
    replace (Z.to_nat (Z.of_nat i + 1 - (Z.of_nat i + 1 - 1))) with 1%nat by lia.
    replace (Z.to_nat (Z.of_nat i + 1 - 1)) with i by lia. reflexivity.
  Qed.

  Lemma upinv_step k pv : upinv k pv ->
    upinv (S k) (sweep_pass (@app Z) [] pv (p2 (S k) - 1) n (p2 k) (p2 (S k))).
  Proof.
    intros [Hlen Hv]. pose proof (p2_pos k) as Hp.
    destruct (sweep_pass_spec pv (p2 (S k) - 1) n (p2 k) (p2 (S k)) 0 Hp ltac:(lia) (p2_S k) ltac:(lia) ltac:(lia))
      as [HSl HSv].
    split; [rewrite HSl; exact Hlen|]. intros i Hi x.
    destruct (HSv i ltac:(lia)) as [H1 H2]. fold x in H1, H2. rewrite Z.sub_0_r in H1, H2.
    destruct (Z.eq_dec (x mod p2 (S k)) 0) as [E|E].
    - assert (Hx : p2 (S k) <= x).
      { apply mod0_le; [apply p2_pos | unfold x; lia | exact E]. }
      rewrite (H1 E ltac:(lia)).
      rewrite (lowp_full (S k) x E).
      assert (E0 : x mod p2 k = 0) by (apply (mod_p2_le x k (S k)); [lia | exact E]).
      rewrite p2_S in Hx.
      assert (Hi' : (i - Z.to_nat (p2 k) < nn)%nat) by lia.
      rewrite (Hv _ Hi'), (Hv i Hi). cbv zeta. fold x.
      replace (Z.of_nat (i - Z.to_nat (p2 k)) + 1) with (x - p2 k) by (unfold x; lia).
      assert (E1 : (x - p2 k) mod p2 k = 0).
      { replace (x - p2 k) with (x + (-1) * p2 k) by lia. rewrite Z_mod_plus_full. exact E0. }
      rewrite (lowp_full k _ E1), (lowp_full k x E0). rewrite p2_S.
      rewrite segZ_app by lia. f_equal. lia.
    - rewrite (H2 ltac:(tauto)). rewrite (lowp_step k x E). apply Hv. exact Hi.
  Qed.

  Lemma upsweep_spec : forall fuel k pv,
    upinv k pv -> p2 k <= n -> n < p2 (S (k + fuel)) ->
    exists K pv', upsweep (@app Z) [] fuel pv n (p2 k) (p2 (S k)) = Some pv' /\
                  upinv K pv' /\ p2 K <= n /\ n < p2 (S K).
  Proof.
    induction fuel as [|f IH]; intros k pv Hinv Hk Hf.
    - exists k, pv. cbn [upsweep]. rewrite Nat.add_0_r in Hf.
      destruct (p2 (S k) <=? n) eqn:E; [lia|]. split; [reflexivity|]. split; [exact Hinv|]. lia.
    - cbn [upsweep]. destruct (p2 (S k) <=? n) eqn:E.
      + replace (p2 (S k) * 2) with (p2 (S (S k))) by (rewrite (p2_S (S k)); lia).
        destruct (IH (S k) _ (upinv_step k pv Hinv) ltac:(lia) ltac:(replace (S k + f)%nat with (k + S f)%nat by lia; exact Hf))
          as (K & pv' & H1 & H2 & H3 & H4).
        exists K, pv'. split; [exact H1|]. split; [exact H2|]. lia.
      + exists k, pv. split; [reflexivity|]. split; [exact Hinv|]. lia.
  Qed.

  (* down-sweep: slots whose position is a multiple of 2^k hold a complete prefix, the others what
     the up-sweep left there *)
  Definition downinv (K k : nat) (pv : list W) : Prop :=
    length pv = nn /\ forall i : nat, (i < nn)%nat ->
      let x := Z.of_nat i + 1 in
      (x mod p2 k = 0 -> gw pv i = segZ 0 x) /\ (x mod p2 k <> 0 -> gw pv i = segZ (x - lowp K x) x).

  Lemma downinv_step K k pv : (k < K)%nat -> n < p2 (S K) -> downinv K (S k) pv ->
    downinv K k (sweep_pass (@app Z) [] pv (p2 (S k) + p2 k - 1) n (p2 k) (p2 (S k))).
  Proof.
    intros HkK HnK [Hlen Hv]. pose proof (p2_pos k) as Hp. pose proof (p2_S k) as HpS.
    destruct (sweep_pass_spec pv (p2 (S k) + p2 k - 1) n (p2 k) (p2 (S k)) (p2 k) Hp ltac:(lia) HpS ltac:(lia) ltac:(lia))
      as [HSl HSv].
    split; [rewrite HSl; exact Hlen|]. intros i Hi x.
    destruct (HSv i ltac:(lia)) as [H1 H2]. destruct (Hv i Hi) as [Hv0 Hv1]. fold x in H1, H2, Hv0, Hv1.
    assert (Hx0 : 0 < x) by (unfold x; lia).
    split; intros E0.
    - destruct (Z.eq_dec (x mod p2 (S k)) 0) as [E1|E1].
      + (* already complete; not touched *)
        rewrite H2; [exact (Hv0 E1)|].
        intros [Hc _]. rewrite HpS in Hc, E1. exact (mod_shift_nonzero x (p2 k) Hp E1 Hc).
      + (* x = 2^k * odd *)
        assert (Hm : (x - p2 k) mod p2 (S k) = 0) by (rewrite HpS in *; apply mod_odd_multiple; assumption).
        assert (Hlow : lowp K x = p2 k) by (apply lowp_exact; [lia | exact E0 | exact E1]).
        destruct (Z_le_gt_dec (p2 k + p2 (S k)) x) as [Hge|Hlt].
        * rewrite (H1 Hm Hge), (Hv1 E1), Hlow.
          destruct (Hv (i - Z.to_nat (p2 k))%nat ltac:(lia)) as [Hv0' _].
          replace (Z.of_nat (i - Z.to_nat (p2 k)) + 1) with (x - p2 k) in Hv0' by (unfold x; lia).
          rewrite (Hv0' Hm). apply segZ_app; lia.
        * (* x = 2^k itself: the up-sweep already completed it *)
          rewrite (H2 ltac:(lia)), (Hv1 E1), Hlow. f_equal.
          apply mod0_divide in Hm as [q Hq]; [|lia]. pose proof (mod0_le x (p2 k) Hp Hx0 E0).
          assert (q = 0) by nia. nia.
    - (* not a multiple of 2^k: untouched, still the up-sweep segment *)
      rewrite H2.
      + apply Hv1. intros E1. apply E0, (mod_p2_le x k (S k)); [lia | exact E1].
      + intros [Hc _]. rewrite HpS in Hc. apply mod_shift_inv in Hc as [Hc _]; [|exact Hp]. congruence.
  Qed.

  Lemma downsweep_spec K : n < p2 (S K) -> forall k fuel pv,
    (k < K)%nat -> (k < fuel)%nat -> downinv K (S k) pv ->
    exists pv', downsweep (@app Z) [] fuel pv n (p2 k) (p2 (S k)) = Some pv' /\ downinv K 0 pv'.
  Proof.
    intros HnK. induction k as [|k IH]; intros fuel pv HkK Hfuel Hinv.
    - destruct fuel as [|f]; [lia|]. cbn [downsweep].
      change (p2 0 >? 0) with true. change (p2 0 / 2) with 0. cbv iota.
      replace (downsweep _ _ f _ n 0 (p2 0)) with (Some (sweep_pass (@app Z) [] pv (p2 1 + p2 0 - 1) n (p2 0) (p2 1)))
        by (destruct f; reflexivity).
      eexists. split; [reflexivity|]. apply (downinv_step K 0 pv HkK HnK Hinv).
    - destruct fuel as [|f]; [lia|]. cbn [downsweep].
      pose proof (p2_pos (S k)) as Hp. destruct (p2 (S k) >? 0) eqn:E; [|lia].
      rewrite p2_half.
      apply IH; [lia | lia |]. apply downinv_step; [lia | exact HnK | exact Hinv].
  Qed.

  (* the start of the down-sweep: 2 ** ceil(log2(n // 2)), at least 2 *)
  Lemma pow2_ge_spec : forall fuel j k,
    0 < k -> k <= p2 (j + fuel) ->
    exists m, pow2_ge fuel (p2 j) k = p2 m /\ k <= p2 m /\ (m = j \/ p2 m < 2 * k).
  Proof.
    induction fuel as [|f IH]; intros j k Hk Hf.
    - rewrite Nat.add_0_r in Hf. exists j. cbn [pow2_ge]. destruct (k <=? p2 j) eqn:E; [|lia].
      split; [reflexivity|]. split; [lia|]. left; reflexivity.
    - cbn [pow2_ge]. destruct (k <=? p2 j) eqn:E.
      + exists j. split; [reflexivity|]. split; [lia|]. left; reflexivity.
      + rewrite <- p2_S.
        destruct (IH (S j) k Hk ltac:(replace (S j + f)%nat with (j + S f)%nat by lia; exact Hf)) as (m & H1 & H3 & H4).
        exists m. split; [exact H1|]. split; [exact H3|]. right.
        destruct H4 as [->|H4]; [rewrite p2_S; lia | exact H4].
  Qed.

  (* the first stride2 of the down-sweep is a power 2^(m+1) within the levels of the up-sweep and
     more than a third of n *)
  Lemma downsweep_start K : 2 <= n -> p2 K <= n < p2 (S K) ->
    exists m, Z.max 2 (pow2_ge nn 1 (n / 2)) = p2 (S m) /\ (S m <= K)%nat /\ n < 3 * p2 (S m).
  Proof.
    intros Hn2 HK.
    pose proof (Z.div_mod n 2 ltac:(lia)) as Hdm. pose proof (Z.mod_pos_bound n 2 ltac:(lia)) as Hmb.
    destruct (pow2_ge_spec nn 0 (n / 2) ltac:(lia) ltac:(cbn [Nat.add]; pose proof (p2_gt_lin nn); lia))
      as (m0 & Hm1 & Hm3 & Hm4).
    change (p2 0) with 1 in Hm1. rewrite Hm1.
    assert (HK0 : (1 <= K)%nat) by (destruct K; [change (p2 1) with 2 in HK; lia | lia]).
    destruct m0 as [|m0'].
    - exists 0%nat. change (p2 0) with 1 in *. change (p2 1) with 2. repeat split; lia.
    - exists m0'. pose proof (p2_S m0'). pose proof (p2_pos m0'). rewrite Z.max_r by lia.
      split; [reflexivity|]. split; [|lia].
      destruct Hm4 as [Hm4|Hm4]; [discriminate|].
      assert (Hlt : p2 (S m0') < p2 (S K)) by (pose proof (p2_S K); lia).
      apply p2_lt_inv in Hlt. lia.
  Qed.

  (* there the multiples of 2^(m+1) are 2^(m+1) and 2^(m+2) only, and those the up-sweep has completed *)
  Lemma downinv_init K m pv :
    upinv K pv -> (S m <= K)%nat -> n < p2 (S K) -> n < 3 * p2 (S m) -> downinv K (S m) pv.
  Proof.
    intros [Hl Hv] HmK HK H3. split; [exact Hl|]. intros i Hi x.
    rewrite (Hv i Hi). cbv zeta. fold x. split; [intros E | reflexivity].
    assert (Hxn : x <= n) by (unfold x; lia).
    apply mod0_divide in E; [|apply p2_pos]. destruct E as [q Hq].
    pose proof (p2_pos (S m)) as HpS.
    assert (Hq12 : q = 1 \/ q = 2) by nia.
    assert (Hlow : lowp K x = x).
    { destruct Hq12 as [->| ->].
      - replace x with (p2 (S m)) by lia. apply lowp_of_p2, HmK.
      - replace x with (p2 (S (S m))) by (rewrite (p2_S (S m)); lia).
        assert (Hlt : p2 (S (S m)) < p2 (S K)) by (rewrite (p2_S (S m)); lia).
        apply lowp_of_p2. apply p2_lt_inv in Hlt. lia. }
    rewrite Hlow. f_equal. lia.
  Qed.

  Lemma downinv_final K pv : downinv K 0 pv -> pv = map iota (seq 0 nn).
  Proof.
    intros [Hl Hv]. apply nth_ext with (d := []) (d' := []); [rewrite map_length, seq_length; exact Hl|].
    intros i Hi. rewrite Hl in Hi. destruct (Hv i Hi) as [Hv0 _]. rewrite Hv0 by apply Z.mod_1_r.
    rewrite nth_map_seq by exact Hi. symmetry. apply iota_segZ.
  Qed.

  Theorem blelloch_wiring_n : blelloch_wiring nn = Some (map iota (seq 0 nn)).
  Proof.
    unfold blelloch_wiring, blelloch_prefix. rewrite map_length, seq_length.
    destruct (n >=? 2) eqn:E2.
    - (* the up-sweep runs from level 0; its fuel nn suffices because n < 2^(nn+1) *)
      assert (H0 : p2 0 <= n) by (change (p2 0) with 1; lia).
      assert (Hup : n < p2 (S (0 + nn))) by (pose proof (p2_gt_lin (S nn)); cbn [Nat.add]; lia).
      destruct (upsweep_spec nn 0 _ upinv_init H0 Hup) as (K & pv1 & HU & Hinv1 & HK1 & HK2).
      change (p2 0) with 1 in HU. change (p2 1) with 2 in HU. rewrite HU.
      destruct (downsweep_start K ltac:(lia) ltac:(lia)) as (m & -> & HmK & H3).
      rewrite p2_half.
      (* the down-sweep runs from level m < K; its fuel nn + 1 exceeds m because m < 2^m < 2^K <= n *)
      assert (Hdown : (m < S nn)%nat).
      { pose proof (p2_gt_lin m). pose proof (p2_mono (S m) K HmK). rewrite p2_S in *. lia. }
      destruct (downsweep_spec K HK2 m (S nn) pv1 ltac:(lia) Hdown (downinv_init K m pv1 Hinv1 HmK HK2 H3))
        as (pv2 & -> & HD).
      f_equal. apply (downinv_final K), HD.
    - (* fewer than two prefix values: nothing to combine *)
      f_equal. assert (Hn : (nn <= 1)%nat) by lia.
      destruct nn as [|[|?]]; [reflexivity | reflexivity | lia].
  Qed.
End Sweeps.

(* every monoid: prefix_vals ends up as the inclusive scan of the block totals *)
Theorem blelloch_prefix_correct (M : Type) (op : M -> M -> M) (e : M) :
  (forall a b c, op a (op b c) = op (op a b) c) -> (forall a, op e a = a) -> (forall a, op a e = a) ->
  forall ts, blelloch_prefix op e ts = Some (scan op ts).
Proof.
  intros Ha Hl Hr ts. apply (blelloch_prefix_of_wiring M op e Ha Hl Hr). apply blelloch_wiring_n.
Qed.

(* C19_cumsum_blelloch: the Blelloch wiring produces, block for block, what the sequential scheme
   produces, for every number of blocks *)
Theorem cum_blelloch_correct (M : Type) (op : M -> M -> M) (e : M) :
  (forall a b c, op a (op b c) = op (op a b) c) -> (forall a, op e a = a) -> (forall a, op a e = a) ->
  forall blocks : list (list M),
    cum_blelloch op e blocks = Some (cum_sequential op e blocks) /\
    (forall out, cum_blelloch op e blocks = Some out ->
       concat out = scan op (concat blocks) /\ map (@length M) out = map (@length M) blocks).
Proof.
  intros Ha Hl Hr blocks.
  assert (H : cum_blelloch op e blocks = Some (cum_sequential op e blocks)).
  { apply cum_blelloch_of_prefix; try assumption. intros ts. apply blelloch_prefix_correct; assumption. }
  split; [exact H|]. intros out Hout. rewrite H in Hout. injection Hout as <-.
  apply cum_sequential_spec; assumption.
Qed.
