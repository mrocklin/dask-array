(* The crosswalk computed by intersect_1d is accepted by crosswalk_ok. *)
From DA Require Import PyBase PyBaseFacts Rechunk RechunkBase CrosswalkFacts.
Open Scope Z_scope.

Notation nonneg := (Forall (fun c : Z => 0 <= c)).

Lemma merge_breaks_nil_l n : merge_breaks [] n = map (pair false) n.
Proof. destruct n; reflexivity. Qed.

Lemma merge_breaks_nil_r o : merge_breaks o [] = map (pair true) o.
Proof. destruct o; reflexivity. Qed.

Lemma merge_breaks_cons x o y n :
  merge_breaks (x :: o) (y :: n) =
  if x <=? y then (true, x) :: merge_breaks o (y :: n) else (false, y) :: merge_breaks (x :: o) n.
Proof. reflexivity. Qed.

(* the next breakpoint of the stable merge: the end of the next old chunk unless the next new chunk
   ends strictly before it *)
Lemma merge_cases po pn oc nc :
  let bs := merge_breaks (cumsum_from po oc) (cumsum_from pn nc) in
  (oc = [] /\ nc = [] /\ bs = []) \/
  (exists co oc', oc = co :: oc' /\ (forall cn nc', nc = cn :: nc' -> po + co <= pn + cn) /\
     bs = (true, po + co) :: merge_breaks (cumsum_from (po + co) oc') (cumsum_from pn nc)) \/
  (exists cn nc', nc = cn :: nc' /\ (forall co oc', oc = co :: oc' -> pn + cn < po + co) /\
     bs = (false, pn + cn) :: merge_breaks (cumsum_from po oc) (cumsum_from (pn + cn) nc')).
Proof.
  destruct oc as [|co oc'], nc as [|cn nc']; cbn [cumsum_from].
  - left. auto.
  - right; right. exists cn, nc'. rewrite !merge_breaks_nil_l. split; [reflexivity|]. split; [discriminate|reflexivity].
  - right; left. exists co, oc'. rewrite !merge_breaks_nil_r. split; [reflexivity|]. split; [discriminate|reflexivity].
  - rewrite merge_breaks_cons. destruct (Z.leb_spec (po + co) (pn + cn)) as [Hle|Hlt].
    + right; left. exists co, oc'. split; [reflexivity|]. split; [|reflexivity].
      intros ? ? E. injection E as <- <-. exact Hle.
    + right; right. exists cn, nc'. split; [reflexivity|]. split; [|reflexivity].
      intros ? ? E. injection E as <- <-. exact Hlt.
Qed.

(* the output of the loop, after the final "if ret_next: ret.append(ret_next)" *)
Definition flush (st : ix_state) : list (list (Z * Z * Z)) :=
  match ix_next st with [] => ix_ret st | nx => rev nx :: ix_ret st end.

(* One iteration in closed form.  With lo / io the labels of the previous and the
   current breakpoint: a block pending after an 'n' is flushed first; the slice
   [start, e) of the current old block, which lies between the two breakpoints, is
   appended unless it is empty; between two coinciding 'n' breakpoints (an empty
   new block) an empty slice is appended all the same, taken from the end of the
   last old block once all old blocks are consumed. *)
Lemma ix_step_eq loc lob st lo pb io br :
  ix_step loc lob st (lo, pb) (io, br) =
  let start := if lo then 0 else ix_last_end st in
  let e := br - pb + start in
  let oi := ix_old_idx st in
  mk_ix e (if io then oi + 1 else oi) (if io then e else ix_last_o_end st)
    (if lo then ix_ret st else flush st)
    ((if br =? pb
      then if lo || io then []
           else [if br =? lob then (loc, ix_last_o_end st, ix_last_o_end st) else (oi, start, e)]
      else [(oi, start, e)]) ++ (if lo then ix_next st else [])).
Proof.
  unfold ix_step, flush. destruct lo, io; cbn [negb andb orb];
    (destruct (br =? pb); [try destruct (br =? lob)|]); reflexivity.
Qed.

Section Intersect.
Variables old new : list Z.
Hypothesis Hold : nonneg old.
Hypothesis Hnew : nonneg new.
Hypothesis Hne : old <> [].
Hypothesis Hsum : zsum old = zsum new.

Let loc := Z.of_nat (length old) - 1.
Let lob := zsum old.

Definition tiles (ps : list (Z * Z * Z)) (lo hi : Z) : Prop := pieces_tile (cum0 old) old ps lo hi = true.
Definition cwok (nw : list Z) (cw : list (list (Z * Z * Z))) : Prop :=
  crosswalk_ok_from (cum0 old) old nw cw 0 = true.

Lemma tiles_nil lo hi : tiles [] lo hi <-> lo = hi.
Proof. unfold tiles. cbn [pieces_tile]. apply Z.eqb_eq. Qed.

Lemma tiles_app : forall ps qs lo mid hi, tiles ps lo mid -> tiles qs mid hi -> tiles (ps ++ qs) lo hi.
Proof.
  unfold tiles. induction ps as [|[[i a] b] t IH]; intros qs lo mid hi H Hq; cbn [app pieces_tile] in *.
  - apply Z.eqb_eq in H. subst mid. exact Hq.
  - apply andb_true_iff in H. destruct H as [Hp Ht]. rewrite Hp. exact (IH _ _ _ _ Ht Hq).
Qed.

Lemma tiles_nonempty ps lo hi : tiles (rev ps) lo hi -> lo < hi -> ps <> [].
Proof. intros H Hlt ->. apply tiles_nil in H. lia. Qed.

Lemma cwok_from_snoc : forall nw cw pos c ps,
  crosswalk_ok_from (cum0 old) old nw cw pos = true -> ps <> [] ->
  tiles ps (pos + zsum nw) (pos + zsum nw + c) ->
  crosswalk_ok_from (cum0 old) old (nw ++ [c]) (cw ++ [ps]) pos = true.
Proof.
  induction nw as [|x nw IH]; intros [|q cw] pos c ps H Hps Ht; cbn [crosswalk_ok_from app] in *;
    try discriminate.
  - cbn [zsum] in Ht. rewrite Z.add_0_r in Ht. unfold tiles in Ht. rewrite Ht.
    destruct ps; [congruence|reflexivity].
  - apply andb_true_iff in H. destruct H as [H1 H2]. rewrite H1. cbn [andb].
    apply IH; [exact H2|exact Hps|]. cbn [zsum] in Ht. rewrite !Z.add_assoc in Ht. exact Ht.
Qed.

(* the pending pieces close the new block that follows nd *)
Lemma cwok_flush nd cn st :
  cwok nd (rev (ix_ret st)) -> ix_next st <> [] ->
  tiles (rev (ix_next st)) (zsum nd) (zsum nd + cn) ->
  cwok (nd ++ [cn]) (rev (flush st)).
Proof.
  unfold flush. intros Hcw Hnx Ht. destruct (ix_next st) as [|p t]; [congruence|]. cbn [rev] in *.
  apply cwok_from_snoc; [exact Hcw| |exact Ht].
  intros H. apply app_eq_nil in H. destruct H; discriminate.
Qed.

Lemma split_facts od oc nd nc :
  old = od ++ oc -> new = nd ++ nc ->
  nonneg oc /\ nonneg nc /\ zsum od + zsum oc = zsum nd + zsum nc /\ lob = zsum od + zsum oc.
Proof.
  intros Ho Hn. pose proof Hold as H1. pose proof Hnew as H2. pose proof Hsum as H3.
  unfold lob. rewrite Ho in H1, H3 |- *. rewrite Hn in H2, H3. rewrite !zsum_app in *.
  apply Forall_app in H1. apply Forall_app in H2. tauto.
Qed.

(* the slice [a, b) of the old block that follows the prefix od *)
Lemma cur_piece od co oc' a b x y :
  old = od ++ co :: oc' -> 0 <= a -> a <= b -> b <= co -> x = zsum od + a -> y = zsum od + b ->
  tiles [(Z.of_nat (length od), a, b)] x y.
Proof.
  intros Ho Ha Hab Hb -> ->.
  assert (Z.of_nat (length od) < lenZ' old) as Hlen
      by (unfold lenZ'; rewrite Ho, app_length; cbn [length]; lia).
  destruct (nthZ_app_middle od co oc') as [Hoff Hnth]. rewrite <- Ho in Hoff, Hnth.
  unfold tiles. cbn [pieces_tile]. rewrite Hoff, Hnth. lia.
Qed.

(* the empty slice at the very end of the last old block *)
Lemma end_piece x y : x = zsum old -> y = zsum old -> tiles [(loc, last old 0, last old 0)] x y.
Proof.
  intros -> ->. destruct (exists_last Hne) as (od' & c & Ho).
  destruct (split_facts _ _ [] new Ho eq_refl) as (Hoc & _). inversion Hoc as [|c0 t0 Hc _]; subst c0 t0.
  replace loc with (Z.of_nat (length od')) by (unfold loc; rewrite Ho, app_length; cbn [length]; lia).
  replace (last old 0) with c by (rewrite Ho; symmetry; apply last_last).
  apply (cur_piece od' c []); first [exact Ho | lia | rewrite Ho; apply zsum_snoc].
Qed.

(* Loop invariant.  od / nd: the old / new chunks whose closing breakpoint has
   been consumed; oc / nc: the remaining ones; prev: the last breakpoint. *)
Definition inv (od oc nd nc : list Z) (st : ix_state) (prev : bool * Z) : Prop :=
  old = od ++ oc /\ new = nd ++ nc /\
  ix_old_idx st = Z.of_nat (length od) /\ ix_last_o_end st = last od 0 /\
  if fst prev then
    snd prev = zsum od /\ zsum nd < zsum od /\
    (forall cn nc', nc = cn :: nc' -> zsum od <= zsum nd + cn) /\
    cwok nd (rev (ix_ret st)) /\ tiles (rev (ix_next st)) (zsum nd) (zsum od)
  else
    snd prev = zsum nd /\ zsum od <= zsum nd /\
    (forall co oc', oc = co :: oc' -> zsum nd < zsum od + co) /\
    ix_last_end st = zsum nd - zsum od /\ cwok nd (rev (flush st)).

(* consuming an 'o' breakpoint *)
Lemma step_O od co oc' nd nc st prev :
  inv od (co :: oc') nd nc st prev ->
  (forall cn nc', nc = cn :: nc' -> zsum od + co <= zsum nd + cn) ->
  inv (od ++ [co]) oc' nd nc (ix_step loc lob st prev (true, zsum od + co)) (true, zsum od + co).
Proof.
  intros (Ho & Hn & Hidx & Hloe & Hp) Hm.
  destruct (split_facts _ _ _ _ Ho Hn) as (Hoc & _).
  inversion Hoc as [|c0 t0 Hco _]; subst c0 t0.
  assert (old = (od ++ [co]) ++ oc') as Ho' by (rewrite <- app_assoc; exact Ho).
  destruct prev as [lo pb]. rewrite ix_step_eq. unfold inv.
  cbn [fst snd ix_old_idx ix_last_o_end ix_ret ix_next].
  rewrite zsum_snoc, last_last, app_length, Nat2Z.inj_add, Hidx. cbn [length].
  destruct lo; cbn [fst snd orb] in Hp |- *.
  - (* o, o: the whole of block co, if not empty *)
    destruct Hp as (-> & Hlt & _ & Hcw & Ht).
    repeat (split; [first [assumption | reflexivity | lia]|]).  (* leaves the tiling by the pending pieces *)
    destruct (zsum od + co =? zsum od) eqn:E; cbn [app rev].
    + replace (zsum od + co) with (zsum od) by lia. exact Ht.
    + apply (tiles_app _ _ _ _ _ Ht). apply (cur_piece od co oc'); first [exact Ho | lia].
  - (* n, o: the rest of block co *)
    destruct Hp as (-> & Hle & Hnexto & -> & Hcw). specialize (Hnexto co oc' eq_refl).
    destruct (zsum od + co =? zsum nd) eqn:E; [lia|]. cbn [app rev].
    repeat (split; [first [assumption | reflexivity | lia]|]).  (* leaves the tiling by the one pending piece *)
    apply (cur_piece od co oc'); first [exact Ho | lia].
Qed.

(* consuming an 'n' breakpoint *)
Lemma step_N od oc nd cn nc' st prev :
  inv od oc nd (cn :: nc') st prev ->
  (forall co oc', oc = co :: oc' -> zsum nd + cn < zsum od + co) ->
  inv od oc (nd ++ [cn]) nc' (ix_step loc lob st prev (false, zsum nd + cn)) (false, zsum nd + cn).
Proof.
  intros (Ho & Hn & Hidx & Hloe & Hp) Hm.
  destruct (split_facts _ _ _ _ Ho Hn) as (Hoc & Hnc & Hz & Hlob).
  inversion Hnc as [|c0 t0 Hcn Hnc']; subst c0 t0. cbn [zsum] in Hz.
  pose proof (zsum_nonneg _ Hnc') as Hznc'. pose proof (zsum_nonneg _ Hoc) as Hzoc.
  assert (new = (nd ++ [cn]) ++ nc') as Hn' by (rewrite <- app_assoc; exact Hn).
  destruct prev as [lo pb]. rewrite ix_step_eq. unfold inv.
  cbn [fst snd ix_old_idx ix_last_o_end ix_last_end]. rewrite zsum_snoc, Hidx.
  destruct lo; cbn [fst snd orb] in Hp |- *.
  - (* o, n: the pending pieces and the part of the current old block before the breakpoint *)
    destruct Hp as (-> & Hlt & Hnext & Hcw & Ht). specialize (Hnext cn nc' eq_refl).
    repeat (split; [first [assumption | reflexivity | lia]|]).  (* leaves: the flushed block closes cn *)
    destruct (zsum nd + cn =? zsum od) eqn:E; apply cwok_flush; cbn [ix_ret ix_next app rev].
    + exact Hcw.
    + exact (tiles_nonempty _ _ _ Ht Hlt).
    + replace (zsum nd + cn) with (zsum od) by lia. exact Ht.
    + exact Hcw.
    + discriminate.
    + destruct oc as [|co oc']; [cbn [zsum] in Hz; lia|]. pose proof (Hm co oc' eq_refl).
      apply (tiles_app _ _ _ _ _ Ht). apply (cur_piece od co oc'); first [exact Ho | lia].
  - (* n, n: one slice, empty if the new block is *)
    destruct Hp as (-> & Hle & Hnexto & -> & Hcw).
    repeat (split; [first [assumption | reflexivity | lia]|]).  (* leaves: the flushed block closes cn *)
    apply cwok_flush; cbn [ix_ret ix_next]; [exact Hcw|destruct (_ =? _); discriminate|].
    rewrite app_nil_r. destruct oc as [|co oc'].
    + (* every old block is consumed, so this is an empty new block at the end *)
      cbn [zsum] in Hz, Hlob. rewrite app_nil_r in Ho. subst od.
      replace (zsum nd + cn =? zsum nd) with true by lia.
      replace (zsum nd + cn =? lob) with true by lia.
      rewrite Hloe. apply end_piece; lia.
    + specialize (Hnexto co oc' eq_refl). pose proof (Hm co oc' eq_refl).
      inversion Hoc as [|c0 t0 Hco Hoc']; subst c0 t0. pose proof (zsum_nonneg _ Hoc').
      cbn [zsum] in Hlob.
      destruct (zsum nd + cn =? zsum nd); [replace (zsum nd + cn =? lob) with false by lia|];
        apply (cur_piece od co oc'); first [exact Ho | lia].
Qed.

(* main phase: at least one 'n' breakpoint has been consumed, or prev = 'o'
   with a non-trivial partial tiling *)
Lemma phase2 : forall bs od oc nd nc st prev,
  bs = merge_breaks (cumsum_from (zsum od) oc) (cumsum_from (zsum nd) nc) ->
  inv od oc nd nc st prev ->
  cwok new (rev (flush (ix_loop loc lob st prev bs))).
Proof.
  induction bs as [|cur bs IH]; intros od oc nd nc st prev Hbs Hinv;
    destruct (merge_cases (zsum od) (zsum nd) oc nc)
      as [(-> & -> & E)|[(co & oc' & -> & Hm & E)|(cn & nc' & -> & Hm & E)]];
    rewrite E in Hbs; try discriminate Hbs; cbn [ix_loop].
  - (* all breakpoints consumed *)
    destruct Hinv as (Ho & Hn & _ & _ & Hp). rewrite app_nil_r in Ho, Hn. subst od nd.
    destruct prev as [[|] pb]; cbn [fst snd] in Hp.
    + pose proof Hsum. lia.
    + tauto.
  - injection Hbs as -> ->. apply (IH (od ++ [co]) oc' nd nc); [rewrite zsum_snoc; reflexivity|].
    apply step_O; assumption.
  - injection Hbs as -> ->. apply (IH od oc (nd ++ [cn]) nc'); [rewrite zsum_snoc; reflexivity|].
    apply step_N; assumption.
Qed.

Lemma zeros_sum_last od : Forall (fun c => c = 0) od -> zsum od = 0 /\ last od 0 = 0.
Proof.
  induction 1 as [|x t -> _ [IH1 IH2]]; [split; reflexivity|].
  split; [exact IH1|]. destruct t; [reflexivity|exact IH2].
Qed.

(* initial phase.  The breakpoints begin with (o, 0), one more (o, 0) for every leading empty old
   block (phase1), then (n, 0), which closes no new block (first_n).  Up to there no piece is
   produced; from there on inv holds. *)
Lemma first_n od oc :
  Forall (fun c => c = 0) od -> old = od ++ oc -> (forall co oc', oc = co :: oc' -> 0 < co) ->
  cwok new (rev (flush (ix_loop loc lob (mk_ix 0 (Z.of_nat (length od)) 0 [] []) (true, 0)
                          ((false, 0) :: merge_breaks (cumsum_from 0 oc) (cumsum_from 0 new))))).
Proof.
  intros Hz Ho Hpos. destruct (zeros_sum_last od Hz) as [Hz1 Hz2]. cbn [ix_loop].
  apply (phase2 _ od oc [] new); [rewrite Hz1; reflexivity|].
  rewrite ix_step_eq. unfold inv, flush.
  cbn [fst snd Z.eqb orb app ix_old_idx ix_last_o_end ix_last_end ix_ret ix_next zsum].
  repeat (split; [first [assumption | reflexivity | lia]|]).  (* leaves the last three clauses of the 'n' branch *)
  split; [intros co oc' H; specialize (Hpos co oc' H); lia|]. split; [lia|reflexivity].
Qed.

Lemma phase1 : forall n oc od,
  length oc = n -> Forall (fun c => c = 0) od -> old = od ++ oc ->
  cwok new (rev (flush (ix_loop loc lob (mk_ix 0 (Z.of_nat (length od)) 0 [] []) (true, 0)
                          (merge_breaks (cumsum_from 0 oc) (cumsum_from 0 (0 :: new)))))).
Proof.
  induction n as [|n IH]; intros oc od Hlen Hz Ho;
    destruct (merge_cases 0 0 oc (0 :: new)) as [(_ & E & _)|[(co & oc' & -> & Hm & ->)|(c & t & E & Hm & ->)]].
  - discriminate E.
  - discriminate Hlen.
  - injection E as <- <-. exact (first_n od oc Hz Ho Hm).
  - discriminate E.
  - (* one more empty old block *)
    destruct (split_facts _ _ [] new Ho eq_refl) as (Hoc & _). inversion Hoc as [|c0 t0 Hco _]; subst c0 t0.
    specialize (Hm 0 new eq_refl). assert (co = 0) as -> by lia. cbn [ix_loop].
    replace (ix_step loc lob _ (true, 0) (true, 0 + 0)) with (mk_ix 0 (Z.of_nat (length (od ++ [0]))) 0 [] [])
      by (rewrite ix_step_eq, app_length; cbn; f_equal; lia).
    apply IH; [injection Hlen as <-; reflexivity| |rewrite <- app_assoc; exact Ho].
    apply Forall_app. split; [exact Hz|]. constructor; [reflexivity|constructor].
  - injection E as <- <-. exact (first_n od oc Hz Ho Hm).
Qed.

Lemma intersect_1d_ok_section : crosswalk_ok old new (intersect_1d old new) = true.
Proof.
  unfold intersect_1d, cum0, cumsum. rewrite merge_breaks_cons. cbn [Z.leb Z.compare].
  exact (phase1 _ old [] eq_refl (Forall_nil _) eq_refl).
Qed.
End Intersect.

Theorem intersect_1d_ok old new :
  nonneg old -> nonneg new -> old <> [] -> new <> [] -> zsum old = zsum new ->
  crosswalk_ok old new (intersect_1d old new) = true.
Proof. intros Ho Hn Hne _ Hs. apply intersect_1d_ok_section; assumption. Qed.

(* old <> [] is needed: with no old block there is nothing an empty new block
   could take its (empty) slice from *)
Example intersect_1d_empty_old : crosswalk_ok [] [0] (intersect_1d [] [0]) = false.
Proof. vm_compute. reflexivity. Qed.

(* new <> [] is not needed, and intersect_1d_ok_section does without it (the sum forces old to
   consist of empty blocks) *)
Example intersect_1d_empty_new : crosswalk_ok [0;0] [] (intersect_1d [0;0] []) = true.
Proof. vm_compute. reflexivity. Qed.

Example intersect_1d_ok_hyps_sat :
  nonneg [2;0;2] /\ nonneg [0;4] /\ [2;0;2] <> [] /\ [0;4] <> [] /\ zsum [2;0;2] = zsum [0;4] /\
  intersect_1d [2;0;2] [0;4] = [[(0,0,0)]; [(0,0,2);(2,0,2)]] /\
  intersect_1d [2;0;2] [4;0] = [[(0,0,2);(2,0,2)]; [(2,2,2)]] /\
  intersect_1d [10;10;10;10;10] [25;5;20]
  = [[(0,0,10);(1,0,10);(2,0,5)]; [(2,5,10)]; [(3,0,10);(4,0,10)]].
Proof.
  repeat split; try discriminate; repeat constructor; lia.
Qed.
