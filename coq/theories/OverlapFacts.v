(* C19 — overlap / boundaries / trim_internal / map_overlap (Window.v) *)
From DA Require Import PyBase PyBaseFacts Slicing Slice1dBase Scan Window WindowBase SlidingFacts.
Open Scope Z_scope.

Lemma Forall_snoc {A} (P : A -> Prop) l x : Forall P l -> P x -> Forall P (l ++ [x]).
Proof. intros Hl Hx. apply Forall_app. split; [exact Hl | constructor; [exact Hx | constructor]]. Qed.

(* the loop keeps the total; every chunk it has put out is >= size *)
Lemma emc_loop_inv size : forall chunks output new S,
  Forall (fun c => 0 <= c) chunks -> 0 <= new -> Forall (fun c => size <= c) output ->
  zsum output + new + zsum chunks = S ->
  let '(o, n) := emc_loop size chunks output new in
  Forall (fun c => size <= c) o /\ 0 <= n /\ zsum o + n = S.
Proof.
  induction chunks as [|c t IH]; intros output new S Hnn Hnew Hout HS.
  - cbn [emc_loop zsum] in *. repeat split; [exact Hout | exact Hnew | lia].
  - inversion Hnn as [|c' t' Hc Ht]; subst c' t'. cbn [emc_loop zsum] in *.
    destruct (c <? size) eqn:E1.
    + (* a chunk below size joins the pending remainder and is not counted on its own *)
      destruct (c >=? size) eqn:E4; [lia|].
      destruct (new >? size + (size - c)) eqn:E2.
      * (* the remainder can give c what it lacks to size and still be put out: both are put out *)
        destruct (size >=? size) eqn:E3; [|lia].
        apply IH; [exact Ht | lia | | rewrite !zsum_snoc; lia].
        apply Forall_snoc; [apply Forall_snoc; [exact Hout | lia] | lia].
      * (* otherwise the remainder grows by c, and is put out if that brings it to size *)
        destruct (new + c >=? size) eqn:E3.
        -- apply IH; [exact Ht | lia | apply Forall_snoc; [exact Hout | lia] | rewrite zsum_snoc; lia].
        -- apply IH; [exact Ht | lia | exact Hout | lia].
    + (* a chunk of at least size is added to the remainder, once the old remainder has been put out
         if it had reached size *)
      destruct (c >=? size) eqn:E4; [|lia].
      destruct (new >=? size) eqn:E3.
      * apply IH; [exact Ht | lia | apply Forall_snoc; [exact Hout | lia] | rewrite zsum_snoc; lia].
      * apply IH; [exact Ht | lia | exact Hout | lia].
Qed.

(* contract of ensure_minimum_chunksize: a layout of the same length whose chunks are all >= size *)
Theorem ensure_minimum_chunksize_contract size cs out :
  Forall (fun c => 0 <= c) cs -> ensure_minimum_chunksize size cs = Some out ->
  zsum out = zsum cs /\ Forall (fun c => size <= c) out /\ Forall (fun c => 0 <= c) out /\ out <> [].
Proof.
  intros Hnn. unfold ensure_minimum_chunksize.
  destruct (zmin_list cs) as [mn|] eqn:Emn; [|discriminate].
  apply zmin_list_spec in Emn as [Hin Hmn].
  assert (Hne : cs <> []) by (intros ->; destruct Hin).
  assert (Hmn0 : 0 <= mn) by (rewrite Forall_forall in Hnn; apply Hnn, Hin).
  destruct (size <=? mn) eqn:E1.
  - intros H. injection H as <-. repeat split; [| exact Hnn | exact Hne].
    exact (Forall_ge_le mn size cs ltac:(lia) Hmn).
  - pose proof (emc_loop_inv size cs [] 0 _ Hnn ltac:(lia) ltac:(constructor) eq_refl) as HI.
    destruct (emc_loop size cs [] 0) as [o n]. destruct HI as (I1 & I2 & I3). cbn [zsum] in I3.
    intros H.
    (* size is positive here: chunks that are >= size are non-negative *)
    enough (G : zsum out = zsum cs /\ Forall (fun c => size <= c) out /\ out <> []).
    { destruct G as (G1 & G2 & G3). repeat split; try assumption. exact (Forall_ge_le size 0 out ltac:(lia) G2). }
    destruct (n >=? size) eqn:E2.
    + injection H as <-. rewrite zsum_snoc. repeat split; [lia | apply Forall_snoc; [exact I1 | lia] | apply snoc_neq_nil].
    + (* the remainder is added to the last chunk *)
      destruct o as [|o0 o']; [discriminate|].
      destruct (exists_last (l := o0 :: o')) as (u & q & Eo); [discriminate|]. rewrite Eo in *.
      injection H as <-. rewrite removelast_last, last_last, zsum_snoc. rewrite zsum_snoc in I3.
      apply Forall_app in I1 as [Hu Hq]. inversion Hq as [|? ? Hq' _]; subst.
      repeat split; [lia | apply Forall_snoc; [exact Hu | lia] | apply snoc_neq_nil].
Qed.

(* _get_overlap_rechunked_chunks keeps the contract (the "none" edge merges only coarsen); on a
   "none" axis it leaves a single block, or edge blocks longer than the depths *)
Theorem overlap_rechunked_chunks_contract cs before after bnone out :
  Forall (fun c => 0 <= c) cs -> 0 <= before -> 0 <= after ->
  overlap_rechunked_chunks cs before after bnone = Some out ->
  zsum out = zsum cs /\ Forall (fun c => Z.max before after <= c) out /\ out <> [] /\
  (bnone = true -> 1 <= Z.max before after -> zlen out = 1 \/ (before < hd 0 out /\ after < last out 0)).
Proof.
  intros Hnn Hb Ha. unfold overlap_rechunked_chunks.
  destruct (ensure_minimum_chunksize (Z.max before after) cs) as [c1|] eqn:E; [|discriminate].
  destruct (ensure_minimum_chunksize_contract _ _ _ Hnn E) as (C1 & C2 & _ & C4).
  destruct bnone; [|intros H; injection H as <-; repeat split; try assumption; discriminate].
  intros H. injection H as <-.
  (* a first block within the front depth is merged into the second *)
  set (c2 := match c1 with c0 :: c1' :: rest => if c0 <=? before then (c0 + c1') :: rest else c1 | _ => c1 end).
  assert (H2 : zsum c2 = zsum cs /\ Forall (fun c => Z.max before after <= c) c2 /\ c2 <> [] /\
               (1 <= Z.max before after -> zlen c2 = 1 \/ before < hd 0 c2)).
  { unfold c2. destruct c1 as [|c0 [|c1' rest]]; [congruence | repeat split; try assumption; left; reflexivity |].
    inversion C2 as [|? ? Q0 Q1]; subst. inversion Q1 as [|? ? Q2 Q3]; subst.
    destruct (c0 <=? before) eqn:E0; cbn [zsum hd] in *;
      (repeat split; [lia | (constructor; [lia | assumption]) || assumption | discriminate | intros; right; lia]). }
  destruct H2 as (D1 & D2 & D3 & D4). clearbody c2.
  (* a last block within the back depth is merged into the one before *)
  destruct ((1 <? zlen c2) && (last c2 0 <=? after)) eqn:E3.
  - apply andb_true_iff in E3 as [E3 E4]. destruct (snoc2_view c2 ltac:(lia)) as (u & p & q & ->).
    rewrite !removelast_last, !last_last in *. rewrite !zsum_snoc in D1.
    apply Forall_app in D2 as [D2 Dq]. apply Forall_app in D2 as [Du Dp].
    inversion Dq as [|? ? Hq _]. inversion Dp as [|? ? Hp _]. subst.
    rewrite zsum_snoc. repeat split; [lia | apply Forall_snoc; [exact Du | lia] | apply snoc_neq_nil |].
    intros _ Hm. destruct u as [|u0 u']; [left; reflexivity | right].
    destruct (D4 Hm) as [D5|D5]; [rewrite !zlen_app, zlen_cons in D5; pose proof (zlen_nonneg u'); cbn in D5; lia|].
    split; [exact D5 | lia].
  - repeat split; try assumption. intros _ Hm. destruct (D4 Hm) as [D5|D5]; [left; exact D5|].
    apply andb_false_iff in E3 as [E3|E3]; [left | right; split; [exact D5 | lia]].
    destruct c2 as [|z0 c2']; [congruence|]. rewrite zlen_cons in *. pose proof (zlen_nonneg c2'). lia.
Qed.

(* the (lo, hi) bounds in P of the overlapped block j of nb: its own extent [a, a + c) widened
   by what _trim later removes: front = 0 for the first block of a "none" axis else ld,
   back = 0 for the last block of a "none" axis else rd *)
Definition fr (j ld : Z) (bnone : bool) : Z := if (j =? 0) && bnone then 0 else ld.
Definition bk (j nb rd : Z) (bnone : bool) : Z := if (j =? nb - 1) && bnone then 0 else rd.

Fixpoint trim_bounds (cs : list Z) (a j nb ld rd : Z) (bnone : bool) : list (Z * Z) :=
  match cs with
  | [] => []
  | c :: t => (a - fr j ld bnone, a + c + bk j nb rd bnone) :: trim_bounds t (a + c) (j + 1) nb ld rd bnone
  end.

(* the part of P between a pair of bounds *)
Definition pys {A} (P : list A) (lh : Z * Z) : list A := pyslice P (fst lh) (snd lh).

Lemma pys_pair {A} (P : list A) lo hi : pys P (lo, hi) = pyslice P lo hi.
Proof. reflexivity. Qed.

Lemma trim_block_fr_bk {A} (x : list A) j nb ld rd bnone :
  trim_block x j nb ld rd bnone = pyslice x (fr j ld bnone) (zlen x - bk j nb rd bnone).
Proof. reflexivity. Qed.

Lemma fr_first ld : fr 0 ld true = 0.
Proof. reflexivity. Qed.
Lemma fr_later j ld b : j <> 0 -> fr j ld b = ld.
Proof. intros H. unfold fr. rewrite (proj2 (Z.eqb_neq j 0) H). reflexivity. Qed.
Lemma fr_bounded j ld : fr j ld false = ld.
Proof. unfold fr. rewrite andb_false_r. reflexivity. Qed.
Lemma fr_bounds j ld b : 0 <= ld -> 0 <= fr j ld b <= ld.
Proof. intros H. unfold fr. destruct ((j =? 0) && b); lia. Qed.
Lemma bk_last j nb rd : j = nb - 1 -> bk j nb rd true = 0.
Proof. intros ->. unfold bk. rewrite Z.eqb_refl. reflexivity. Qed.
Lemma bk_earlier j nb rd b : j <> nb - 1 -> bk j nb rd b = rd.
Proof. intros H. unfold bk. rewrite (proj2 (Z.eqb_neq j (nb - 1)) H). reflexivity. Qed.
Lemma bk_bounded j nb rd : bk j nb rd false = rd.
Proof. unfold bk. rewrite andb_false_r. reflexivity. Qed.
Lemma bk_bounds j nb rd b : 0 <= rd -> 0 <= bk j nb rd b <= rd.
Proof. intros H. unfold bk. destruct ((j =? nb - 1) && b); lia. Qed.

Lemma lastn_pyslice {A} (P : list A) a b d :
  0 <= a -> 0 <= d -> a + d <= b -> b <= zlen P -> lastn d (pyslice P a b) = pyslice P (b - d) b.
Proof.
  intros Ha Hd Hab Hb. unfold lastn.
  pose proof (pyslice_length P a b Ha ltac:(lia) Hb) as HL. unfold zlen in HL.
  replace (length (pyslice P a b) - Z.to_nat d)%nat with (Z.to_nat (b - a - d)) by lia.
  rewrite skipn_pyslice by lia. f_equal. lia.
Qed.

Lemma split_blocks_skipn_cons {A} c t (P : list A) a :
  0 <= a -> 0 <= c ->
  split_blocks (c :: t) (skipn (Z.to_nat a) P) = pyslice P a (a + c) :: split_blocks t (skipn (Z.to_nat (a + c)) P).
Proof.
  intros Ha Hc. cbn [split_blocks]. f_equal.
  - unfold pyslice. do 2 f_equal. lia.
  - rewrite skipn_skipn. do 2 f_equal. lia.
Qed.

(* OverlapInternal on blocks that are all at least as long as the depths; `prev` has supplied
   the left ghost cells of the block at a *)
Lemma overlap_internal_loop_spec {A} (P : list A) ld rd D :
  0 <= ld <= D -> 0 <= rd <= D ->
  forall cs a j nb prev,
    Forall (fun c => D <= c) cs -> a + zsum cs <= zlen P -> 0 <= j -> j + zlen cs = nb ->
    fr j ld true <= a ->
    match prev with None => [] | Some p => lastn ld p end = pyslice P (a - fr j ld true) a ->
    overlap_internal_loop prev (split_blocks cs (skipn (Z.to_nat a) P)) ld rd =
    map (pys P) (trim_bounds cs a j nb ld rd true).
Proof.
  intros Hld Hrd. induction cs as [|c t IH]; intros a j nb prev HD Hfit Hj Hnb Ha Hprev; [reflexivity|].
  inversion HD as [|c' t' Hc Ht]; subst c' t'. cbn [zsum] in Hfit. rewrite zlen_cons in Hnb.
  pose proof (zsum_nonneg_ge D t ltac:(lia) Ht) as Hzt.
  pose proof (fr_bounds j ld true ltac:(lia)) as Hfr. pose proof (bk_bounds j nb rd true ltac:(lia)) as Hbk.
  rewrite split_blocks_skipn_cons by lia.
  cbn [overlap_internal_loop trim_bounds map]. f_equal.
  - rewrite pys_pair, Hprev.
    (* the right ghost cells: the head of the next block, if there is one *)
    assert (ER : match split_blocks t (skipn (Z.to_nat (a + c)) P) with [] => [] | nb0 :: _ => firstn (Z.to_nat rd) nb0 end
                 = pyslice P (a + c) (a + c + bk j nb rd true)).
    { destruct t as [|c2 t2].
      - change (zlen (@nil Z)) with 0 in Hnb. rewrite bk_last by lia. symmetry. apply pyslice_empty. lia.
      - assert (Hc2 : D <= c2) by (inversion Ht; assumption). rewrite split_blocks_skipn_cons by lia.
        rewrite zlen_cons in Hnb. pose proof (zlen_nonneg t2). rewrite bk_earlier by lia.
        apply firstn_pyslice; lia. }
    rewrite ER, <- !pyslice_app by lia. reflexivity.
  - apply IH; [exact Ht | lia | lia | lia | |]; rewrite fr_later by lia; [lia | apply lastn_pyslice; lia].
Qed.

Lemma overlap_internal_spec {A} (P : list A) cs ld rd D :
  0 <= ld <= D -> 0 <= rd <= D -> Forall (fun c => D <= c) cs -> zsum cs <= zlen P ->
  overlap_internal (split_blocks cs P) ld rd = map (pys P) (trim_bounds cs 0 0 (zlen cs) ld rd true).
Proof.
  intros Hld Hrd HD Hfit. unfold overlap_internal.
  change P with (skipn (Z.to_nat 0) P) at 1.
  apply (overlap_internal_loop_spec P ld rd D Hld Hrd cs 0 0 (zlen cs) None HD); reflexivity || lia.
Qed.

(* trimming such blocks gives back the plain blocks *)
Lemma trim_loop_bounds {A} (P : list A) ld rd bnone nb :
  0 <= ld -> 0 <= rd ->
  forall cs a j,
    Forall (fun c => 0 <= c) cs ->
    Forall (fun lh => 0 <= fst lh /\ snd lh <= zlen P) (trim_bounds cs a j nb ld rd bnone) ->
    trim_loop (map (pys P) (trim_bounds cs a j nb ld rd bnone)) j nb ld rd bnone =
    split_blocks cs (skipn (Z.to_nat a) P).
Proof.
  intros Hld Hrd. induction cs as [|c t IH]; intros a j Hnn Hin; [reflexivity|].
  inversion Hnn as [|? ? Hc Ht]; subst. cbn [trim_bounds] in Hin. inversion Hin as [|? ? [H1 H2] Hin']; subst.
  cbn [fst snd] in H1, H2.
  pose proof (fr_bounds j ld bnone Hld) as Hfr. pose proof (bk_bounds j nb rd bnone Hrd) as Hbk.
  rewrite split_blocks_skipn_cons by lia.
  cbn [trim_bounds map trim_loop]. f_equal; [|apply IH; assumption].
  rewrite trim_block_fr_bk, pys_pair, pyslice_length by lia.
  rewrite pyslice_pyslice by lia. f_equal; lia.
Qed.

Lemma trim_bounds_length cs : forall a j nb ld rd bnone, length (trim_bounds cs a j nb ld rd bnone) = length cs.
Proof. induction cs as [|c t IH]; intros; cbn; [reflexivity|]. rewrite IH. reflexivity. Qed.

Lemma trim_bounds_app cs1 cs2 : forall a j nb ld rd bnone,
  trim_bounds (cs1 ++ cs2) a j nb ld rd bnone =
  trim_bounds cs1 a j nb ld rd bnone ++ trim_bounds cs2 (a + zsum cs1) (j + zlen cs1) nb ld rd bnone.
Proof.
  induction cs1 as [|c t IH]; intros a j nb ld rd bnone.
  - cbn [app trim_bounds zsum]. change (zlen (@nil Z)) with 0. rewrite !Z.add_0_r. reflexivity.
  - cbn [app trim_bounds zsum]. rewrite IH, zlen_cons. do 2 f_equal; f_equal; lia.
Qed.

(* interior blocks of a "none" axis are widened like the blocks of a bounded axis *)
Lemma trim_bounds_interior cs : forall a j nb j' nb' ld rd,
  0 < j -> j + zlen cs < nb ->
  trim_bounds cs a j nb ld rd true = trim_bounds cs a j' nb' ld rd false.
Proof.
  induction cs as [|c t IH]; intros a j nb j' nb' ld rd Hj Hnb; [reflexivity|].
  rewrite zlen_cons in Hnb. pose proof (zlen_nonneg t).
  cbn [trim_bounds]. f_equal; [|apply IH; lia].
  rewrite fr_later, bk_earlier, fr_bounded, bk_bounded by lia. reflexivity.
Qed.

Lemma trim_bounds_depth0 cs : forall a j nb j' nb' b b',
  trim_bounds cs a j nb 0 0 b = trim_bounds cs a j' nb' 0 0 b'.
Proof.
  induction cs as [|c t IH]; intros; [reflexivity|]. cbn [trim_bounds]. f_equal; [|apply IH].
  unfold fr, bk. destruct ((j =? 0) && b), ((j' =? 0) && b'), ((j =? nb - 1) && b), ((j' =? nb' - 1) && b'); reflexivity.
Qed.

(* the bounds stay inside P when the last block is followed by rd more elements (bounded axis)
   or by the end of the array ("none") *)
Lemma trim_bounds_inb {A} (P : list A) ld rd D bnone nb :
  0 <= ld <= D -> 0 <= rd <= D ->
  forall cs a j,
    Forall (fun c => D <= c) cs -> fr j ld bnone <= a ->
    a + zsum cs + (if bnone then 0 else rd) <= zlen P -> 0 <= j -> j + zlen cs = nb ->
    Forall (fun lh => 0 <= fst lh /\ snd lh <= zlen P) (trim_bounds cs a j nb ld rd bnone).
Proof.
  intros Hld Hrd. induction cs as [|c t IH]; intros a j HD Ha Hfit Hj Hnb; [constructor|].
  inversion HD as [|c' t' Hc Ht]; subst c' t'. cbn [zsum] in Hfit. rewrite zlen_cons in Hnb.
  pose proof (zsum_nonneg_ge D t ltac:(lia) Ht) as Hzt.
  pose proof (fr_bounds j ld bnone ltac:(lia)) as Hfr. pose proof (bk_bounds j nb rd bnone ltac:(lia)) as Hbk.
  cbn [trim_bounds]. constructor.
  - cbn [fst snd]. split; [lia|].
    destruct t as [|c2 t2].
    + change (zlen (@nil Z)) with 0 in Hnb. cbn [zsum] in Hfit.
      destruct bnone; [rewrite bk_last by lia | rewrite bk_bounded]; lia.
    + inversion Ht as [|c2' t2' Hc2 Ht2]; subst c2' t2'. cbn [zsum] in Hfit, Hzt.
      pose proof (zsum_nonneg_ge D t2 ltac:(lia) Ht2).
      destruct bnone; lia.
  - pose proof (fr_bounds (j + 1) ld bnone ltac:(lia)). apply IH; [exact Ht | lia | lia | lia | lia].
Qed.

(* a layout that fits into l1 splits l1 ++ l2 as it splits l1; what it leaves of l1 goes on with l2 *)
Lemma split_blocks_app_le {A} cs1 cs2 : forall (l1 l2 : list A),
  Forall (fun c => 0 <= c) cs1 -> zsum cs1 <= zlen l1 ->
  split_blocks (cs1 ++ cs2) (l1 ++ l2) =
  split_blocks cs1 l1 ++ split_blocks cs2 (skipn (Z.to_nat (zsum cs1)) l1 ++ l2).
Proof.
  induction cs1 as [|c t IH]; intros l1 l2 Hnn Hs; [reflexivity|].
  inversion Hnn as [|? ? Hc Ht]; subst. cbn [zsum] in *. cbn [app split_blocks].
  pose proof (zsum_nonneg t Ht). unfold zlen in Hs.
  rewrite firstn_app, skipn_app. replace (Z.to_nat c - length l1)%nat with 0%nat by lia.
  cbn [firstn skipn]. rewrite app_nil_r, IH by (try exact Ht; unfold zlen; rewrite skipn_length; lia).
  rewrite skipn_skipn, <- Z2Nat.inj_add by assumption. reflexivity.
Qed.

Lemma split_blocks_app {A} cs1 cs2 (l1 l2 : list A) :
  Forall (fun c => 0 <= c) cs1 -> zsum cs1 = zlen l1 ->
  split_blocks (cs1 ++ cs2) (l1 ++ l2) = split_blocks cs1 l1 ++ split_blocks cs2 l2.
Proof.
  intros Hnn Hs. rewrite split_blocks_app_le by (assumption || lia).
  rewrite skipn_all2 by (unfold zlen in Hs; lia). reflexivity.
Qed.

(* what lies behind the layout is not looked at *)
Lemma split_blocks_app_first {A} cs (xs q : list A) :
  Forall (fun c => 0 <= c) cs -> zsum cs <= zlen xs ->
  split_blocks cs (xs ++ q) = split_blocks cs xs.
Proof.
  intros Hnn Hs. rewrite <- (app_nil_r cs) at 1. rewrite split_blocks_app_le by assumption. apply app_nil_r.
Qed.

Lemma lastn_length {A} (l : list A) d : 0 <= d <= zlen l -> zlen (lastn d l) = d.
Proof. unfold lastn, zlen. intros H. rewrite skipn_length. lia. Qed.

Lemma pad_left_length {A} (k : bkind A) d x :
  is_none k = false -> 0 < d <= zlen x -> zlen (pad_left k d x) = d.
Proof.
  intros Hk Hd. destruct k; try discriminate; cbn [pad_left].
  - apply lastn_length. lia.
  - unfold zlen in *. rewrite rev_length, firstn_length. lia.
  - destruct x as [|x0 x']; [unfold zlen in Hd; cbn in Hd; lia|]. unfold zlen. rewrite repeat_length. lia.
  - unfold zlen. rewrite repeat_length. lia.
Qed.

Lemma pad_right_length {A} (k : bkind A) d x :
  is_none k = false -> 0 < d <= zlen x -> zlen (pad_right k d x) = d.
Proof.
  intros Hk Hd. destruct k; try discriminate; cbn [pad_right].
  - unfold zlen in *. rewrite firstn_length. lia.
  - unfold zlen. rewrite rev_length. apply lastn_length. lia.
  - destruct x as [|x0 x']; [unfold zlen in Hd; cbn in Hd; lia|]. unfold zlen. rewrite repeat_length. lia.
  - unfold zlen. rewrite repeat_length. lia.
Qed.

Lemma pad_none {A} d (xs : list A) : pad BNone d xs = xs.
Proof. unfold pad. destruct (d =? 0); [reflexivity | apply app_nil_r]. Qed.

Lemma boundaries_blocks_bounded {A} (k : bkind A) d blocks :
  is_none k = false -> d <> 0 ->
  boundaries_blocks k d blocks = [pad_left k d (concat blocks)] ++ blocks ++ [pad_right k d (concat blocks)].
Proof.
  intros Hk Hd. unfold boundaries_blocks. rewrite (proj2 (Z.eqb_neq d 0) Hd). destruct k; [discriminate | reflexivity ..].
Qed.

(* where the array starts inside the padded array: ld on a bounded axis, 0 on a "none" axis *)
Definition ov_off {A} (k : bkind A) (ld : Z) : Z := if is_none k then 0 else ld.

Lemma ov_off_none {A} ld : @ov_off A BNone ld = 0.
Proof. reflexivity. Qed.

Lemma ov_off_bounded {A} (k : bkind A) ld : is_none k = false -> ov_off k ld = ld.
Proof. intros H. unfold ov_off. rewrite H. reflexivity. Qed.

(* C19_overlap_blocks: every overlapped block is the block of the rechunked layout, widened by the
   depths, cut out of the padded array *)
Theorem overlap_spec {A} (blocks : list (list A)) ld rd (k : bkind A) ov :
  0 <= ld -> 0 <= rd -> (is_none k = false -> ld = rd) ->
  overlap blocks ld rd k = Some ov ->
  exists cs,
    overlap_rechunked_chunks (map zlen blocks) ld rd (is_none k) = Some cs /\
    zsum cs = zlen (concat blocks) /\ Forall (fun c => Z.max ld rd <= c) cs /\ cs <> [] /\
    ov = map (pys (pad k ld (concat blocks)))
             (trim_bounds cs (ov_off k ld) 0 (zlen cs) ld rd (is_none k)).
Proof.
  intros Hld Hrd Hsym. unfold overlap.
  destruct (overlap_rechunked_chunks (map zlen blocks) ld rd (is_none k)) as [cs|] eqn:Ecs; [|discriminate].
  destruct (overlap_rechunked_chunks_contract _ _ _ _ _ (Forall_zlen_nonneg blocks) Hld Hrd Ecs) as (C1 & C2 & C3 & _).
  rewrite zsum_map_zlen in C1. set (xs := concat blocks) in *.
  pose proof (Forall_ge_le (Z.max ld rd) 0 cs ltac:(lia) C2) as Hnn.
  intros H. exists cs. split; [reflexivity|]. split; [exact C1|]. split; [exact C2|]. split; [exact C3|].
  unfold ov_off. destruct (is_none k) eqn:Ek.
  - (* boundary "none" *)
    injection H as <-. destruct k; try discriminate. rewrite pad_none.
    apply (overlap_internal_spec xs cs ld rd (Z.max ld rd)); [lia | lia | exact C2 | lia].
  - specialize (Hsym eq_refl). subst rd.
    destruct (Z.eqb_spec ld 0) as [E0|E0].
    + (* depth 0: nothing is added *)
      injection H as <-. subst ld. unfold boundaries_blocks, pad. cbn [Z.eqb].
      rewrite (overlap_internal_spec xs cs 0 0 (Z.max 0 0)) by (lia || assumption).
      f_equal. apply trim_bounds_depth0.
    + (* the strips are two more blocks, dropped again after the exchange of ghost cells *)
      injection H as <-.
      assert (Hd : 0 < ld <= zlen xs) by (pose proof (zsum_ge_chunk cs (Z.max ld ld) C3 ltac:(lia) C2); lia).
      pose proof (pad_left_length k ld xs Ek Hd) as HL. pose proof (pad_right_length k ld xs Ek Hd) as HR.
      unfold pad. rewrite (proj2 (Z.eqb_neq ld 0) E0).
      rewrite boundaries_blocks_bounded, concat_split_blocks by (assumption || lia).
      set (pl := pad_left k ld xs) in *. set (pr := pad_right k ld xs) in *.
      assert (EB : [pl] ++ split_blocks cs xs ++ [pr] = split_blocks ((ld :: cs) ++ [ld]) (pl ++ xs ++ pr)).
      { change ((ld :: cs) ++ [ld]) with ([ld] ++ (cs ++ [ld])).
        rewrite (split_blocks_app [ld] (cs ++ [ld]) pl (xs ++ pr)) by (repeat constructor; cbn [zsum]; lia).
        rewrite (split_blocks_app cs [ld] xs pr) by (assumption || lia).
        cbn [split_blocks]. unfold zlen in HL, HR.
        rewrite (firstn_all2 pl), (firstn_all2 pr) by lia. reflexivity. }
      rewrite EB.
      assert (HD2 : Forall (fun c => Z.max ld ld <= c) ((ld :: cs) ++ [ld])).
      { apply Forall_app. split; [constructor; [lia | exact C2] | constructor; [lia | constructor]]. }
      rewrite (overlap_internal_spec (pl ++ xs ++ pr) ((ld :: cs) ++ [ld]) ld ld (Z.max ld ld)); [| lia | lia | exact HD2 |].
      2:{ rewrite zsum_snoc. cbn [zsum]. rewrite !zlen_app. lia. }
      change ((ld :: cs) ++ [ld]) with (ld :: (cs ++ [ld])).
      cbn [trim_bounds map]. unfold drop_edge_blocks. cbn [tl].
      rewrite trim_bounds_app, map_app. cbn [trim_bounds map].
      rewrite removelast_last. f_equal.
      rewrite Z.add_0_l. apply trim_bounds_interior; [lia|].
      rewrite zlen_cons, zlen_app. change (zlen [ld]) with 1. lia.
Qed.

(* boundary "none": nothing is padded *)
Lemma overlap_none_spec {A} (blocks : list (list A)) ld rd ov :
  0 <= ld -> 0 <= rd -> overlap blocks ld rd BNone = Some ov ->
  exists cs,
    overlap_rechunked_chunks (map zlen blocks) ld rd true = Some cs /\
    zsum cs = zlen (concat blocks) /\ Forall (fun c => Z.max ld rd <= c) cs /\ cs <> [] /\
    ov = map (pys (concat blocks)) (trim_bounds cs 0 0 (zlen cs) ld rd true).
Proof.
  intros Hld Hrd Hov. pose proof (overlap_spec blocks ld rd BNone ov Hld Hrd ltac:(discriminate) Hov) as H.
  rewrite pad_none, ov_off_none in H. exact H.
Qed.

Lemma pad_shape {A} (k : bkind A) ld (xs : list A) :
  0 <= ld -> (is_none k = false -> ld <= zlen xs) ->
  exists pl pr, pad k ld xs = pl ++ xs ++ pr /\ zlen pl = ov_off k ld /\ zlen pr = ov_off k ld.
Proof.
  intros Hld Hfit. unfold pad, ov_off. destruct (ld =? 0) eqn:E0.
  - exists [], []. rewrite app_nil_r. split; [reflexivity|]. destruct (is_none k); split; reflexivity || (change (zlen (@nil A)) with 0; lia).
  - destruct (is_none k) eqn:Ek.
    + exists [], []. destruct k; try discriminate. cbn. split; [reflexivity|]. split; reflexivity.
    + exists (pad_left k ld xs), (pad_right k ld xs). split; [reflexivity|].
      specialize (Hfit eq_refl). split; [apply pad_left_length | apply pad_right_length]; (exact Ek || lia).
Qed.

Lemma pad_length {A} (k : bkind A) d (xs : list A) :
  is_none k = false -> 0 <= d <= zlen xs -> zlen (pad k d xs) = d + zlen xs + d.
Proof.
  intros Hk Hd. destruct (pad_shape k d xs ltac:(lia) ltac:(intros; lia)) as (pl & pr & -> & HL & HR).
  rewrite (ov_off_bounded k d Hk) in HL, HR. rewrite !zlen_app. lia.
Qed.

(* the windows of overlap_spec lie inside the padded array *)
Lemma overlap_bounds_inb {A} (k : bkind A) ld rd cs (xs : list A) :
  0 <= ld -> 0 <= rd -> (is_none k = false -> ld = rd) ->
  Forall (fun c => Z.max ld rd <= c) cs -> cs <> [] -> zsum cs = zlen xs ->
  Forall (fun lh => 0 <= fst lh /\ snd lh <= zlen (pad k ld xs))
         (trim_bounds cs (ov_off k ld) 0 (zlen cs) ld rd (is_none k)).
Proof.
  intros Hld Hrd Hsym HD Hne Hs.
  pose proof (Forall_ge_le (Z.max ld rd) 0 cs ltac:(lia) HD) as Hnn.
  pose proof (zsum_ge_chunk cs (Z.max ld rd) Hne ltac:(lia) HD) as Hfit.
  destruct (pad_shape k ld xs Hld ltac:(intros; lia)) as (pl & pr & EP & HL & HR).
  apply (trim_bounds_inb _ ld rd (Z.max ld rd)); [lia | lia | exact HD | | | lia | lia].
  - unfold fr, ov_off. destruct (is_none k); cbn; lia.
  - rewrite EP, !zlen_app, HL, HR. unfold ov_off. destruct (is_none k) eqn:Ek; [lia|]. specialize (Hsym eq_refl). lia.
Qed.

(* C19_overlap_trim_id: trimming the overlapped blocks gives back the rechunked blocks of the array,
   every boundary kind and every depth *)
Theorem overlap_trim_id {A} (blocks : list (list A)) ld rd (k : bkind A) ov :
  0 <= ld -> 0 <= rd -> (is_none k = false -> ld = rd) ->
  overlap blocks ld rd k = Some ov ->
  exists cs,
    overlap_rechunked_chunks (map zlen blocks) ld rd (is_none k) = Some cs /\
    trim_internal ov ld rd (is_none k) = split_blocks cs (concat blocks) /\
    concat (trim_internal ov ld rd (is_none k)) = concat blocks /\
    map zlen ov = map (fun lh => snd lh - fst lh) (trim_bounds cs (ov_off k ld) 0 (zlen cs) ld rd (is_none k)).
Proof.
  intros Hld Hrd Hsym Hov.
  destruct (overlap_spec blocks ld rd k ov Hld Hrd Hsym Hov) as (cs & Ecs & Hsum & Hmin & Hcs & Eblk).
  exists cs. split; [exact Ecs|].
  set (xs := concat blocks) in *.
  pose proof (Forall_ge_le (Z.max ld rd) 0 cs ltac:(lia) Hmin) as Hnn.
  pose proof (overlap_bounds_inb k ld rd cs xs Hld Hrd Hsym Hmin Hcs Hsum) as Hinb.
  destruct (pad_shape k ld xs Hld ltac:(intros; pose proof (zsum_ge_chunk cs (Z.max ld rd) Hcs ltac:(lia) Hmin); lia)) as (pl & pr & EP & HL & HR).
  set (P := pad k ld xs) in *.
  assert (Etrim : trim_internal ov ld rd (is_none k) = split_blocks cs xs).
  { assert (Hlen : zlen ov = zlen cs) by (rewrite Eblk; unfold zlen; rewrite map_length, trim_bounds_length; reflexivity).
    unfold trim_internal. rewrite Hlen, Eblk.
    rewrite (trim_loop_bounds P ld rd (is_none k) (zlen cs) Hld Hrd cs (ov_off k ld) 0 Hnn Hinb).
    rewrite EP. rewrite <- HL. unfold zlen at 1. rewrite Nat2Z.id.
    rewrite skipn_app, skipn_all, Nat.sub_diag. cbn [app skipn].
    apply split_blocks_app_first; [exact Hnn | lia]. }
  split; [exact Etrim|]. split; [rewrite Etrim; apply concat_split_blocks; assumption|].
  rewrite Eblk, map_map. apply map_ext_in. intros [lo hi] Hin. rewrite Forall_forall in Hinb. specialize (Hinb _ Hin).
  cbn [fst snd] in *. rewrite pys_pair.
  destruct (Z_le_gt_dec lo hi) as [Hle|Hgt]; [apply pyslice_length; lia|].
  (* bounds are never inverted: hi - lo = c + fr + bk >= 0 *)
  exfalso. clear - Hin Hgt Hnn Hld Hrd.
  revert Hin. generalize (ov_off k ld) as a. generalize 0 as j. generalize (zlen cs) as nb.
  induction cs as [|c t IH]; intros nb j a Hin; [destruct Hin|].
  inversion Hnn as [|? ? Hc Ht]; subst. cbn [trim_bounds] in Hin. destruct Hin as [Hin|Hin]; [|eapply IH; [exact Ht | exact Hin]].
  injection Hin as <- <-. pose proof (fr_bounds j ld (is_none k) Hld). pose proof (bk_bounds j nb rd (is_none k) Hrd). lia.
Qed.

Section Stencil.
  Context {A B : Type}.
  Variable r : nat.
  Variable g : list A -> B.
  Variable F : list A -> list B.
  Hypothesis HF : is_stencil r g F.

  (* the stencil value at position p of the padded array P *)
  Definition sval (P : list A) (p : Z) : B := g (pyslice P (p - Z.of_nat r) (p + Z.of_nat r + 1)).

  Lemma F_length l : zlen (F l) = zlen l.
  Proof. unfold zlen. destruct (HF l) as [H _]. rewrite H. reflexivity. Qed.

  (* one overlapped block P[lo:hi], trimmed by f in front and b behind: at least r away from the
     ends of the block F sees the window the global stencil sees *)
  Lemma stencil_block (P : list A) lo hi f b (t : nat) :
    0 <= lo -> hi <= zlen P -> 0 <= f ->
    Z.of_nat r <= f + Z.of_nat t -> f + Z.of_nat t + Z.of_nat r < hi - lo -> Z.of_nat t < hi - lo - f - b ->
    nth_error (pyslice (F (pyslice P lo hi)) f (zlen (F (pyslice P lo hi)) - b)) t
    = Some (sval P (lo + f + Z.of_nat t)).
  Proof.
    intros Hlo Hhi Hf Hl Hu Ht. set (ovb := pyslice P lo hi).
    assert (Lov : zlen ovb = hi - lo) by (unfold ovb; rewrite pyslice_length; lia).
    rewrite nth_error_pyslice by (rewrite ?F_length; lia).
    destruct (HF ovb) as [_ HFp]. unfold zlen in Lov.
    rewrite HFp by lia. f_equal. unfold sval. f_equal. unfold ovb.
    replace (Z.to_nat f + t - r)%nat with (Z.to_nat (f + Z.of_nat t - Z.of_nat r)) by lia.
    rewrite skipn_pyslice by lia.
    replace (2 * r + 1)%nat with (Z.to_nat (2 * Z.of_nat r + 1)) by lia.
    rewrite firstn_pyslice by lia. f_equal; lia.
  Qed.

  Lemma trim_map_lengths (P : list A) ld rd bnone nb :
    0 <= ld -> 0 <= rd ->
    forall cs a j,
      Forall (fun c => 0 <= c) cs ->
      Forall (fun lh => 0 <= fst lh /\ snd lh <= zlen P) (trim_bounds cs a j nb ld rd bnone) ->
      map zlen (trim_loop (map F (map (pys P) (trim_bounds cs a j nb ld rd bnone))) j nb ld rd bnone) = cs.
  Proof.
    intros Hld Hrd. induction cs as [|c t IH]; intros a j Hnn Hin; [reflexivity|].
    inversion Hnn as [|c' t' Hc Ht]; subst c' t'. cbn [trim_bounds] in Hin. inversion Hin as [|x y [H1 H2] Hin']; subst x y.
    cbn [fst snd] in H1, H2.
    pose proof (fr_bounds j ld bnone Hld) as Hfr. pose proof (bk_bounds j nb rd bnone Hrd) as Hbk.
    cbn [trim_bounds map trim_loop]. f_equal; [|apply IH; assumption].
    rewrite trim_block_fr_bk, pys_pair, pyslice_length; rewrite ?F_length, ?pyslice_length; lia.
  Qed.

  (* on a "none" axis the first block has no front halo and the last none behind: there p must keep
     its distance r from the end of the array itself *)
  Lemma stencil_pointwise (P : list A) ld rd bnone nb :
    Z.of_nat r <= ld -> Z.of_nat r <= rd ->
    forall cs a j,
      Forall (fun c => 0 <= c) cs ->
      Forall (fun lh => 0 <= fst lh /\ snd lh <= zlen P) (trim_bounds cs a j nb ld rd bnone) ->
      0 <= j -> j + zlen cs = nb ->
      forall p, a <= p < a + zsum cs ->
        (j = 0 -> bnone = true -> a + Z.of_nat r <= p) -> (bnone = true -> p + Z.of_nat r < a + zsum cs) ->
        nth_error (concat (trim_loop (map F (map (pys P) (trim_bounds cs a j nb ld rd bnone))) j nb ld rd bnone))
                  (Z.to_nat (p - a)) = Some (sval P p).
  Proof.
    intros Hr1 Hr2. induction cs as [|c t IH]; intros a j Hnn Hin Hj Hnb p Hp Hfirst Hlast; [cbn [zsum] in Hp; lia|].
    inversion Hnn as [|c' t' Hc Ht]; subst c' t'.
    pose proof (trim_map_lengths P ld rd bnone nb ltac:(lia) ltac:(lia) (c :: t) a j Hnn Hin) as HLs.
    cbn [trim_bounds] in Hin. inversion Hin as [|x y [H1 H2] Hin']; subst x y. cbn [fst snd] in H1, H2.
    cbn [zsum] in Hp, Hlast. rewrite zlen_cons in Hnb. pose proof (zlen_nonneg t) as Hzl.
    assert (Hzt : 0 <= zsum t) by (apply zsum_nonneg; exact Ht).
    cbn [trim_bounds map trim_loop concat] in *. injection HLs as HL1 _.
    apply (f_equal Z.to_nat) in HL1. unfold zlen in HL1. rewrite Nat2Z.id in HL1.
    destruct (Z_lt_ge_dec p (a + c)) as [Hlt|Hge].
    - rewrite nth_error_app1 by lia. clear IH Hin' HL1.
      rewrite trim_block_fr_bk, pys_pair.
      pose proof (fr_bounds j ld bnone ltac:(lia)) as Hfr. pose proof (bk_bounds j nb rd bnone ltac:(lia)) as Hbk.
      replace p with (a - fr j ld bnone + fr j ld bnone + Z.of_nat (Z.to_nat (p - a))) at 2 by lia.
      apply stencil_block; try lia.
      + unfold fr in *. destruct (Z.eqb_spec j 0) as [E|E]; destruct bnone; cbn [andb] in *; lia.
      + unfold bk in *. destruct (Z.eqb_spec j (nb - 1)) as [E|E]; destruct bnone; cbn [andb] in *; try lia.
        (* the last block of a "none" axis *)
        specialize (Hlast eq_refl). destruct t as [|c2 t2]; [cbn [zsum] in Hlast; lia | rewrite zlen_cons in Hnb; pose proof (zlen_nonneg t2); lia].
    - rewrite nth_error_app2 by lia. rewrite HL1.
      replace (Z.to_nat (p - a) - Z.to_nat c)%nat with (Z.to_nat (p - (a + c))) by lia.
      apply IH; try assumption; try lia. intros Hb. specialize (Hlast Hb). lia.
  Qed.

  (* the common core: block layout of the result and its value at every (interior) position *)
  Lemma map_overlap_pointwise (blocks : list (list A)) ld rd (k : bkind A) res :
    Z.of_nat r <= ld -> Z.of_nat r <= rd -> (is_none k = false -> ld = rd) ->
    map_overlap F blocks ld rd k = Some res ->
    exists cs,
      overlap_rechunked_chunks (map zlen blocks) ld rd (is_none k) = Some cs /\
      map zlen res = cs /\ zsum cs = zlen (concat blocks) /\ Z.max ld rd <= zlen (concat blocks) /\
      forall p, 0 <= p < zlen (concat blocks) ->
        (is_none k = true -> Z.of_nat r <= p /\ p + Z.of_nat r < zlen (concat blocks)) ->
        nth_error (concat res) (Z.to_nat p) = Some (sval (pad k ld (concat blocks)) (ov_off k ld + p)).
  Proof.
    intros Hr1 Hr2 Hsym. unfold map_overlap.
    destruct (overlap blocks ld rd k) as [ov|] eqn:Hov; [|discriminate]. intros H. injection H as <-.
    assert (Hld : 0 <= ld) by lia. assert (Hrd : 0 <= rd) by lia.
    destruct (overlap_spec blocks ld rd k ov Hld Hrd Hsym Hov) as (cs & Ecs & Hsum & Hmin & Hcs & Eblk).
    exists cs. split; [exact Ecs|].
    set (xs := concat blocks) in *.
    pose proof (Forall_ge_le (Z.max ld rd) 0 cs ltac:(lia) Hmin) as Hnn.
    pose proof (overlap_bounds_inb k ld rd cs xs Hld Hrd Hsym Hmin Hcs Hsum) as Hinb.
    set (P := pad k ld xs) in *.
    assert (Hlen : zlen (map F ov) = zlen cs) by (rewrite Eblk; unfold zlen; rewrite !map_length, trim_bounds_length; reflexivity).
    unfold trim_internal. rewrite Hlen, Eblk.
    split; [apply (trim_map_lengths P ld rd (is_none k) (zlen cs) Hld Hrd cs _ 0 Hnn Hinb)|].
    split; [exact Hsum|]. split; [rewrite <- Hsum; apply zsum_ge_chunk; [exact Hcs | lia | exact Hmin]|].
    intros p Hp Hint.
    replace (Z.to_nat p) with (Z.to_nat (ov_off k ld + p - ov_off k ld)) by (f_equal; lia).
    apply (stencil_pointwise P ld rd (is_none k) (zlen cs) Hr1 Hr2 cs (ov_off k ld) 0 Hnn Hinb); try lia.
    - intros _ Hk. specialize (Hint Hk). lia.
    - intros Hk. specialize (Hint Hk). lia.
  Qed.

  (* C19_map_overlap_stencil, boundary kinds periodic / reflect / nearest / constant *)
  Theorem map_overlap_stencil_bounded (blocks : list (list A)) d (k : bkind A) res :
    is_none k = false -> Z.of_nat r <= d ->
    map_overlap F blocks d d k = Some res ->
    let xs := concat blocks in
    concat res = stencil_valid r g (pyslice (pad k d xs) (d - Z.of_nat r) (d + zlen xs + Z.of_nat r)) /\
    overlap_rechunked_chunks (map zlen blocks) d d false = Some (map zlen res).
  Proof.
    intros Hk Hr Hmo xs.
    destruct (map_overlap_pointwise blocks d d k res Hr Hr ltac:(intros; reflexivity) Hmo) as (cs & E1 & E2 & E3 & Hfit & E4).
    fold xs in E3, E4, Hfit. rewrite Hk in E1. split; [|rewrite E2; exact E1].
    rewrite (ov_off_bounded k d Hk) in E4.
    assert (Hn : zlen (concat res) = zlen xs) by (rewrite <- zsum_map_zlen, E2; exact E3).
    pose proof (pad_length k d xs Hk ltac:(lia)) as HP. set (P := pad k d xs) in *.
    rewrite (list_eq_nth_error (concat res) (fun q => sval P (d + Z.of_nat q)) (Z.to_nat (zlen xs))).
    - unfold stencil_valid.
      assert (HLn : length (pyslice P (d - Z.of_nat r) (d + zlen xs + Z.of_nat r)) = (Z.to_nat (zlen xs) + 2 * r)%nat).
      { pose proof (pyslice_length P (d - Z.of_nat r) (d + zlen xs + Z.of_nat r) ltac:(lia) ltac:(pose proof (zlen_nonneg xs); lia) ltac:(lia)) as Hq.
        unfold zlen in Hq. unfold zlen. lia. }
      rewrite HLn. replace (Z.to_nat (zlen xs) + 2 * r - 2 * r)%nat with (Z.to_nat (zlen xs)) by lia.
      apply map_ext_in. intros q Hq. apply in_seq in Hq. unfold sval. f_equal.
      replace (skipn q) with (@skipn A (Z.to_nat (Z.of_nat q))) by (rewrite Nat2Z.id; reflexivity). rewrite skipn_pyslice by lia.
      replace (2 * r + 1)%nat with (Z.to_nat (2 * Z.of_nat r + 1)) by lia.
      rewrite firstn_pyslice by lia. f_equal; lia.
    - unfold zlen in Hn. unfold zlen. lia.
    - intros q Hq. rewrite <- (Nat2Z.id q) at 1. apply E4; [lia|]. intros Hc. congruence.
  Qed.

  (* C19_map_overlap_stencil_none: boundary "none", every position at least r from both ends *)
  Theorem map_overlap_stencil_none (blocks : list (list A)) ld rd res :
    Z.of_nat r <= ld -> Z.of_nat r <= rd ->
    map_overlap F blocks ld rd BNone = Some res ->
    let xs := concat blocks in
    zlen (concat res) = zlen xs /\
    pyslice (concat res) (Z.of_nat r) (zlen xs - Z.of_nat r) = stencil_valid r g xs /\
    overlap_rechunked_chunks (map zlen blocks) ld rd true = Some (map zlen res).
  Proof.
    intros Hr1 Hr2 Hmo xs.
    destruct (map_overlap_pointwise blocks ld rd BNone res Hr1 Hr2 ltac:(intros; discriminate) Hmo) as (cs & E1 & E2 & E3 & _ & E4).
    fold xs in E3, E4. cbn [is_none] in E1, E4.
    assert (Hn : zlen (concat res) = zlen xs) by (rewrite <- zsum_map_zlen, E2; exact E3).
    split; [exact Hn|]. split; [|rewrite E2; exact E1].
    rewrite pad_none, ov_off_none in E4.
    unfold stencil_valid.
    destruct (Z_le_gt_dec (zlen xs) (2 * Z.of_nat r)) as [Hs|Hs].
    - replace (length xs - 2 * r)%nat with 0%nat by (unfold zlen in Hs; lia). cbn [seq map]. apply pyslice_empty. lia.
    - rewrite (list_eq_nth_error (pyslice (concat res) (Z.of_nat r) (zlen xs - Z.of_nat r))
                                 (fun q => sval xs (Z.of_nat r + Z.of_nat q)) (length xs - 2 * r)).
      + apply map_ext_in. intros q Hq. apply in_seq in Hq. unfold sval. f_equal.
        unfold pyslice. replace (Z.to_nat (Z.of_nat r + Z.of_nat q - Z.of_nat r)) with q by lia. f_equal. lia.
      + pose proof (pyslice_length (concat res) (Z.of_nat r) (zlen xs - Z.of_nat r) ltac:(lia) ltac:(lia) ltac:(lia)) as HL.
        unfold zlen in HL. unfold zlen. lia.
      + intros q Hq. unfold zlen in Hs. rewrite nth_error_pyslice by (unfold zlen; lia).
        rewrite Nat2Z.id. replace (r + q)%nat with (Z.to_nat (Z.of_nat r + Z.of_nat q)) by lia.
        rewrite E4; [f_equal; f_equal; lia | unfold zlen; lia |]. intros _. unfold zlen. lia.
  Qed.
End Stencil.

(* the concrete stencil of the harness and of the Examples is a radius-r stencil *)
Lemma roll_stencil_is_stencil (r : nat) :
  is_stencil r (roll_stencil_g (Z.of_nat r)) (roll_stencil (Z.of_nat r)).
Proof.
  intros l. split; [unfold roll_stencil; rewrite map_length, seq_length; reflexivity|].
  intros t Hl Hu. unfold roll_stencil.
  set (f := fun t0 : nat => zsum (map (fun k => (k + Z.of_nat r + 1) * nthZ l ((Z.of_nat t0 - k) mod zlen l))
                                      (zrange (- Z.of_nat r) (Z.of_nat r + 1) 1))).
  rewrite (nth_error_nth' (map f (seq 0 (length l))) (f 0%nat)) by (rewrite map_length, seq_length; lia).
  rewrite map_nth, seq_nth by lia. cbn [Nat.add]. f_equal. unfold f, roll_stencil_g. f_equal.
  apply map_ext_in. intros k Hk.
  apply zrange_unit_In in Hk. f_equal. unfold zlen. rewrite Z.mod_small by lia.
  unfold nthZ. rewrite nth_firstn_lt by lia. rewrite nth_skipn_add. f_equal. lia.
Qed.
