(* Slicing distributes over element-wise operations WITH broadcasting: each operand is sliced by the entries of the index that fall on its own
   axes, with a full slice where the operand is stretched (size 1 against a larger result axis).
   NdArrayFacts has slicing through a broadcast for any per-axis choice of operand index ([bslices], [opshape]);
   here the choice is [bc_pick]. *)
From DA Require Import PyBase PyBaseFacts Slicing NormalizeFacts FuseFacts NdArray NdArrayFacts ProgSem ProgSemFacts ProgSemDen ProgSemLaws.
Open Scope Z_scope.

(* broadcasting position by position, an absent axis counting as 1 *)
Lemma rbshape_nth a : forall b k, nth k (rbshape a b) 1 = bdim (nth k a 1) (nth k b 1).
Proof.
  unfold bdim. induction a as [|x a IH]; intros b k.
  - cbn [rbshape]. destruct k; reflexivity.
  - destruct b as [|y b]; cbn [rbshape].
    + destruct (nth k (x :: a) 1 =? 1) eqn:E; [|destruct k; reflexivity]. destruct k; cbn [nth] in *; lia.
    + destruct k as [|k]; cbn [nth]; [reflexivity | apply IH].
Qed.

Lemma rbshape_length a : forall b, length (rbshape a b) = Nat.max (length a) (length b).
Proof.
  induction a as [|x a IH]; intros [|y b]; cbn [rbshape length]; try reflexivity. rewrite IH. reflexivity.
Qed.

Lemma rbcast_nth ra : forall ro, rbcast_intob ra ro = true <->
  (length ra <= length ro)%nat /\ forall k, (k < length ra)%nat -> nth k ra 1 = 1 \/ nth k ra 1 = nth k ro 1.
Proof.
  induction ra as [|n ra IH]; intros ro.
  - cbn [rbcast_intob length]. split; [intros _; split; [lia | intros k Hk; lia] | reflexivity].
  - destruct ro as [|m ro]; cbn [rbcast_intob length]; [split; [discriminate | intros [H _]; lia]|].
    rewrite andb_true_iff, IH. split.
    + intros [H1 [H2 H3]]. split; [lia|]. intros [|k] Hk; cbn [nth]; [lia | apply H3; lia].
    + intros [H1 H2]. split; [specialize (H2 O ltac:(lia)); cbn [nth] in H2; lia|].
      split; [lia|]. intros k Hk. apply (H2 (S k)). lia.
Qed.

(* the rank of a broadcast shape is the largest rank *)
Definition maxlen (rs : list (list Z)) : nat := fold_right (fun r m => Nat.max (length r) m) O rs.

Lemma rbshape_all_length l : length (rbshape_all l) = maxlen l.
Proof.
  induction l as [|s l IH]; cbn [rbshape_all fold_right maxlen]; [reflexivity|].
  fold (rbshape_all l). fold (maxlen l). rewrite rbshape_length, rev_length, IH. reflexivity.
Qed.

Lemma maxlen_ge rs r : In r rs -> (length r <= maxlen rs)%nat.
Proof.
  induction rs as [|t rs IH]; intros H; [destruct H|]. cbn [maxlen fold_right]. fold (maxlen rs).
  destruct H as [->|H]; [lia | specialize (IH H); lia].
Qed.

Lemma map3_length {A B C D} (f : A -> B -> C -> D) a : forall b c,
  length (map3 f a b c) = Nat.min (length a) (Nat.min (length b) (length c)).
Proof.
  induction a as [|x a IH]; intros [|y b] [|z c]; cbn [map3 length]; try reflexivity; try (rewrite Nat.min_0_r; reflexivity).
  rewrite IH. reflexivity.
Qed.

Lemma map3_nth {A B C D} (f : A -> B -> C -> D) da db dc dd a : forall b c k,
  (k < length a)%nat -> (k < length b)%nat -> (k < length c)%nat ->
  nth k (map3 f a b c) dd = f (nth k a da) (nth k b db) (nth k c dc).
Proof.
  induction a as [|x a IH]; intros [|y b] [|z c] k H1 H2 H3; cbn [length] in *; try lia.
  cbn [map3]. destruct k as [|k]; cbn [nth]; [reflexivity | apply IH; lia].
Qed.

Lemma rev_lastn {A} m (l : list A) : rev (lastn m l) = firstn m (rev l).
Proof. unfold lastn. rewrite firstn_rev. reflexivity. Qed.

Lemma lastn_length {A} m (l : list A) : (m <= length l)%nat -> length (lastn m l) = m.
Proof. intros H. unfold lastn. rewrite skipn_length. lia. Qed.

Lemma bc_index_length sl sa o : length sl = length o -> (length sa <= length o)%nat -> length (bc_index sl sa o) = length sa.
Proof. intros H1 H2. unfold bc_index. rewrite map3_length, !lastn_length by lia. lia. Qed.

Lemma bcast_intob_length sa o : bcast_intob sa o = true -> (length sa <= length o)%nat.
Proof.
  intros H. destruct (bcast_intob_spec sa o H) as (pre & suf & -> & Hc).
  rewrite (compat_length _ _ Hc), app_length. lia.
Qed.

(* the sliced shape of an operand of shape sa under a result of shape o indexed by sl *)
Definition bc_shape (sl : list pslice) (o sa : list Z) : list Z := slice_shape (map ISlice (bc_index sl sa o)) sa.

(* one axis: the sliced size of an operand axis of size n (1 or m) under a result axis of size m *)
Definition bc_len (a : pslice) (n m : Z) : Z := slice_len (bc_pick a n m) n.

Lemma bc_len_self a m : bc_len a m m = slice_len a m.
Proof. unfold bc_len, bc_pick. rewrite Z.eqb_refl. reflexivity. Qed.

Lemma bc_len_bdim a m x y : x = 1 \/ x = m -> y = 1 \/ y = m ->
  bdim (bc_len a x m) (bc_len a y m) = bc_len a (bdim x y) m.
Proof.
  assert (Hsame : forall v, bdim v v = v) by (intros v; unfold bdim; destruct (v =? 1); reflexivity).
  unfold bc_len. destruct (Z.eq_dec m 1) as [->|Hm].
  - intros Hx Hy. replace x with 1 by lia. replace y with 1 by lia. apply Hsame.
  - assert (H1 : slice_len (bc_pick a 1 m) 1 = 1) by (unfold bc_pick; replace (1 =? m) with false by lia; reflexivity).
    assert (Hmm : bdim m 1 = m) by (unfold bdim; replace (m =? 1) with false by lia; reflexivity).
    intros [->| ->] [->| ->]; rewrite ?Hsame, ?Hmm, ?H1; try reflexivity.
    unfold bdim. destruct (slice_len (bc_pick a m m) m =? 1) eqn:E; [lia | reflexivity].
Qed.

Lemma sl_shape_opshape : forall sls sa os, length sls = length sa -> length os = length sa ->
  slice_shape (map ISlice (map3 bc_pick sls sa os)) sa = opshape bc_len (map ISlice sls) sa os.
Proof.
  induction sls as [|a sls IH]; intros [|n sa] [|m os] H1 H2; cbn [length] in H1, H2; try discriminate; [reflexivity|].
  cbn [map3 map slice_shape opshape hd tl]. rewrite IH by lia. reflexivity.
Qed.

Lemma bc_shape_opshape sl o sa : length sl = length o -> (length sa <= length o)%nat ->
  bc_shape sl o sa = opshape_of bc_len (map ISlice sl) o sa.
Proof.
  intros Hl Hsa. unfold bc_shape, bc_index, opshape_of, lastn at 3. rewrite map_length, skipn_map.
  apply sl_shape_opshape; apply lastn_length; lia.
Qed.

Lemma bshape_all_sliced sl ss o :
  o = bshape_all ss ->
  length sl = length o -> sl_okb sl = true -> forallb (fun sa => bcast_intob sa o) ss = true ->
  bshape_all (map (bc_shape sl o) ss) = slice_shape (map ISlice sl) o.
Proof.
  intros -> Hl Hok Hb. rewrite forallb_forall in Hb.
  rewrite (map_ext_in _ (opshape_of bc_len (map ISlice sl) (bshape_all ss)))
    by (intros sa Hsa; apply bc_shape_opshape; [exact Hl | apply bcast_intob_length, Hb, Hsa]).
  apply (opshape_bshape_all bc_len).
  - intros a n n' m _. apply bc_len_bdim.
  - intros a m _. apply bc_len_self.
  - rewrite idx_okb_sl by exact Hl. exact Hok.
  - apply Forall_forall. exact Hb.
Qed.

Lemma Forall_map3_pick (P : pslice -> Prop) : P colon -> forall a b c, Forall P a -> Forall P (map3 bc_pick a b c).
Proof.
  intros Hc. induction a as [|x a IH]; intros [|y b] [|z c] H; cbn [map3]; try constructor.
  - inversion H; subst. unfold bc_pick. destruct (y =? z); assumption.
  - apply IH. inversion H; assumption.
Qed.

Lemma bc_index_ok sl sa o : sl_okb sl = true -> sl_okb (bc_index sl sa o) = true.
Proof.
  intros H. apply sl_okb_iff. apply sl_okb_iff in H. unfold bc_index. apply Forall_map3_pick.
  - unfold step_of, colon. cbn. lia.
  - unfold lastn. apply Forall_skipn. exact H.
Qed.

Lemma firstn_skipn_lengths {A} (l : list A) k : (k <= length l)%nat -> length (skipn k l) = (length l - k)%nat.
Proof. intros _. apply skipn_length. Qed.

(* values: axis by axis, the picked index selects on the operand what the result's index selects *)
Lemma bc_bslices : forall sa suf sls,
  compat sa suf -> length sls = length sa -> Forall (fun a => step_of a <> 0) sls ->
  bslices (map ISlice sls) suf (map ISlice (map3 bc_pick sls sa suf)) sa.
Proof.
  induction sa as [|n sa IH]; intros [|m suf] [|a sls] Hc Hl Hok; cbn [compat length] in Hc, Hl; try (exfalso; tauto); try discriminate.
  - split; [exact I | intros [|j out] Ho; [reflexivity | destruct Ho]].
  - destruct Hc as [Hn Hc]. inversion Hok as [|a0 l0 Ha Hok']; subst. cbn [map3 map].
    apply bslices_cons; [discriminate | | apply IH; [exact Hc | lia | exact Hok']].
    unfold bc_pick. destruct (n =? m) eqn:E.
    + replace n with m by lia. apply bslices_same. exact Ha.
    + replace n with 1 by lia. apply bslices_colon.
Qed.

Lemma compat_rbcast ra : forall rs rp, compat ra rs -> rbcast_intob ra (rs ++ rp) = true.
Proof.
  induction ra as [|n ra IH]; intros [|m rs] rp H; cbn [compat] in H; try (exfalso; tauto); [reflexivity|].
  cbn [app rbcast_intob]. rewrite (IH rs rp), andb_true_r by tauto. destruct H as [[->| ->] _]; [reflexivity|].
  rewrite Z.eqb_refl. apply orb_true_r.
Qed.

Lemma bcast_into_intob sa o : bcast_into sa o -> bcast_intob sa o = true.
Proof.
  intros (pre & suf & -> & Hc). unfold bcast_intob. rewrite rev_app_distr. apply compat_rbcast, compat_rev, Hc.
Qed.

(* the sliced operand broadcasts into the sliced result and reads the same elements *)
Lemma bc_sliced sl sa o :
  length sl = length o -> sl_okb sl = true -> bcast_intob sa o = true ->
  bcast_intob (bc_shape sl o sa) (slice_shape (map ISlice sl) o) = true /\
  forall out, in_bounds out (slice_shape (map ISlice sl) o) ->
    bidx sa (slice_src (map ISlice sl) o out) =
    slice_src (map ISlice (bc_index sl sa o)) sa (bidx (bc_shape sl o sa) out).
Proof.
  intros Hl Hok Hb.
  destruct (bcast_intob_spec sa o Hb) as (pre & suf & -> & Hc). pose proof (compat_length _ _ Hc) as Hm.
  rewrite app_length in Hl. rewrite <- (firstn_skipn (length pre) sl) in Hok |- *.
  set (slp := firstn (length pre) sl) in *. set (sls := skipn (length pre) sl) in *.
  assert (Hlp : length slp = length pre) by (unfold slp; rewrite firstn_length; lia).
  assert (Hls : length sls = length sa) by (unfold sls; rewrite skipn_length; lia).
  apply sl_okb_iff, Forall_app in Hok. destruct Hok as [Hokp Hoks].
  unfold bc_shape, bc_index. rewrite !lastn_app, map_app by lia.
  destruct (bslices_bidx (map ISlice slp) pre (map ISlice sls) suf (map ISlice (map3 bc_pick sls sa suf)) sa) as [H1 H2].
  - rewrite idx_okb_sl by exact Hlp. apply sl_okb_iff, Hokp.
  - rewrite idx_okb_sl by lia. apply sl_okb_iff, Hoks.
  - exact Hc.
  - apply bc_bslices; assumption.
  - split; [apply bcast_into_intob, H1 | exact H2].
Qed.

Theorem slice_elemwise_bcast_arr f sl (xs : list (arr Z)) :
  let o := bshape_all (map shape xs) in
  length sl = length o -> sl_okb sl = true ->
  forallb (fun sa => bcast_intob sa o) (map shape xs) = true ->
  aeq (aslice (map ISlice sl) (aelemwise f xs))
      (aelemwise f (map (fun x => aslice (map ISlice (bc_index sl (shape x) o)) x) xs)).
Proof.
  intros o Hl Hok Hb. split; cbn [aslice aelemwise shape get]; fold o.
  - rewrite map_map. cbn [aslice shape].
    rewrite <- (bshape_all_sliced sl (map shape xs) o eq_refl Hl Hok Hb). rewrite map_map. reflexivity.
  - intros out Ho. f_equal. rewrite map_map. apply map_ext_in. intros x Hx.
    cbn [aslice shape get]. f_equal.
    rewrite forallb_forall in Hb.
    apply bc_sliced; try assumption. apply Hb. apply in_map. exact Hx.
Qed.

Theorem eval_slice_elemwise_bcast f sl ps o r :
  pshape (PElem f ps) = Some o -> length sl = length o ->
  eval (PSlice (map ISlice sl) (PElem f ps)) = Some r ->
  eval (PElem f (map (fun p => PSlice (map ISlice (bc_index sl (oshape p) o)) p) ps)) = Some r.
Proof.
  intros Hp Hl. apply (law_un_n _ (NElem f) (fun sa => OSlice (map ISlice (bc_index sl sa o)))). intros ys Hys Hnok Hok zs.
  pose proof (pden_pshape _ _ (pden_n _ _ _ Hys Hnok)) as Ho. rewrite Hp in Ho. injection Ho as Ho.
  cbn [n_arr aelemwise shape un_ok] in Ho, Hok. rewrite <- Ho, ixokb_sl in Hok by exact Hl.
  cbn [n_ok] in Hnok. apply andb_true_iff in Hnok. destruct Hnok as [Hlen Hb]. rewrite <- Ho in Hb.
  pose proof (slice_elemwise_bcast_arr (ef_apply f) sl ys) as Hlaw. cbv zeta in Hlaw. rewrite <- Ho in Hlaw.
  pose proof (proj1 (forallb_forall _ _) Hb) as Hb'. split; [|split].
  - apply Forall_forall. intros y Hy. cbn [un_ok].
    rewrite ixokb_sl by (apply bc_index_length; [exact Hl | apply bcast_intob_length, Hb', in_map, Hy]).
    apply bc_index_ok. exact Hok.
  - unfold zs. cbn [n_ok un_arr]. rewrite !map_length, map_map. rewrite map_length in Hlen. rewrite Hlen. cbn [andb aslice shape].
    change (fun x : arr Z => slice_shape (map ISlice (bc_index sl (shape x) o)) (shape x)) with (fun x : arr Z => bc_shape sl o (shape x)).
    rewrite <- (map_map shape (bc_shape sl o)), (bshape_all_sliced sl (map shape ys) o Ho Hl Hok Hb).
    apply forallb_forall. intros s' Hs'. apply in_map_iff in Hs'. destruct Hs' as (sa & <- & Hsa).
    apply bc_sliced; [exact Hl | exact Hok | apply Hb'; exact Hsa].
  - apply aeq_sym, Hlaw; assumption.
Qed.
