(* Facts about lists of the standard library that several models need and the library lacks. *)
From Coq Require Import List Arith Lia Permutation.
Import ListNotations.

(* nth, firstn, skipn, seq *)

Lemma hd_nth {A} (l : list A) d : hd d l = nth 0 l d.
Proof. destruct l; reflexivity. Qed.

Lemma nth_tl {A} (l : list A) r d : nth r (tl l) d = nth (S r) l d.
Proof. destruct l; [destruct r|]; reflexivity. Qed.

Lemma nth_firstn_lt {A} (l : list A) (m i : nat) d : (i < m)%nat -> nth i (firstn m l) d = nth i l d.
Proof.
  revert l i. induction m as [|m IH]; intros l i Hi; [lia|].
  destruct l as [|x t]; [reflexivity|]. destruct i as [|i]; [reflexivity|].
  cbn [firstn nth]. apply IH. lia.
Qed.

Lemma nth_skipn_add {A} (l : list A) (a i : nat) d : nth i (skipn a l) d = nth (a + i) l d.
Proof.
  revert l. induction a as [|a IH]; intros l; [reflexivity|].
  destruct l as [|x t]; [destruct i; reflexivity|]. cbn [skipn Nat.add nth]. apply IH.
Qed.

Lemma skipn_skipn {A} (l : list A) : forall a b, skipn a (skipn b l) = skipn (b + a) l.
Proof.
  intros a b. revert l. induction b as [|b IH]; intros l; [reflexivity|].
  destruct l as [|x t]; [rewrite !skipn_nil; reflexivity|]. cbn [Nat.add skipn]. apply IH.
Qed.

Lemma firstn_add {A} (l : list A) (a m : nat) :
  firstn (a + m) l = firstn a l ++ firstn m (skipn a l).
Proof.
  revert l. induction a as [|a IH]; intros l; [reflexivity|].
  destruct l as [|x t]; [rewrite !firstn_nil; reflexivity|].
  cbn [Nat.add firstn skipn app]. rewrite IH. reflexivity.
Qed.

Lemma seq_shift_add (z s c : nat) : seq (z + s) c = map (fun i => (i + s)%nat) (seq z c).
Proof. revert z. induction c as [|c IH]; intros z; [reflexivity|]. cbn [seq map]. f_equal. apply (IH (S z)). Qed.

Lemma nth_map_seq {B} (f : nat -> B) m i d : (i < m)%nat -> nth i (map f (seq 0 m)) d = f i.
Proof.
  intros Hi. rewrite (nth_indep _ d (f 0%nat)) by (rewrite map_length, seq_length; exact Hi).
  rewrite map_nth, seq_nth by exact Hi. reflexivity.
Qed.

Lemma map_map_id : forall A B (f : A -> B) (g : B -> A) l, (forall x, g (f x) = x) -> map g (map f l) = l.
Proof. intros A B f g l H. rewrite map_map. rewrite <- (map_id l) at 2. apply map_ext. exact H. Qed.

(* a property of every position of a list, given the elements before it, one element at a time *)
Lemma forall_split_cons : forall A (Q : list A -> A -> Prop) x l,
  (forall pre k post, x :: l = pre ++ k :: post -> Q pre k) <->
  Q [] x /\ forall pre k post, l = pre ++ k :: post -> Q (x :: pre) k.
Proof.
  intros A Q x l. split.
  - intro H. split; [exact (H [] x l eq_refl) | intros pre k post ->; exact (H (x :: pre) k post eq_refl)].
  - intros [H0 H1] [|p pre] k post E; inversion E; subst; [exact H0 | exact (H1 pre k post eq_refl)].
Qed.

Lemma fold_left_op_out {M} (op : M -> M -> M) :
  (forall a b c, op a (op b c) = op (op a b) c) ->
  forall t a x, fold_left op t (op a x) = op a (fold_left op t x).
Proof.
  intros Hassoc. induction t as [|y t IH]; intros a x; cbn [fold_left]; [reflexivity|].
  rewrite <- Hassoc. apply IH.
Qed.

(* Forall, Forall2, existsb *)

Lemma Forall_firstn {A} (P : A -> Prop) n l : Forall P l -> Forall P (firstn n l).
Proof. intros H. revert n. induction H as [|x t Hx Ht IH]; intros [|n]; cbn [firstn]; auto. Qed.

Lemma Forall_skipn {A} (P : A -> Prop) n l : Forall P l -> Forall P (skipn n l).
Proof. intros H. revert n. induction H as [|x t Hx Ht IH]; intros [|n]; cbn [skipn]; auto. Qed.

Lemma forallb_spec : forall A (f : A -> bool) (P : A -> Prop) l,
  (forall x, f x = true <-> P x) -> (forallb f l = true <-> forall x, In x l -> P x).
Proof. intros A f P l H. rewrite forallb_forall. split; intros Hl x Hx; apply H, Hl, Hx. Qed.

Lemma existsb_false_In {A} (f : A -> bool) l x : existsb f l = false -> In x l -> f x = false.
Proof.
  intros H Hx. destruct (f x) eqn:E; [|reflexivity].
  rewrite <- H. symmetry. apply existsb_exists. exists x. split; assumption.
Qed.

Lemma Forall2_length {A B} (R : A -> B -> Prop) l r : Forall2 R l r -> length l = length r.
Proof. induction 1; cbn [length]; congruence. Qed.

Lemma Forall2_impl {A B} (P Q : A -> B -> Prop) l r :
  (forall a b, P a b -> Q a b) -> Forall2 P l r -> Forall2 Q l r.
Proof. intros H F. induction F; constructor; auto. Qed.

Lemma Forall2_In_l {A B} (P : A -> B -> Prop) l r x : Forall2 P l r -> In x l -> exists y, In y r /\ P x y.
Proof.
  induction 1 as [|a b l r Hab _ IH]; [intros []|intros [<-|Hin]].
  - exists b. split; [left; reflexivity|exact Hab].
  - destruct (IH Hin) as (y & Hy & Hp). exists y. split; [right; exact Hy|exact Hp].
Qed.

Lemma Forall2_In_r {A B} (P : A -> B -> Prop) l r y : Forall2 P l r -> In y r -> exists x, In x l /\ P x y.
Proof.
  induction 1 as [|a b l r Hab _ IH]; [intros []|intros [<-|Hin]].
  - exists a. split; [left; reflexivity|exact Hab].
  - destruct (IH Hin) as (x & Hx & Hp). exists x. split; [right; exact Hx|exact Hp].
Qed.

Lemma Forall2_nth_error_l {A B} (P : A -> B -> Prop) l r j x :
  Forall2 P l r -> nth_error l j = Some x -> exists y, nth_error r j = Some y /\ P x y.
Proof.
  intros F. revert j. induction F as [|a b l r Hab _ IH]; intros [|j] Hj; cbn [nth_error] in *; try discriminate.
  - injection Hj as <-. exists b. split; [reflexivity|exact Hab].
  - exact (IH j Hj).
Qed.

Lemma Forall2_maps {A B C} (P : B -> C -> Prop) (f : A -> B) (g : A -> C) l :
  Forall2 P (map f l) (map g l) <-> Forall (fun x => P (f x) (g x)) l.
Proof.
  induction l as [|x l IH]; cbn [map]; split; intros H; inversion H; subst; constructor; auto; apply IH; assumption.
Qed.

Lemma existsb_false_Forall {A} (f : A -> bool) l : existsb f l = false -> Forall (fun x => f x = false) l.
Proof. intros H. apply Forall_forall. intros x. apply existsb_false_In, H. Qed.

Lemma Forall_removelast {A} (P : A -> Prop) l : Forall P l -> Forall P (removelast l).
Proof.
  induction 1 as [|x t Hx Ht IH]; cbn [removelast]; [constructor|].
  destruct t; [constructor | constructor; assumption].
Qed.

(* combine *)

Lemma combine_app {A B} (a1 a2 : list A) (b1 b2 : list B) :
  length a1 = length b1 -> combine (a1 ++ a2) (b1 ++ b2) = combine a1 b1 ++ combine a2 b2.
Proof.
  revert b1. induction a1 as [|x a1 IH]; intros [|y b1] H; cbn [length] in H; try discriminate; [reflexivity|].
  cbn [app combine]. rewrite IH by lia. reflexivity.
Qed.

Lemma map_fst_combine {A B} (l : list A) (r : list B) : length l = length r -> map fst (combine l r) = l.
Proof.
  revert r. induction l as [|a l IH]; intros [|b r] H; cbn [length] in H; try discriminate; [reflexivity|].
  cbn [combine map fst]. f_equal. apply IH. lia.
Qed.

Lemma map_snd_combine {A B} (l : list A) (r : list B) : length l = length r -> map snd (combine l r) = r.
Proof.
  revert r. induction l as [|a l IH]; intros [|b r] H; cbn [length] in H; try discriminate; [reflexivity|].
  cbn [combine map snd]. f_equal. apply IH. lia.
Qed.

Lemma combine_map_both {A B C D} (f : A -> C) (g : B -> D) la lb :
  combine (map f la) (map g lb) = map (fun ab => (f (fst ab), g (snd ab))) (combine la lb).
Proof.
  revert lb. induction la as [|a la IH]; intros [|b lb]; try reflexivity.
  cbn [map combine fst snd]. rewrite IH. reflexivity.
Qed.

Lemma combine_rev {A B} (la : list A) (lb : list B) :
  length la = length lb -> combine (rev la) (rev lb) = rev (combine la lb).
Proof.
  revert lb. induction la as [|a la IH]; intros [|b lb] H; cbn in H; try discriminate; [reflexivity|].
  cbn [rev combine]. rewrite combine_app by (rewrite !rev_length; lia). rewrite IH by lia. reflexivity.
Qed.

Lemma combine_flat_map {A B C D} (f : A -> list C) (g : B -> list D) (n : nat) :
  (forall a, length (f a) = n) -> (forall b, length (g b) = n) ->
  forall la lb,
  combine (flat_map f la) (flat_map g lb) = flat_map (fun ab => combine (f (fst ab)) (g (snd ab))) (combine la lb).
Proof.
  intros Hf Hg. induction la as [|a la IH]; intros lb; [reflexivity|].
  destruct lb as [|b lb].
  - cbn [combine flat_map]. apply combine_nil.
  - cbn [combine flat_map fst snd]. rewrite combine_app by (rewrite Hf, Hg; reflexivity). rewrite IH. reflexivity.
Qed.

Lemma concat_lengths {A B C} (f : A -> list B) (g : A -> list C) ts :
  Forall (fun t => length (f t) = length (g t)) ts ->
  length (concat (map f ts)) = length (concat (map g ts)).
Proof.
  induction 1 as [|t ts Ht _ IH]; [reflexivity|]. cbn [map concat]. rewrite !app_length. lia.
Qed.

Lemma combine_concat {A B C} (f : A -> list B) (g : A -> list C) ts :
  Forall (fun t => length (f t) = length (g t)) ts ->
  combine (concat (map f ts)) (concat (map g ts)) = flat_map (fun t => combine (f t) (g t)) ts.
Proof.
  induction 1 as [|t ts Ht _ IH]; [reflexivity|]. cbn [map concat flat_map].
  rewrite combine_app by exact Ht. rewrite IH. reflexivity.
Qed.

Lemma In_combine_nth {A B} (l : list A) (m : list B) a b da db :
  In (a, b) (combine l m) -> exists i, (i < length l)%nat /\ (i < length m)%nat /\ nth i l da = a /\ nth i m db = b.
Proof.
  revert m. induction l as [|x t IH]; intros [|y m] H; cbn [combine] in H; try contradiction.
  destruct H as [H|H].
  - injection H as -> ->. exists 0%nat. cbn [length nth]. repeat split; lia.
  - destruct (IH m H) as (i & H1 & H2 & H3 & H4). exists (S i). cbn [length nth]. repeat split; try lia; assumption.
Qed.

(* NoDup *)

Lemma NoDup_app_iff : forall A (a b : list A),
  NoDup (a ++ b) <-> NoDup a /\ NoDup b /\ forall x, In x a -> ~ In x b.
Proof.
  intros A a b; induction a as [|x a IH]; cbn.
  - split; [intro H; repeat split; [constructor | exact H | intros x []] | tauto].
  - rewrite !NoDup_cons_iff, IH, in_app_iff. split.
    + intros (Hx & Ha & Hb & Hd). repeat split; [tauto | exact Ha | exact Hb |].
      intros y [<-|Hy]; [tauto | exact (Hd y Hy)].
    + intros ((Hx & Ha) & Hb & Hd). repeat split; [|exact Ha | exact Hb | intros y Hy; apply Hd; right; exact Hy].
      intros [Hin|Hin]; [exact (Hx Hin) | exact (Hd x (or_introl eq_refl) Hin)].
Qed.
Lemma combine_fst_snd {A B} (l : list (A * B)) : combine (map fst l) (map snd l) = l.
Proof. induction l as [|[a b] l IH]; [reflexivity|]. cbn [map combine fst snd]. rewrite IH. reflexivity. Qed.

Lemma NoDup_app_intro {A} (l1 l2 : list A) :
  NoDup l1 -> NoDup l2 -> (forall x, In x l1 -> ~ In x l2) -> NoDup (l1 ++ l2).
Proof. intros H1 H2 Hd. apply NoDup_app_iff. auto. Qed.

Lemma NoDup_app_notin : forall A (pre : list A) k post, NoDup (pre ++ k :: post) -> ~ In k pre /\ ~ In k post.
Proof.
  intros A pre k post H. apply NoDup_remove_2 in H. split; intro Hin; apply H; apply in_or_app; auto.
Qed.

Lemma NoDup_map_inj {A B} (f : A -> B) l :
  (forall a b, f a = f b -> a = b) -> NoDup l -> NoDup (map f l).
Proof.
  intros Hf H. induction H as [|x l Hx H IH]; cbn [map]; constructor; [|exact IH].
  intros Hin. apply in_map_iff in Hin. destruct Hin as (y & Hy & Hin). apply Hf in Hy. subst y. exact (Hx Hin).
Qed.

Lemma NoDup_split_unique {A} (a a' b b' : list A) k :
  NoDup (a ++ k :: b) -> a ++ k :: b = a' ++ k :: b' -> a = a'.
Proof.
  revert a'. induction a as [|x a IH]; intros [|y a'] Hnd E; cbn [app] in *; inversion E; subst.
  - reflexivity.
  - inversion Hnd as [|? ? Hn _]. exfalso. apply Hn. apply in_elt.
  - inversion Hnd as [|? ? Hn _]. exfalso. apply Hn. apply in_elt.
  - inversion Hnd; subst. f_equal. apply IH; assumption.
Qed.

(* the lists f x are disjoint when an element they share determines pi of the x it comes from *)
Lemma NoDup_flat_map_disjoint : forall A K B (pi : A -> K) (f : A -> list B) l,
  NoDup (map pi l) -> (forall x, NoDup (f x)) ->
  (forall x y z, In z (f x) -> In z (f y) -> pi x = pi y) ->
  NoDup (flat_map f l).
Proof.
  intros A K B pi f l Hl Hf Hdis. induction l as [|x t IH]; cbn in *; [constructor|].
  inversion Hl as [|? ? Hx Ht]; subst. apply NoDup_app_intro; [apply Hf | exact (IH Ht) |].
  intros z Hz Hin. apply in_flat_map in Hin as [y [Hy Hzy]]. apply Hx.
  rewrite (Hdis x y z Hz Hzy). exact (in_map pi _ _ Hy).
Qed.
Lemma NoDup_app_l {A} (l1 l2 : list A) : NoDup (l1 ++ l2) -> NoDup l1.
Proof.
  induction l1 as [|x t IH]; intros H; [constructor|].
  cbn [app] in H. inversion H as [|x0 l0 Hx Ht]; subst. constructor.
  - intros Hin. apply Hx. apply in_or_app. left. exact Hin.
  - apply IH. exact Ht.
Qed.

Lemma NoDup_app_r {A} (l1 l2 : list A) : NoDup (l1 ++ l2) -> NoDup l2.
Proof.
  induction l1 as [|x t IH]; intros H; [exact H|].
  cbn [app] in H. inversion H; subst. apply IH. assumption.
Qed.

Lemma NoDup_firstn {A} (l : list A) m : NoDup l -> NoDup (firstn m l).
Proof. intros H. rewrite <- (firstn_skipn m l) in H. apply NoDup_app_l in H. exact H. Qed.

Lemma NoDup_skipn {A} (l : list A) m : NoDup l -> NoDup (skipn m l).
Proof. intros H. rewrite <- (firstn_skipn m l) in H. apply NoDup_app_r in H. exact H. Qed.

(* flat_map *)

Lemma flat_map_length_uniform {A B} (f : A -> list B) (L : nat) : forall l,
  (forall a, In a l -> length (f a) = L) -> length (flat_map f l) = (length l * L)%nat.
Proof.
  induction l as [|x l IH]; intros H; [reflexivity|]. cbn [flat_map length Nat.mul].
  rewrite app_length, (H x (or_introl eq_refl)), IH; [reflexivity|]. intros a Ha. apply H. right. exact Ha.
Qed.

Lemma map_flat_map {A B C} (f : B -> C) (g : A -> list B) l :
  map f (flat_map g l) = flat_map (fun x => map f (g x)) l.
Proof. induction l as [|x t IH]; [reflexivity|]. cbn [flat_map]. rewrite map_app, IH. reflexivity. Qed.

Lemma flat_map_map {A B C} (f : A -> B) (g : B -> list C) l :
  flat_map g (map f l) = flat_map (fun x => g (f x)) l.
Proof. induction l as [|x t IH]; [reflexivity|]. cbn [map flat_map]. rewrite IH. reflexivity. Qed.

Lemma flat_map_flat_map {A B C} (f : A -> list B) (g : B -> list C) l :
  flat_map g (flat_map f l) = flat_map (fun x => flat_map g (f x)) l.
Proof. induction l as [|x t IH]; [reflexivity|]. cbn [flat_map]. rewrite flat_map_app, IH. reflexivity. Qed.

Lemma flat_map_concat_list {A B} (f : A -> list B) (ls : list (list A)) :
  flat_map f (concat ls) = flat_map (fun l => flat_map f l) ls.
Proof. induction ls as [|l t IH]; [reflexivity|]. cbn [concat flat_map]. rewrite flat_map_app, IH. reflexivity. Qed.

Lemma flat_map_perm_ext {A B} (f g : A -> list B) l :
  (forall x, Permutation (f x) (g x)) -> Permutation (flat_map f l) (flat_map g l).
Proof.
  intros H. induction l as [|x t IH]; [constructor|]. cbn [flat_map]. apply Permutation_app; [apply H|exact IH].
Qed.

Lemma flat_map_app_perm {A B} (g h : A -> list B) l :
  Permutation (flat_map (fun b => g b ++ h b) l) (flat_map g l ++ flat_map h l).
Proof.
  induction l as [|x t IH]; [constructor|]. cbn [flat_map]. rewrite IH, <- !app_assoc.
  apply Permutation_app_head. rewrite !app_assoc. apply Permutation_app_tail, Permutation_app_comm.
Qed.

Lemma flat_map_swap {A B C} (f : A -> B -> list C) la lb :
  Permutation (flat_map (fun a => flat_map (fun b => f a b) lb) la)
              (flat_map (fun b => flat_map (fun a => f a b) la) lb).
Proof.
  induction la as [|a la IH]; cbn [flat_map].
  - induction lb as [|b lb IHb]; [constructor|exact IHb].
  - rewrite IH. symmetry. apply flat_map_app_perm.
Qed.

(* looking an element up by its key, the keys being distinct *)
Section FindKey.
  Context {A K : Type} (eqb : K -> K -> bool) (key : A -> K).
  Hypothesis eqb_eq : forall a b, eqb a b = true <-> a = b.

  Lemma find_key_some l k x : find (fun y => eqb (key y) k) l = Some x -> In x l /\ key x = k.
  Proof. intros H. apply find_some in H as [Hin E]. split; [exact Hin | apply eqb_eq, E]. Qed.

  Lemma find_key_NoDup l x : NoDup (map key l) -> In x l -> find (fun y => eqb (key y) (key x)) l = Some x.
  Proof.
    induction l as [|y t IH]; cbn [map find]; intros Hnd Hin; [destruct Hin|].
    inversion Hnd as [|? ? Hy Ht]; subst. destruct Hin as [->|Hin].
    - rewrite (proj2 (eqb_eq _ _) eq_refl). reflexivity.
    - destruct (eqb (key y) (key x)) eqn:E; [|exact (IH Ht Hin)].
      apply eqb_eq in E. exfalso. apply Hy. rewrite E. apply in_map. exact Hin.
  Qed.
End FindKey.
