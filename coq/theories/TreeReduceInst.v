(* C18 — the concrete chunk/combine/aggregate triples are list homomorphisms onto the NumPy
   definition over the concatenated data; the combine/aggregate pairs of sum, prod,
   NaN-propagating sum and mean satisfy tree_laws. *)
From DA Require Import PyBase PyBaseFacts TreeReduce TreeReduceFacts TreeReduceND.
From Coq Require Import Permutation.
Open Scope Z_scope.

Lemma concat_map_singleton {A B} (g : A -> B) (l : list A) : concat (map (fun x => [g x]) l) = map g l.
Proof. induction l as [|x t IH]; [reflexivity|]. cbn. rewrite IH. reflexivity. Qed.

(* triples whose stages all produce exactly one value *)
Lemma hom_singleton {D R} (gc gm : list D -> D) (out spec : list D -> R) :
  (forall ds, gm (map gc ds) = gc (concat ds)) ->
  (forall ds, out (map gc ds) = spec (concat ds)) ->
  hom_reduction (concat_reduction (fun x => [gc x]) (fun x => [gm x]) out) (fun b => b) (fun x => [gc x]) spec.
Proof.
  intros H1 H2. repeat split.
  - intros ds _. cbn. rewrite concat_map_singleton, H1. reflexivity.
  - intros ds _. cbn. rewrite concat_map_singleton, H2. reflexivity.
Qed.

(* triples that carry a (count, total) pair and return total / count as the pair (total, count) *)
Lemma hom_pair {D T} (cnt : list D -> Z) (tot : list D -> T) (ftot : list T -> T) :
  (forall ds, zsum (map cnt ds) = cnt (concat ds)) ->
  (forall ds, ftot (map tot ds) = tot (concat ds)) ->
  hom_reduction (mkred (fun x => (cnt x, tot x))
                       (fun pairs => (zsum (map fst pairs), ftot (map snd pairs)))
                       (fun pairs => (ftot (map snd pairs), zsum (map fst pairs))))
                (fun b => b) (fun x => (cnt x, tot x)) (fun x => (tot x, cnt x)).
Proof.
  intros H1 H2. repeat split; intros ds _; cbn; rewrite !map_map; cbn; rewrite H1, H2; reflexivity.
Qed.

(* sum, prod and the NaN-propagating sum are folds of a monoid *)
Lemma hom_mfold {D} (op : D -> D -> D) e : monoid_laws op e ->
  hom_reduction (concat_reduction (fun x => [mfold op e x]) (fun x => [mfold op e x]) (mfold op e))
                (fun b => b) (fun x => [mfold op e x]) (mfold op e).
Proof. intros H. apply hom_singleton; apply (mfold_concat op e H). Qed.

Lemma zadd_laws : monoid_laws Z.add 0.
Proof. exact (conj Z.add_assoc (conj Z.add_0_l Z.add_0_r)). Qed.

Lemma zmul_laws : monoid_laws Z.mul 1.
Proof. exact (conj Z.mul_assoc (conj Z.mul_1_l Z.mul_1_r)). Qed.

Lemma fadd_laws : monoid_laws fadd (Some 0).
Proof.
  repeat split.
  - intros [a|] [b|] [c|]; cbn; try reflexivity. f_equal. lia.
  - intros [a|]; cbn; [f_equal; lia | reflexivity].
  - intros [a|]; cbn; [f_equal; lia | reflexivity].
Qed.

Theorem hom_sum : hom_reduction red_sum (fun b => b) (fun x => [zsum x]) zsum.
Proof. exact (hom_mfold Z.add 0 zadd_laws). Qed.

Theorem hom_prod : hom_reduction red_prod (fun b => b) (fun x => [zprod x]) zprod.
Proof. exact (hom_mfold Z.mul 1 zmul_laws). Qed.

Theorem hom_fsum : hom_reduction red_fsum (fun b => b) (fun x => [fsum x]) fsum.
Proof. exact (hom_mfold fadd (Some 0) fadd_laws). Qed.

Lemma zprod_app a b : zprod (a ++ b) = zprod a * zprod b.
Proof. exact (mfold_app Z.mul 1 zmul_laws a b). Qed.

Lemma fsum_concat ds : fsum (map fsum ds) = fsum (concat ds).
Proof. exact (mfold_concat fadd (Some 0) fadd_laws ds). Qed.

Lemma nonzero_b2z b : nonzero (b2z b) = b.
Proof. destruct b; reflexivity. Qed.

Lemma existsb_concat ds : existsb nonzero (map (fun x => b2z (existsb nonzero x)) ds) = existsb nonzero (concat ds).
Proof.
  induction ds as [|d t IH]; [reflexivity|]. cbn [map concat existsb].
  rewrite existsb_app, nonzero_b2z, IH. reflexivity.
Qed.

Lemma forallb_concat ds : forallb nonzero (map (fun x => b2z (forallb nonzero x)) ds) = forallb nonzero (concat ds).
Proof.
  induction ds as [|d t IH]; [reflexivity|]. cbn [map concat forallb].
  rewrite forallb_app, nonzero_b2z, IH. reflexivity.
Qed.

Theorem hom_any : hom_reduction red_any (fun b => b) (fun x => [b2z (existsb nonzero x)]) (existsb nonzero).
Proof.
  apply (hom_singleton (fun x => b2z (existsb nonzero x)) (fun x => b2z (existsb nonzero x))).
  - intros ds. rewrite existsb_concat. reflexivity.
  - apply existsb_concat.
Qed.

Theorem hom_all : hom_reduction red_all (fun b => b) (fun x => [b2z (forallb nonzero x)]) (forallb nonzero).
Proof.
  apply (hom_singleton (fun x => b2z (forallb nonzero x)) (fun x => b2z (forallb nonzero x))).
  - intros ds. rewrite forallb_concat. reflexivity.
  - apply forallb_concat.
Qed.

(* count_nonzero: the elementwise map commutes with concatenation *)
Lemma count_nonzero_concat blocks :
  concat (count_nonzero_blocks blocks) = map (fun x => b2z (nonzero x)) (concat blocks).
Proof. unfold count_nonzero_blocks. rewrite concat_map. reflexivity. Qed.

Theorem hom_mean :
  hom_reduction red_mean (fun b => b) (fun x => (Z.of_nat (length x), zsum x))
                (fun x => (zsum x, Z.of_nat (length x))).
Proof. exact (hom_pair _ zsum zsum length_concat_z (fun ds => eq_sym (zsum_concat ds))). Qed.

Lemma drop_nan_app a b : drop_nan (a ++ b) = drop_nan a ++ drop_nan b.
Proof. apply flat_map_app. Qed.

Lemma fsum_nansum_concat ds : fsum (map np_nansum ds) = np_nansum (concat ds).
Proof.
  induction ds as [|d t IH]; [reflexivity|]. cbn [map concat].
  change (fsum (np_nansum d :: map np_nansum t)) with (fadd (np_nansum d) (fsum (map np_nansum t))).
  rewrite IH. unfold np_nansum. rewrite drop_nan_app, zsum_app. reflexivity.
Qed.

Theorem hom_nansum : hom_reduction red_nansum (fun b => b) (fun x => [np_nansum x]) np_nansum.
Proof. apply hom_singleton; apply fsum_nansum_concat. Qed.

Theorem hom_fmean :
  hom_reduction red_fmean (fun b => b) (fun x => (Z.of_nat (length x), fsum x))
                (fun x => (fsum x, Z.of_nat (length x))).
Proof. exact (hom_pair _ fsum fsum length_concat_z fsum_concat). Qed.

Lemma nan_count_concat ds :
  zsum (map (fun d => Z.of_nat (length (drop_nan d))) ds) = Z.of_nat (length (drop_nan (concat ds))).
Proof.
  induction ds as [|d t IH]; [reflexivity|]. cbn [map concat zsum]. rewrite drop_nan_app, app_length. lia.
Qed.

Theorem hom_nanmean :
  hom_reduction red_nanmean (fun b => b) (fun x => (Z.of_nat (length (drop_nan x)), np_nansum x))
                (fun x => (np_nansum x, Z.of_nat (length (drop_nan x)))).
Proof. exact (hom_pair _ np_nansum fsum nan_count_concat fsum_nansum_concat). Qed.

(* Reductions that raise on an empty array are folds of a semigroup: by conversion np_min and
   np_max are np_fold Z.min and np_fold Z.max; _arg_combine is np_fold of `pick` (below). *)

Definition np_fold {E} (g : E -> E -> E) (l : list E) : option E :=
  match l with [] => None | x :: t => Some (fold_left g t x) end.

Definition omerge {E} (g : E -> E -> E) (a b : option E) : option E :=
  match a, b with None, x => x | x, None => x | Some u, Some v => Some (g u v) end.

Section Semigroup.
  Context {E : Type} (g : E -> E -> E).
  Hypothesis g_assoc : forall a b c, g a (g b c) = g (g a b) c.

  Lemma np_fold_app a b : np_fold g (a ++ b) = omerge g (np_fold g a) (np_fold g b).
  Proof.
    destruct a as [|x ta]; [cbn [app]; destruct (np_fold g b); reflexivity|].
    destruct b as [|y tb]; [rewrite app_nil_r; reflexivity|].
    cbn [np_fold app omerge]. rewrite fold_left_app. cbn [fold_left]. f_equal. apply fold_left_op_out, g_assoc.
  Qed.

  Lemma np_fold_idem a : np_fold g (opt_to_list (np_fold g a)) = np_fold g a.
  Proof. destruct a; reflexivity. Qed.

  Lemma omerge_assoc a b c : omerge g a (omerge g b c) = omerge g (omerge g a b) c.
  Proof. destruct a, b, c; cbn; rewrite ?g_assoc; reflexivity. Qed.

  (* stages that produce zero or one value: folding the groups first changes nothing *)
  Lemma np_fold_absorb (m : list E -> option E) : (forall l, m l = np_fold g l) ->
    forall ds, m (concat (map (fun x => opt_to_list (m x)) ds)) = m (concat ds).
  Proof.
    intros Hm ds. induction ds as [|d t IH]; [reflexivity|].
    cbn [map concat]. rewrite !Hm in IH. rewrite !Hm, !np_fold_app, np_fold_idem, IH. reflexivity.
  Qed.

  (* a triple whose three stages are one such fold m *)
  Lemma hom_semigroup (m : list E -> option E) : (forall l, m l = np_fold g l) ->
    hom_reduction (concat_reduction (fun x => opt_to_list (m x)) (fun x => opt_to_list (m x)) m)
                  (fun b => b) (fun x => opt_to_list (m x)) m.
  Proof. intros Hm. repeat split; intros ds _; cbn; rewrite (np_fold_absorb m Hm); reflexivity. Qed.
End Semigroup.

(* min / max over NaN-bearing data (f is Z.min or Z.max): by conversion fnp_min is fnp_fold Z.min
   (NaN propagates) and fnp_nanmin is fnp_nanfold Z.min (NaN is skipped); likewise for max.
   Both are again folds of a semigroup on fz: NaN absorbs (fmerge f), or NaN is neutral (omerge f). *)
Definition fnp_fold (f : Z -> Z -> Z) (l : list fz) : option fz :=
  match l with [] => None | _ => Some (if existsb is_nan l then None else np_fold f (drop_nan l)) end.
Definition fnp_nanfold (f : Z -> Z -> Z) (l : list fz) : option fz :=
  match l with [] => None | _ => Some (np_fold f (drop_nan l)) end.

Definition fmerge (f : Z -> Z -> Z) (a b : fz) : fz :=
  match a, b with Some u, Some v => Some (f u v) | _, _ => None end.

Lemma fmerge_assoc f : (forall a b c, f a (f b c) = f (f a b) c) ->
  forall a b c, fmerge f a (fmerge f b c) = fmerge f (fmerge f a b) c.
Proof. intros Hf a b c. destruct a, b, c; cbn; rewrite ?Hf; reflexivity. Qed.

Lemma fnp_fold_semigroup f l : fnp_fold f l = np_fold (fmerge f) l.
Proof.
  destruct l as [|x t]; [reflexivity|]. cbn [np_fold]. revert x.
  induction t as [|a t IH]; intros x; [destruct x; reflexivity|].
  cbn [fold_left]. rewrite <- IH. destruct x, a; reflexivity.
Qed.

Lemma fnp_nanfold_semigroup f l : fnp_nanfold f l = np_fold (omerge f) l.
Proof.
  destruct l as [|x t]; [reflexivity|]. cbn [np_fold]. revert x.
  induction t as [|a t IH]; intros x; [destruct x; reflexivity|].
  cbn [fold_left]. rewrite <- IH. destruct x, a; reflexivity.
Qed.

Definition strict_weak (better : Z -> Z -> bool) : Prop :=
  (forall a b c, better a b = true -> better b c = true -> better a c = true) /\
  (forall a b c, better a b = false -> better b c = false -> better a c = false).

Lemma strict_weak_gtb : strict_weak Z.gtb.
Proof. split; intros a b c H1 H2; lia. Qed.
Lemma strict_weak_ltb : strict_weak Z.ltb.
Proof. split; intros a b c H1 H2; lia. Qed.

(* of two (value, arg) records, the earlier one unless the later is strictly better *)
Definition pick (better : Z -> Z -> bool) (a b : Z * Z) : Z * Z := if better (fst b) (fst a) then b else a.

Lemma pick_assoc better : strict_weak better ->
  forall a b c, pick better a (pick better b c) = pick better (pick better a b) c.
Proof.
  intros [HT HN] a b c. unfold pick.
  destruct (better (fst c) (fst b)) eqn:E1, (better (fst b) (fst a)) eqn:E2; rewrite ?E1, ?E2; try reflexivity.
  - rewrite (HT _ _ _ E1 E2). reflexivity.
  - rewrite (HN _ _ _ E1 E2). reflexivity.
Qed.

(* np.argmax over the values, then the record at that position: the left-to-right scan of the records *)
Lemma argbest_from_records better t : forall (pre : list (Z * Z)) i bi cur,
  Z.of_nat (length pre) = i -> 0 <= bi < i -> nth (Z.to_nat bi) pre (0, 0) = cur ->
  (let '(v, pos) := argbest_from better i bi (fst cur) (map fst t) in
   (v, snd (nth (Z.to_nat pos) (pre ++ t) (0, 0)))) = fold_left (pick better) t cur.
Proof.
  induction t as [|r t IH]; intros pre i bi cur Hlen Hbi Hcur.
  - cbn [map argbest_from fold_left]. rewrite app_nil_r, Hcur. destruct cur; reflexivity.
  - cbn [map argbest_from fold_left]. unfold pick at 2.
    replace (pre ++ r :: t) with ((pre ++ [r]) ++ t) by (rewrite <- app_assoc; reflexivity).
    destruct (better (fst r) (fst cur)) eqn:E; apply IH; rewrite ?app_length; cbn [length]; try lia.
    + rewrite app_nth2 by lia. replace (Z.to_nat i - length pre)%nat with 0%nat by lia. reflexivity.
    + rewrite app_nth1 by lia. assumption.
Qed.

Lemma arg_combine_fold better recs : arg_combine better recs = np_fold (pick better) recs.
Proof.
  destruct recs as [|r0 t]; [reflexivity|].
  unfold arg_combine. cbn [map np_argbest np_fold].
  pose proof (argbest_from_records better t [r0] 1 0 r0 eq_refl ltac:(lia) eq_refl) as H.
  destruct (argbest_from better 1 0 (fst r0) (map fst t)) as [v pos]. cbn [app] in H. rewrite H. reflexivity.
Qed.

(* a block of data starting at global position `off`, as (value, global position) records *)
Fixpoint locate_from (i : Z) (data : list Z) : list (Z * Z) :=
  match data with [] => [] | x :: t => (x, i) :: locate_from (i + 1) t end.

Lemma argbest_from_locate better off t : forall i bi bv,
  (let '(v, pos) := argbest_from better i bi bv t in (v, pos + off))
  = fold_left (pick better) (locate_from (i + off) t) (bv, bi + off).
Proof.
  induction t as [|x t IH]; intros i bi bv; [reflexivity|].
  cbn [argbest_from locate_from fold_left]. unfold pick at 2. cbn [fst].
  replace (i + off + 1) with (i + 1 + off) by lia.
  destruct (better x bv); apply IH.
Qed.

(* np.argmax of a block with the positions made global: the same scan over the located data *)
Lemma np_argbest_locate better off data :
  np_fold (pick better) (locate_from off data)
  = option_map (fun vp => (fst vp, snd vp + off)) (np_argbest better data).
Proof.
  destruct data as [|x t]; [reflexivity|]. cbn [np_argbest locate_from np_fold option_map].
  pose proof (argbest_from_locate better off t 1 0 x) as H.
  destruct (argbest_from better 1 0 x t) as [v pos].
  rewrite Z.add_0_l, (Z.add_comm 1) in H. rewrite <- H. reflexivity.
Qed.

Lemma arg_chunk_axis_locate better off data :
  arg_chunk_axis better (off, data) = opt_to_list (arg_combine better (locate_from off data)).
Proof.
  rewrite arg_combine_fold, np_argbest_locate. unfold arg_chunk_axis. cbn [fst snd].
  destruct (np_argbest better data) as [[v pos]|]; reflexivity.
Qed.

Theorem hom_arg_axis better : strict_weak better ->
  hom_reduction (red_arg_axis better) (fun b => locate_from (fst b) (snd b))
                (fun recs => opt_to_list (arg_combine better recs))
                (fun recs => option_map snd (arg_combine better recs)).
Proof.
  intros Hsw.
  pose proof (np_fold_absorb _ (pick_assoc better Hsw) _ (arg_combine_fold better)) as Habs.
  repeat split.
  - intros [off data]. apply arg_chunk_axis_locate.
  - intros ds _. cbn. rewrite Habs. reflexivity.
  - intros ds _. cbn. rewrite Habs. destruct (arg_combine better (concat ds)) as [[v a]|]; reflexivity.
Qed.

(* the blocks with their offsets cover the located data *)
Fixpoint offsets_from (o : Z) (chunks : list Z) : list Z :=
  match chunks with [] => [] | c :: t => o :: offsets_from (o + c) t end.

Lemma offsets_from_length cs : forall o, length (offsets_from o cs) = length cs.
Proof. induction cs as [|c t IH]; intros o; cbn; [reflexivity|]. rewrite IH. reflexivity. Qed.

Lemma block_offsets_from cs : forall o, cs <> [] -> o :: removelast (cumsum_from o cs) = offsets_from o cs.
Proof.
  induction cs as [|c t IH]; intros o H; [congruence|].
  cbn [cumsum_from offsets_from]. f_equal.
  destruct t as [|c' t']; [reflexivity|].
  rewrite <- (IH (o + c)) by congruence. cbn [cumsum_from]. reflexivity.
Qed.

Lemma combine_block_offsets {A} cs (l : list A) :
  length l = length cs -> combine (block_offsets cs) l = combine (offsets_from 0 cs) l.
Proof.
  intros H. destruct cs as [|c t]; [destruct l; [reflexivity | discriminate]|].
  unfold block_offsets, cumsum. rewrite block_offsets_from by congruence. reflexivity.
Qed.

Lemma split_chunks_length {A} cs (l : list A) : length (split_chunks cs l) = length cs.
Proof. revert l. induction cs as [|c t IH]; intros l; cbn; [reflexivity|]. rewrite IH. reflexivity. Qed.

Lemma locate_from_app o a b : locate_from o (a ++ b) = locate_from o a ++ locate_from (o + Z.of_nat (length a)) b.
Proof.
  revert o. induction a as [|x t IH]; intros o; cbn [app locate_from length].
  - rewrite Z.add_0_r. reflexivity.
  - rewrite IH. cbn [app]. do 3 f_equal. lia.
Qed.

Lemma located_blocks cs : forall o (data : list Z),
  Forall (fun c => 0 <= c) cs -> zsum cs = Z.of_nat (length data) ->
  concat (map (fun b => locate_from (fst b) (snd b)) (combine (offsets_from o cs) (split_chunks cs data)))
  = locate_from o data.
Proof.
  induction cs as [|c t IH]; intros o data Hnn Hsum.
  - cbn in *. destruct data; [reflexivity | cbn in Hsum; lia].
  - inversion Hnn as [|? ? Hc Ht]; subst. cbn [zsum] in Hsum.
    pose proof (zsum_nonneg t Ht) as Hnt.
    cbn [offsets_from split_chunks combine map concat fst snd].
    rewrite IH; [|assumption|rewrite skipn_length; lia].
    rewrite <- (firstn_skipn (Z.to_nat c) data) at 3. rewrite locate_from_app.
    rewrite firstn_length. do 2 f_equal. lia.
Qed.

(* the statement of C18_arg_axis_chunking_independent *)
Theorem arg_axis_tree better chunks data k depth :
  strict_weak better -> chunks <> [] -> Forall (fun c => 0 <= c) chunks -> zsum chunks = Z.of_nat (length data) ->
  2 <= k -> 1 <= depth -> Z.of_nat (length chunks) <= k ^ depth ->
  tree_reduce_1d (red_arg_axis better) k depth (combine (block_offsets chunks) (split_chunks chunks data))
  = [option_map snd (np_argbest better data)].
Proof.
  intros Hsw Hne Hnn Hsum Hk Hd Hlen.
  rewrite combine_block_offsets by apply split_chunks_length.
  assert (length (combine (offsets_from 0 chunks) (split_chunks chunks data)) = length chunks) as Hl.
  { rewrite combine_length, split_chunks_length, offsets_from_length. lia. }
  rewrite (tree_reduce_1d_hom _ _ _ _ (hom_arg_axis better Hsw) k depth); try assumption.
  - rewrite located_blocks, arg_combine_fold, np_argbest_locate by assumption.
    destruct (np_argbest better data) as [[v pos]|]; cbn; [rewrite Z.add_0_r|]; reflexivity.
  - intros H. rewrite H in Hl. destruct chunks; [congruence | discriminate].
  - rewrite Hl. assumption.
Qed.

(* blocks that are their own data (phi = identity) *)

Theorem tree_reduce_1d_ok {D S R} (r : reduction (list D) S R) (h : list D -> S) (spec : list D -> R) :
  hom_reduction r (fun b => b) h spec ->
  forall k depth blocks, tree_ok k depth blocks -> tree_reduce_1d r k depth blocks = [spec (concat blocks)].
Proof.
  intros Hh k depth blocks (Hk & Hd & Hb & Hl).
  rewrite (tree_reduce_1d_hom r _ h spec Hh), map_id by assumption. reflexivity.
Qed.

Lemma tree_ok_map {A B} (f : A -> B) k depth (l : list A) : tree_ok k depth l -> tree_ok k depth (map f l).
Proof.
  unfold tree_ok. rewrite map_length. intros (Hk & Hd & Hb & Hl). repeat split; try assumption.
  destruct l; [congruence | discriminate].
Qed.

Theorem count_nonzero_tree_ok k depth blocks : tree_ok k depth blocks ->
  tree_reduce_1d red_sum k depth (count_nonzero_blocks blocks)
  = [zsum (map (fun x => b2z (nonzero x)) (concat blocks))].
Proof.
  intros H. rewrite (tree_reduce_1d_ok _ _ _ hom_sum) by apply tree_ok_map, H.
  rewrite count_nonzero_concat. reflexivity.
Qed.

Theorem tree_laws_sum : tree_laws (r_combine red_sum) (r_agg red_sum).
Proof.
  exact (tree_laws_concat_monoid Z.add 0 (fun x => x) zadd_laws Z.add_comm).
Qed.

Theorem tree_laws_prod : tree_laws (r_combine red_prod) (r_agg red_prod).
Proof.
  exact (tree_laws_concat_monoid Z.mul 1 (fun x => x) zmul_laws Z.mul_comm).
Qed.

Theorem tree_laws_fsum : tree_laws (r_combine red_fsum) (r_agg red_fsum).
Proof.
  apply (tree_laws_concat_monoid fadd (Some 0) (fun x => x) fadd_laws).
  intros [a|] [b|]; cbn; try reflexivity. f_equal. lia.
Qed.

(* da.mean: both components of the (n, total) pairs are sums *)
Theorem tree_laws_mean : tree_laws (r_combine red_mean) (r_agg red_mean).
Proof.
  assert (forall (p : Z * Z -> Z) l l', Permutation l l' -> zsum (map p l) = zsum (map p l')) as HP.
  { intros p l l' H. apply (mfold_perm Z.add 0 zadd_laws Z.add_comm), Permutation_map, H. }
  assert (forall (p : Z * Z -> Z) ls, zsum (map (fun l => zsum (map p l)) ls) = zsum (map p (concat ls))) as HF.
  { intros p ls. rewrite concat_map, zsum_concat, map_map. reflexivity. }
  split.
  - intros l l' H. cbn. rewrite (HP fst l l' H), (HP snd l l' H). split; reflexivity.
  - intros ls. cbn. rewrite !map_map. cbn. rewrite !HF. split; reflexivity.
Qed.
