(* Proofs about the sliding / moving window transfer estimates of Transfer2.v (property C27):
   SlidingWindowReduction._block_plan / .transfer_bytes, MovingWindowReduction._block_plan /
   .transfer_bytes.  The work is the `bisect_right(starts, .)` arithmetic of the band blocks. *)
From DA Require Import PyBase PyBaseFacts Slicing Unify UnifyFacts Transfer TransferFacts Transfer2 Transfer2Facts WindowBase.
Open Scope Z_scope.

(* prefix sums: pre l j = starts[j] = sum(l[:j]).  Transfer2's zlen and starts_of and this pre are
   Window's zlen and starts and WindowBase's psum under other names: the facts are WindowBase's. *)
Definition pre (l : list Z) (j : Z) : Z := zsum (firstn (Z.to_nat j) l).

Lemma nth_starts l j : 0 <= j <= zlen l -> nthZ (starts_of l) j = pre l j.
Proof. exact (nthZ_starts l j). Qed.

Lemma pre_0 l : pre l 0 = 0.
Proof. reflexivity. Qed.

Lemma pre_total l : pre l (zlen l) = zsum l.
Proof. exact (psum_all l). Qed.

Lemma pre_step l i : 0 <= i < zlen l -> pre l (i + 1) = pre l i + nthZ l i.
Proof. exact (psum_succ l i). Qed.

Lemma pre_nonneg l j : nonneg_layout l -> 0 <= pre l j.
Proof. exact (psum_nonneg l j). Qed.

Lemma pre_le_total l j : nonneg_layout l -> pre l j <= zsum l.
Proof. exact (psum_le_total l j). Qed.

Lemma pre_mono l a b : nonneg_layout l -> 0 <= a <= b -> pre l a <= pre l b.
Proof. intros H [Ha Hab]. exact (psum_mono l a b H Ha Hab). Qed.

Lemma pre_lt_inv l a b : nonneg_layout l -> 0 <= b -> pre l a < pre l b -> a < b.
Proof. exact (psum_lt_inv l a b). Qed.

(* sum(l[a:b]) = starts[b] - starts[a] *)
Lemma slice_sum_pre l a b : 0 <= a <= b -> slice_sum l a b = pre l b - pre l a.
Proof.
  intros H. unfold slice_sum, pre. replace (Z.to_nat b) with (Z.to_nat a + Z.to_nat (b - a))%nat by lia.
  rewrite <- (zsum_firstn_skipn (Z.to_nat a) (firstn _ l)), firstn_firstn, Nat.min_l, <- firstn_skipn_comm by lia.
  lia.
Qed.

(* the block at position i, reached as the head of l[i:] *)
Lemma skipn_cons : forall (l : list Z) n c cs, skipn n l = c :: cs ->
  skipn (S n) l = cs /\ (n < length l)%nat /\ nth n l 0 = c.
Proof.
  induction l as [|x t IH]; intros n c cs H.
  - rewrite skipn_nil in H. discriminate.
  - destruct n as [|n]; cbn [skipn] in H.
    + injection H as -> ->. cbn. repeat split; lia.
    + destruct (IH n c cs H) as (B & C & D). cbn [length nth]. repeat split; try lia; assumption.
Qed.

Lemma pre_succ l i c cs : 0 <= i -> skipn (Z.to_nat i) l = c :: cs ->
  pre l (i + 1) = pre l i + c /\ skipn (Z.to_nat (i + 1)) l = cs /\ i < zlen l /\ nthZ l i = c.
Proof.
  intros Hi H. destruct (skipn_cons l _ c cs H) as (B & C & D).
  assert (i < zlen l) as Hlt by (unfold zlen; lia).
  rewrite pre_step by lia. replace (Z.to_nat (i + 1)) with (S (Z.to_nat i)) by lia.
  unfold nthZ. rewrite D. auto.
Qed.

(* bisect_right on the cumulative sums finds the block that contains position x *)
Lemma bisect_cumsum l x : 0 <= x < zsum l ->
  let r := bisect_right (cumsum l) x in 0 <= r < zlen l /\ pre l r <= x < pre l (r + 1).
Proof.
  intros Hx. apply (bisect_starts l x); [|exact Hx].
  unfold Window.starts. cbn [bisect_right]. replace (0 <=? x) with true by lia. lia.
Qed.

(* with the leading 0 of starts, bisect_right(starts, x) - 1 is that block *)
Lemma bisect_starts_inside l x : 0 <= x < zsum l ->
  let r := bisect_right (starts_of l) x - 1 in 0 <= r < zlen l /\ pre l r <= x < pre l (r + 1).
Proof. exact (bisect_starts l x _ eq_refl). Qed.

(* two positions x <= y: their blocks b <= e *)
Lemma band_span l x y : nonneg_layout l -> 0 <= x <= y -> y < zsum l ->
  let b := bisect_right (starts_of l) x - 1 in
  let e := bisect_right (starts_of l) y - 1 in
  0 <= b <= e /\ e < zlen l /\ pre l b <= x < pre l (b + 1) /\ pre l e <= y < pre l (e + 1).
Proof.
  intros H Hxy Hy.
  pose proof (bisect_starts_inside l x ltac:(lia)) as Pb.
  pose proof (bisect_starts_inside l y ltac:(lia)) as Pe. cbv zeta in *.
  set (b := bisect_right (starts_of l) x - 1) in *.
  set (e := bisect_right (starts_of l) y - 1) in *.
  pose proof (pre_lt_inv l b (e + 1) H ltac:(lia) ltac:(lia)). lia.
Qed.

(* a row of MovingWindowReduction._block_plan is (start, c, band_start, band, n_middle): the block starts at
   `start` and has c elements; band = Some (g, h), the first and last block of its band, band_start the
   offset of the band inside block g; n_middle the number of blocks strictly between the band and the block *)
Definition mw_row_ok (full : list Z) (row : Z * Z * Z * option (Z * Z) * Z) : Prop :=
  let '(_, c, band_start, band, n_middle) := row in
  0 <= n_middle /\ 0 <= c /\
  match band with
  | None => True
  | Some (g, h) => 0 <= band_start <= slice_sum full g (h + 1)
  end.

(* the row of a non-empty block i: its band [band_first, band_last] lies inside the axis *)
Lemma mw_row full window i : nonneg_layout full -> 1 <= window -> 0 <= i < zlen full -> 0 < nthZ full i ->
  let start := nthZ (starts_of full) i in
  let band_first := Z.max 0 (start - window + 1) in
  let band_last := Z.max band_first (start + nthZ full i - window) in
  let g := bisect_right (starts_of full) band_first - 1 in
  let h := bisect_right (starts_of full) band_last - 1 in
  mw_row_ok full (start, nthZ full i, band_first - nthZ (starts_of full) g, Some (g, h), Z.max 0 (i - (h + 1))).
Proof.
  intros Hnn Hw Hi Hc. rewrite (nth_starts full i) by lia. cbv zeta.
  pose proof (pre_nonneg full i Hnn) as Hs0. pose proof (pre_le_total full (i + 1) Hnn) as Hs1.
  rewrite (pre_step full i Hi) in Hs1.
  set (band_first := Z.max 0 (pre full i - window + 1)).
  set (band_last := Z.max band_first (pre full i + nthZ full i - window)).
  pose proof (band_span full band_first band_last Hnn ltac:(lia) ltac:(lia)) as P. cbv zeta in P.
  set (g := bisect_right (starts_of full) band_first - 1) in *.
  set (h := bisect_right (starts_of full) band_last - 1) in *.
  rewrite (nth_starts full g) by lia. unfold mw_row_ok. rewrite slice_sum_pre by lia. lia.
Qed.

Lemma mw_plan_ok full window : pos_layout full -> 1 <= window ->
  forall rest i, 0 <= i -> skipn (Z.to_nat i) full = rest ->
  Forall (mw_row_ok full) (mw_plan (starts_of full) window rest i).
Proof.
  intros Hpos Hw. pose proof (Forall_pos_nonneg _ Hpos) as Hnn.
  induction rest as [|c cs IH]; intros i Hi Hsk; cbn [mw_plan]; [constructor|].
  destruct (pre_succ full i c cs Hi Hsk) as (_ & Hsk' & Hlt & Hnth).
  assert (0 < c) as Hc by (rewrite <- Hnth; exact (nthZ_pos full i Hpos (conj Hi Hlt))).
  destruct (nthZ (starts_of full) i =? 0); (constructor; [|apply IH; [lia | exact Hsk']]).
  - unfold mw_row_ok. lia.
  - rewrite <- Hnth in *. apply mw_row; assumption || lia.
Qed.

Lemma mw_loop_wf full : forall plan lo hi, Forall (mw_row_ok full) plan -> 0 <= lo <= hi ->
  wellformed (mw_loop full plan lo hi).
Proof.
  induction plan as [|row plan IH]; intros lo hi H Hinv; cbn [mw_loop].
  - unfold wellformed. cbn [fst snd]. lia.
  - inversion H as [|? ? Hrow Hrest]; subst.
    destruct row as [[[[start c] band_start] band] n_middle]. unfold mw_row_ok in Hrow.
    destruct Hrow as (Hm & Hc & Hband).
    destruct band as [[g h]|]; apply IH; try exact Hrest; lia.
Qed.

Theorem moving_wellformed chunks axis itemsize window :
  0 <= itemsize -> Forall nonneg_layout chunks -> pos_layout (nth axis chunks []) -> 1 <= window ->
  wellformed (moving_transfer chunks axis itemsize window).
Proof.
  intros Hi Hc Hpos Hw. unfold moving_transfer.
  pose proof (mw_plan_ok (nth axis chunks []) window Hpos Hw (nth axis chunks []) 0 ltac:(lia) eq_refl) as Hplan.
  pose proof (mw_loop_wf (nth axis chunks []) _ 0 0 Hplan ltac:(lia)) as Hwf.
  unfold moving_plan.
  destruct (mw_loop (nth axis chunks []) (mw_plan (starts_of (nth axis chunks [])) window (nth axis chunks []) 0) 0 0) as [lo hi].
  apply scale_wf; [exact Hwf | apply cross_nonneg; assumption].
Qed.

(* a single block along the sliding axis: nothing has to move; max fetches the block once *)
Theorem moving_single_block chunks axis itemsize window c :
  nth axis chunks [] = [c] ->
  moving_transfer chunks axis itemsize window = (0, c * cross_section chunks axis itemsize).
Proof.
  intros H. unfold moving_transfer, moving_plan. rewrite H.
  cbn [mw_plan]. unfold nthZ, starts_of. change (nth (Z.to_nat 0) (0 :: cumsum [c]) 0) with 0.
  change (0 =? 0) with true. cbn [mw_loop]. f_equal; lia.
Qed.

(* the constructor's guard needs at least two blocks *)
Theorem supports_moving_two_blocks chunks window :
  supports_moving chunks window = true -> (2 <= length chunks)%nat /\ 2 <= window.
Proof.
  unfold supports_moving, zlen. intros H.
  destruct (window <=? 1) eqn:E1; [discriminate|].
  destruct (zmin_ne chunks <=? 0); [discriminate|].
  destruct (Z.of_nat (length chunks) <? 2) eqn:E2; [discriminate|]. lia.
Qed.

(* a row of SlidingWindowReduction._block_plan for block i is (out_len, band_offset, b, e): the block emits
   out_len outputs; they need the positions from band_offset inside block b up to block e *)
Definition sw_row_ok (full : list Z) (window i : Z) (row : Z * Z * Z * Z) : Prop :=
  let '(out_len, band_offset, b, e) := row in
  out_len <= 0 \/
  (i <= b /\ b <= e /\ e < zlen full /\ 0 <= band_offset /\
   band_offset + out_len <= slice_sum full b (e + 1) /\
   (nthZ full i <= window - 1 -> i < b) /\
   0 <= i < zlen full /\ pre full i < zsum full - window + 1).

Fixpoint sw_rows_ok (full : list Z) (window i : Z) (plan : list (Z * Z * Z * Z)) : Prop :=
  match plan with
  | [] => True
  | row :: plan' => sw_row_ok full window i row /\ sw_rows_ok full window (i + 1) plan'
  end.

(* the row of a block i that emits out_len > 0 outputs: the first of them needs the positions from
   edge = starts[i] + window - 1 on *)
Lemma sw_row full window i out_len : nonneg_layout full -> 1 <= window -> 0 <= i < zlen full ->
  0 < out_len <= nthZ full i -> out_len <= zsum full - window + 1 - pre full i ->
  let edge := nthZ (starts_of full) i + window - 1 in
  let b := bisect_right (starts_of full) edge - 1 in
  let e := bisect_right (starts_of full) (edge + out_len - 1) - 1 in
  sw_row_ok full window i (out_len, edge - nthZ (starts_of full) b, b, e).
Proof.
  intros Hnn Hw Hi Hlen Hrem. rewrite (nth_starts full i) by lia. cbv zeta.
  pose proof (pre_nonneg full i Hnn) as Hs0. pose proof (pre_step full i Hi) as Hp.
  set (edge := pre full i + window - 1).
  pose proof (band_span full edge (edge + out_len - 1) Hnn ltac:(lia) ltac:(lia)) as P. cbv zeta in P.
  set (b := bisect_right (starts_of full) edge - 1) in *.
  set (e := bisect_right (starts_of full) (edge + out_len - 1) - 1) in *.
  rewrite (nth_starts full b) by lia. unfold sw_row_ok. rewrite slice_sum_pre by lia. right.
  pose proof (pre_lt_inv full i (b + 1) Hnn ltac:(lia) ltac:(lia)).
  assert (nthZ full i <= window - 1 -> i < b) as Hguard.
  { intros Hle. pose proof (pre_lt_inv full (i + 1) (b + 1) Hnn ltac:(lia) ltac:(lia)). lia. }
  repeat split; try exact Hguard; lia.
Qed.

Lemma sw_plan_ok full window : nonneg_layout full -> 1 <= window ->
  forall rest i remaining, 0 <= i -> skipn (Z.to_nat i) full = rest ->
  (remaining = zsum full - window + 1 - pre full i \/ remaining <= 0) ->
  sw_rows_ok full window i (sw_plan (starts_of full) window rest i remaining).
Proof.
  intros Hnn Hw.
  induction rest as [|c cs IH]; intros i remaining Hi Hsk Hinv; cbn [sw_plan]; [exact I|].
  destruct (pre_succ full i c cs Hi Hsk) as (Hp & Hsk' & Hlt & Hnth).
  assert (0 <= c) as Hc by (rewrite <- Hnth; apply nthZ_nonneg; exact Hnn).
  set (out_len := Z.max 0 (Z.min c remaining)).
  assert (remaining - out_len = zsum full - window + 1 - pre full (i + 1) \/ remaining - out_len <= 0) as Hinv'
    by (subst out_len; lia).
  destruct (out_len <=? 0) eqn:E; cbn [sw_rows_ok]; (split; [|apply IH; [lia | exact Hsk' | exact Hinv']]).
  - left. lia.
  - apply sw_row; try assumption; subst out_len; lia.
Qed.

Lemma sw_loop_wf full window : nonneg_layout full -> forall plan i lo hi,
  sw_rows_ok full window i plan -> 0 <= lo <= hi -> wellformed (sw_loop full i plan lo hi).
Proof.
  intros Hnn. induction plan as [|row plan IH]; intros i lo hi H Hinv; cbn [sw_loop].
  - unfold wellformed. cbn [fst snd]. lia.
  - destruct row as [[[out_len band_offset] b] e]. cbn [sw_rows_ok] in H. destruct H as [Hrow Hrest].
    destruct (out_len <=? 0) eqn:E; [unfold wellformed; cbn [fst snd]; lia|].
    unfold sw_row_ok in Hrow. destruct Hrow as [Hz|(Hib & Hbe & He & Hoff & Hband & _ & _ & _)]; [lia|].
    pose proof (nthZ_nonneg full i Hnn).
    apply IH; [exact Hrest | lia].
Qed.

Theorem sliding_plan_rows full window :
  nonneg_layout full -> 1 <= window -> sw_rows_ok full window 0 (sliding_plan full window).
Proof.
  intros Hnn Hw. unfold sliding_plan.
  apply (sw_plan_ok full window Hnn Hw full 0 (zsum full - window + 1)); [lia | reflexivity|].
  rewrite pre_0. left. lia.
Qed.

(* zero-size chunks are allowed here; the window must be at least 1 *)
Theorem sliding_wellformed chunks axis itemsize window :
  0 <= itemsize -> Forall nonneg_layout chunks -> 1 <= window ->
  wellformed (sliding_transfer chunks axis itemsize window).
Proof.
  intros Hi Hc Hw. unfold sliding_transfer.
  pose proof (nth_nonneg_layout chunks axis Hc) as Hnn.
  pose proof (sliding_plan_rows (nth axis chunks []) window Hnn Hw) as Hplan.
  pose proof (sw_loop_wf (nth axis chunks []) window Hnn _ 0 0 0 Hplan ltac:(lia)) as Hwf.
  destruct (sw_loop (nth axis chunks []) 0 _ 0 0) as [lo hi].
  apply scale_wf; [exact Hwf | apply cross_nonneg; assumption].
Qed.

(* inside the constructor's guard the band lies strictly to the right of the block *)
Fixpoint sw_rows_right (i : Z) (plan : list (Z * Z * Z * Z)) : Prop :=
  match plan with
  | [] => True
  | (out_len, _, b, _) :: plan' => (out_len <= 0 \/ i < b) /\ sw_rows_right (i + 1) plan'
  end.

Definition emitting_small (full : list Z) (window : Z) : Prop :=
  forall j, 0 <= j < zlen full -> pre full j < zsum full - window + 1 -> nthZ full j <= window - 1.

Lemma sns_loop_small full depth R : nonneg_layout full ->
  forall rest i, 0 <= i -> skipn (Z.to_nat i) full = rest ->
  sns_loop depth R rest (pre full i) = true ->
  forall j, i <= j < zlen full -> pre full j < R -> nthZ full j <= depth.
Proof.
  intros Hnn. induction rest as [|c cs IH]; intros i Hi Hsk Hs j Hj Hpre.
  - exfalso. assert (length (skipn (Z.to_nat i) full) = 0%nat) as Hl by (rewrite Hsk; reflexivity).
    rewrite skipn_length in Hl. unfold zlen in Hj. lia.
  - destruct (pre_succ full i c cs Hi Hsk) as (Hp & Hsk' & Hlt & Hnth).
    cbn [sns_loop] in Hs.
    destruct (R <=? pre full i) eqn:E1.
    + pose proof (pre_mono full i j Hnn ltac:(lia)). lia.
    + destruct (depth <? c) eqn:E2; [discriminate|].
      destruct (Z.eq_dec j i) as [->|Hne]; [lia|].
      rewrite <- Hp in Hs. apply (IH (i + 1) ltac:(lia) Hsk' Hs j); lia.
Qed.

Lemma zmin_ne_pos l : 0 < zmin_ne l -> pos_layout l.
Proof.
  destruct l as [|x t]; [constructor|]. cbn [zmin_ne]. revert x.
  induction t as [|y t IH]; intros x H; cbn [fold_right] in H.
  - repeat constructor. exact H.
  - assert (0 < fold_right Z.min x t) as H1 by lia. assert (0 < y) as H2 by lia.
    specialize (IH x H1). inversion IH; subst. repeat constructor; assumption.
Qed.

Lemma supports_sliding_facts full window :
  supports_sliding full window = true ->
  pos_layout full /\ 2 <= window <= zsum full /\ emitting_small full window.
Proof.
  unfold supports_sliding. intros H.
  destruct (window - 1 <=? 0) eqn:E1; [discriminate|].
  destruct (zmin_ne full <=? 0) eqn:E2; [discriminate|].
  destruct (zsum full <? window) eqn:E3; [discriminate|].
  destruct ((window - 1 <=? zmin_ne full) && (window - 1 <? last full 0)); [discriminate|].
  pose proof (zmin_ne_pos full ltac:(lia)) as Hpos.
  repeat split; try lia; try exact Hpos.
  intros j Hj Hpre.
  apply (sns_loop_small full (window - 1) (zsum full - (window - 1)) (Forall_pos_nonneg _ Hpos) full 0 ltac:(lia) eq_refl H j); lia.
Qed.

Lemma rows_right full window : emitting_small full window -> forall plan i,
  sw_rows_ok full window i plan -> sw_rows_right i plan.
Proof.
  intros Hsmall. induction plan as [|row plan IH]; intros i H; [exact I|].
  destruct row as [[[out_len band_offset] b] e]. cbn [sw_rows_ok sw_rows_right] in *.
  destruct H as [Hrow Hrest]. split; [|apply IH; exact Hrest].
  unfold sw_row_ok in Hrow. destruct Hrow as [Hz|(_ & _ & _ & _ & _ & Hg & Hi & Hp)]; [left; exact Hz|].
  right. apply Hg. apply Hsmall; assumption.
Qed.

(* every output-emitting block of a layout the guard accepts has b > i, so `middles = b - i - 1`
   is >= 0 and the band never contains the block itself *)
Theorem sliding_guard_band_right full window :
  supports_sliding full window = true -> sw_rows_right 0 (sliding_plan full window).
Proof.
  intros H. destruct (supports_sliding_facts full window H) as (Hpos & Hw & Hsmall).
  apply (rows_right full window Hsmall). apply sliding_plan_rows; [apply Forall_pos_nonneg; exact Hpos | lia].
Qed.

(* a window longer than the axis: no output block, nothing moves *)
Theorem sliding_window_too_long chunks axis itemsize window :
  zsum (nth axis chunks []) < window ->
  sliding_transfer chunks axis itemsize window = (0, 0).
Proof.
  intros H. unfold sliding_transfer, sliding_plan.
  destruct (nth axis chunks []) as [|c cs] eqn:E; [reflexivity|].
  cbn [sw_plan]. assert (Z.max 0 (Z.min c (zsum (c :: cs) - window + 1)) <=? 0 = true) as -> by lia.
  cbn [sw_loop]. reflexivity.
Qed.

(* the constructor's guard needs at least two blocks ... *)
Theorem supports_sliding_two_blocks chunks window :
  supports_sliding chunks window = true -> (2 <= length chunks)%nat /\ 2 <= window.
Proof.
  unfold supports_sliding. intros H.
  destruct (window - 1 <=? 0) eqn:E1; [discriminate|].
  destruct chunks as [|c [|c2 t]]; cbn [length]; [cbn in H; discriminate | | lia].
  exfalso. cbn [zmin_ne fold_right zsum last] in H.
  destruct (c <=? 0) eqn:E2; [discriminate|].
  destruct (c + 0 <? window) eqn:E3; [discriminate|].
  assert ((window - 1 <=? c) && (window - 1 <? c) = true) as E4 by lia.
  rewrite E4 in H. discriminate.
Qed.

(* ... which matters: the estimate of a SINGLE block (built directly, outside the guard) is
   not zero — the `band` is the block itself and `middles` is -1 (see C27.v).  Here n = 5 and one
   hyperplane has cross = 3 * 8 bytes: min = (n - 1) * cross = 96 *)
Theorem sliding_single_block_moves :
  exists chunks axis itemsize window,
    length (nth axis chunks []) = 1%nat /\ 1 <= window <= zsum (nth axis chunks []) /\
    sliding_transfer chunks axis itemsize window = (96, 216).
Proof. exists [[5]; [2; 1]], 0%nat, 8, 2. repeat split; try (cbn; lia). Qed.
