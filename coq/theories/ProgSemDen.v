(* EVERY operation of ProgSem.v reads its operand in bounds (so it is a congruence for equality on the
   index space), hence the flat evaluator [eval] is the tabulation of the compositional index-function
   denotation [pden] for all programs.  The pushdown laws (ProgSemLaws / ProgSemReduce / ProgSemBcast) are
   proved on [pden], where no intermediate array is materialised, and carried over to [eval] by
   [eval_of_den] in the three shapes [law_un2_un], [law_un2_un2], [law_un_n] at the end of this file. *)
From DA Require Import PyBase PyBaseFacts Slicing NormalizeFacts FuseFacts NdArray NdArrayFacts ProgSem ProgSemFacts.
Open Scope Z_scope.

Lemma in_bounds_iff_nth idx s :
  in_bounds idx s <-> length idx = length s /\ forall k, (k < length s)%nat -> 0 <= nth k idx 0 < nth k s 0.
Proof.
  split.
  - intros H. split; [apply in_bounds_length; exact H | intros k Hk; apply in_bounds_nth; assumption].
  - intros [Hl H]. apply in_bounds_of_nth; assumption.
Qed.

Lemma in_bounds_upd ax f out s' s :
  in_bounds out s' -> length s' = length s -> (ax < length s)%nat ->
  (forall k, k <> ax -> nth k s' 0 = nth k s 0) ->
  0 <= f (nth ax out 0) < nth ax s 0 ->
  in_bounds (upd ax f out) s.
Proof.
  intros Ho Hl Hax Hoff Hf. apply in_bounds_iff_nth in Ho. destruct Ho as [Hlo Ho].
  apply in_bounds_iff_nth. unfold upd. rewrite set_nth_length. split; [lia|]. intros k Hk.
  destruct (Nat.eq_dec k ax) as [->|Hne].
  - rewrite nth_set_nth_eq by lia. exact Hf.
  - rewrite nth_set_nth_neq by congruence. rewrite <- Hoff by exact Hne. apply Ho. lia.
Qed.

Lemma in_bounds_upd_set ax f out v s :
  in_bounds out (set_nth ax v s) -> (ax < length s)%nat -> 0 <= f (nth ax out 0) < nth ax s 0 ->
  in_bounds (upd ax f out) s.
Proof.
  intros Ho Hax Hf. apply (in_bounds_upd ax f out (set_nth ax v s)); try assumption; [apply set_nth_length|].
  intros k Hk. apply nth_set_nth_neq. congruence.
Qed.

Lemma ltn_lt a n : ltn a n = true <-> (a < n)%nat.
Proof. unfold ltn. apply Nat.ltb_lt. Qed.

(* an operation is a congruence when it reads its operand in bounds only *)
Definition un_congr (o : unop) : Prop :=
  forall y y', nonneg_shape (shape y) -> un_ok o (shape y) = true -> aeq y y' -> aeq (un_arr o y) (un_arr o y').

(* the two operands may be taken to have literally the same shape, and only values are compared *)
Lemma un_congr_get o :
  (forall y g out, nonneg_shape (shape y) -> un_ok o (shape y) = true ->
     (forall idx, in_bounds idx (shape y) -> get y idx = g idx) ->
     in_bounds out (un_shape o (shape y)) ->
     get (un_arr o y) out = get (un_arr o (mkarr (shape y) g)) out) ->
  un_congr o.
Proof.
  intros H y [s' g] Hn Hok [Hs Hg]. cbn [shape get] in Hs, Hg. subst s'.
  split; [rewrite !un_arr_shape; reflexivity|].
  intros out Ho. rewrite un_arr_shape in Ho. apply H; assumption.
Qed.

Lemma congr_T axes : un_congr (OT axes).
Proof. intros y y' _ Hok H. cbn [un_arr un_ok] in *. apply atranspose_congr; assumption. Qed.

(* [ixokb] also admits None and fewer entries than axes (NdArrayFacts.slice_src_in_bounds is about [idx_okb]) *)
Lemma ix_src_in_bounds ix : forall s out,
  nonneg_shape s -> ixokb ix s = true -> in_bounds out (slice_shape ix s) -> in_bounds (slice_src ix s out) s.
Proof.
  induction ix as [|i ix IH]; intros s out Hn H Ho; [exact Ho|].
  destruct i as [z|sl|]; cbn [ixokb slice_shape slice_src] in *.
  - destruct s as [|n s]; [discriminate|]. apply andb_true_iff in H. destruct H as [Hi H].
    inversion Hn; subst. cbn [hd tl in_bounds] in *.
    split; [apply posify_range; exact Hi | apply IH; assumption].
  - destruct s as [|n s]; [discriminate|]. apply andb_true_iff in H. destruct H as [Hi H].
    inversion Hn; subst. cbn [hd tl] in *.
    destruct out as [|j out]; cbn [in_bounds] in Ho; [tauto|]. destruct Ho as [Hj Ho]. cbn [hd tl in_bounds].
    split; [apply sel_nth_range; [assumption | lia | assumption] | apply IH; assumption].
  - destruct out as [|j out]; cbn [in_bounds] in Ho; [tauto|]. destruct Ho as [Hj Ho]. cbn [tl].
    apply IH; assumption.
Qed.

Lemma congr_slice ix : un_congr (OSlice ix).
Proof.
  apply un_congr_get. intros y g out Hn Hok Hg Ho. apply Hg. apply ix_src_in_bounds; assumption.
Qed.

Lemma in_bounds_insert_at k i n : forall out s, in_bounds out s -> 0 <= i < n ->
  in_bounds (insert_at k i out) (insert_at k n s).
Proof.
  unfold insert_at. induction k as [|k IH]; intros [|j out] [|m s] H Hi; cbn [in_bounds] in H; try (exfalso; tauto);
    cbn [firstn skipn app in_bounds]; try tauto.
  split; [tauto | apply IH; tauto].
Qed.

Lemma in_bounds_remove_at k : forall out s, in_bounds out s -> in_bounds (remove_at k out) (remove_at k s).
Proof.
  unfold remove_at. induction k as [|k IH]; intros [|j out] [|m s] H; cbn [in_bounds] in H; try (exfalso; tauto);
    cbn [firstn skipn app in_bounds]; try tauto.
  split; [tauto | apply IH; tauto].
Qed.

Lemma congr_expand ax : un_congr (OExpand ax).
Proof.
  apply un_congr_get. intros y g out Hn Hok Hg Ho. cbn [un_ok un_shape] in Hok, Ho. apply Nat.leb_le in Hok.
  apply Hg. rewrite <- (remove_insert_at ax 1 (shape y)) by exact Hok. apply in_bounds_remove_at, Ho.
Qed.

Lemma congr_squeeze ax : un_congr (OSqueeze ax).
Proof.
  apply un_congr_get. intros y g out Hn Hok Hg Ho. cbn [un_ok un_shape] in Hok, Ho.
  apply andb_true_iff in Hok. destruct Hok as [Hax H1]. apply ltn_lt in Hax.
  apply Hg. rewrite <- (insert_remove_at 0 ax (shape y)) by exact Hax.
  apply in_bounds_insert_at; [exact Ho | lia].
Qed.

Lemma congr_broadcast shp : un_congr (OBroadcast shp).
Proof.
  apply un_congr_get. intros y g out Hn Hok Hg Ho. cbn [un_ok] in Hok. apply andb_true_iff in Hok.
  apply Hg. apply (bidx_in_bounds _ shp); [apply bcast_intob_spec, Hok | exact Ho].
Qed.

Lemma congr_flip ax : un_congr (OFlip ax).
Proof.
  apply un_congr_get. intros y g out Hn Hok Hg Ho. cbn [un_ok un_shape] in Hok, Ho. apply ltn_lt in Hok.
  apply Hg. pose proof (in_bounds_nth _ _ ax Ho Hok).
  apply (in_bounds_upd ax _ out (shape y)); try assumption; [reflexivity | intros; reflexivity | lia].
Qed.

Lemma congr_roll sh ax : un_congr (ORoll sh ax).
Proof.
  apply un_congr_get. intros y g out Hn Hok Hg Ho. cbn [un_ok un_shape] in Hok, Ho. apply ltn_lt in Hok.
  apply Hg. pose proof (in_bounds_nth _ _ ax Ho Hok).
  apply (in_bounds_upd ax _ out (shape y)); try assumption; [reflexivity | intros; reflexivity|].
  apply Z.mod_pos_bound. lia.
Qed.

Lemma in_bounds_set_nth out ax v s : in_bounds out (set_nth ax v s) -> (ax < length s)%nat -> 0 <= nth ax out 0 < v.
Proof.
  intros Ho Hax. pose proof (in_bounds_nth _ _ ax Ho) as Hi.
  rewrite set_nth_length, nth_set_nth_eq in Hi by exact Hax. exact (Hi Hax).
Qed.

Lemma congr_take idx ax : un_congr (OTake idx ax).
Proof.
  apply un_congr_get. intros y g out Hn Hok Hg Ho. cbn [un_ok un_shape] in Hok, Ho.
  apply andb_true_iff in Hok. destruct Hok as [Hax Hidx]. apply ltn_lt in Hax.
  pose proof (in_bounds_set_nth _ _ _ _ Ho Hax) as Hi. unfold lenZ in Hi.
  apply Hg. apply (in_bounds_upd_set ax _ out _ _ Ho Hax).
  apply posify_range. rewrite forallb_forall in Hidx. apply Hidx. unfold nthZ. apply nth_In. lia.
Qed.

Lemma congr_repeat k ax : un_congr (ORepeat k ax).
Proof.
  apply un_congr_get. intros y g out Hn Hok Hg Ho. cbn [un_ok un_shape] in Hok, Ho.
  apply andb_true_iff in Hok. destruct Hok as [Hax Hk]. apply ltn_lt in Hax.
  pose proof (in_bounds_set_nth _ _ _ _ Ho Hax) as Hi.
  apply Hg. apply (in_bounds_upd_set ax _ out _ _ Ho Hax).
  pose proof (nth_nonneg _ ax Hn). assert (0 < k) by nia.
  split; [apply Z.div_pos; lia | apply Z.div_lt_upper_bound; lia].
Qed.

Lemma congr_diff ax : un_congr (ODiff ax).
Proof.
  apply un_congr_get. intros y g out Hn Hok Hg Ho. cbn [un_ok un_shape] in Hok, Ho. apply ltn_lt in Hok.
  pose proof (in_bounds_set_nth _ _ _ _ Ho Hok) as Hi.
  cbn [un_arr adiff get shape]. f_equal; apply Hg.
  - apply (in_bounds_upd_set ax _ out _ _ Ho Hok). lia.
  - replace out with (upd ax (fun i => i) out) by (unfold upd; apply set_nth_same).
    apply (in_bounds_upd_set ax _ out _ _ Ho Hok). lia.
Qed.

Lemma congr_cum f ax : un_congr (OCum f ax).
Proof.
  apply un_congr_get. intros y g out Hn Hok Hg Ho. cbn [un_ok un_shape] in Hok, Ho. apply ltn_lt in Hok.
  cbn [un_arr acum get shape]. f_equal. apply map_ext_in. intros k Hk.
  apply zrange_unit_In in Hk. apply Hg.
  pose proof (in_bounds_nth _ _ ax Ho Hok).
  change (set_nth ax k out) with (upd ax (fun _ => k) out).
  apply (in_bounds_upd ax _ out (shape y)); try assumption; [reflexivity | intros; reflexivity | lia].
Qed.

Lemma unravel_in_bounds s : forall k, nonneg_shape s -> 0 <= k < prodZ s -> in_bounds (unravel s k) s.
Proof.
  unfold nonneg_shape. induction s as [|n s IH]; intros k Hn Hk; cbn [unravel in_bounds]; [exact I|].
  inversion Hn as [|n0 s0 Hn0 Hs]; subst. rewrite prodZ_cons in Hk.
  pose proof (prodZ_nonneg s Hs) as HP.
  assert (0 < prodZ s) as HP0 by nia.
  split.
  - split; [apply Z.div_pos; lia|]. apply Z.div_lt_upper_bound; lia.
  - apply IH; [exact Hs|]. apply Z.mod_pos_bound. exact HP0.
Qed.

Lemma filter_nonneg_all req : length (filter (fun d => d <? 0) req) = O -> filter (fun d => 0 <=? d) req = req.
Proof.
  induction req as [|d req IH]; intros H; [reflexivity|]. cbn [filter] in *.
  destruct (d <? 0) eqn:E; cbn [length] in H; [discriminate|].
  replace (0 <=? d) with true by lia. rewrite IH by exact H. reflexivity.
Qed.

(* one -1 entry replaced by v: the product is v times the product of the known entries *)
Lemma prodZ_subst_one v req : length (filter (fun d => d <? 0) req) = 1%nat ->
  prodZ (map (fun d => if d <? 0 then v else d) req) = v * prodZ (filter (fun d => 0 <=? d) req).
Proof.
  induction req as [|d req IH]; intros H; cbn [filter length] in H; [discriminate|].
  cbn [map filter]. destruct (d <? 0) eqn:E.
  - cbn [length] in H. replace (0 <=? d) with false by lia. rewrite prodZ_cons. f_equal.
    assert (length (filter (fun d0 => d0 <? 0) req) = O) as H0 by lia.
    rewrite (filter_nonneg_all req H0).
    clear - H0. induction req as [|e req IH]; [reflexivity|]. cbn [filter] in H0. destruct (e <? 0) eqn:E; [discriminate|].
    cbn [map]. rewrite E, !prodZ_cons, IH by exact H0. reflexivity.
  - replace (0 <=? d) with true by lia. rewrite !prodZ_cons, IH by exact H. ring.
Qed.

Lemma reshape_resolve_prod total req s : reshape_resolve total req = Some s -> prodZ s = total.
Proof.
  unfold reshape_resolve.
  destruct (length (filter (fun d => d <? 0) req)) as [|[|k]] eqn:E; [| |discriminate].
  - break_if; [|discriminate]. intros H. injection H as <-. rewrite (filter_nonneg_all req E) in *. lia.
  - break_if; [|discriminate]. intros H. injection H as <-. rewrite (prodZ_subst_one _ req E).
    set (known := prodZ (filter (fun d => 0 <=? d) req)) in *.
    assert (0 < known /\ total mod known = 0) as [Hk Hm] by lia.
    pose proof (Z.div_mod total known ltac:(lia)). nia.
Qed.

(* reshape keeps the flat offset, which is below the common number of elements *)
Lemma congr_reshape req : un_congr (OReshape req).
Proof.
  apply un_congr_get. intros y g out Hn Hok Hg Ho. cbn [un_ok un_shape] in Hok, Ho.
  destruct (reshape_resolve (prodZ (shape y)) req) as [s'|] eqn:E; [|discriminate].
  apply Hg. apply unravel_in_bounds; [exact Hn|]. cbn [un_shape shape]. rewrite E.
  rewrite <- (reshape_resolve_prod _ _ _ E). apply ravel_range. exact Ho.
Qed.

(* r ranges over the reduced sub-space, out over the result; [red_src] interleaves them into an operand index *)
Lemma red_src_in_bounds axes (kd : bool) : forall s pos r out,
  in_bounds r (red_rshape pos axes s) ->
  in_bounds out (if kd then red_kshape pos axes s else drop_axes_from pos axes s) ->
  in_bounds (red_src pos axes kd r out) s.
Proof.
  induction s as [|n s IH]; intros pos r out Hr Ho; cbn [red_rshape] in Hr.
  - destruct r; cbn [in_bounds] in Hr; [exact I | tauto].
  - destruct r as [|ri r]; cbn [in_bounds] in Hr; [tauto|]. destruct Hr as [Hri Hr].
    cbn [red_src red_kshape drop_axes_from] in *.
    destruct (memn pos axes) eqn:E.
    + cbn [in_bounds]. split; [exact Hri|]. apply IH; [exact Hr|].
      destruct kd; [|exact Ho]. destruct out as [|o out]; cbn [in_bounds] in Ho; [tauto|]. cbn [tl]. tauto.
    + assert (in_bounds out (n :: (if kd then red_kshape (S pos) axes s else drop_axes_from (S pos) axes s))) as Ho'
        by (destruct kd; exact Ho).
      destruct out as [|o out]; cbn [in_bounds] in Ho'; [tauto|]. cbn [hd tl in_bounds].
      split; [lia|]. apply IH; [exact Hr | tauto].
Qed.

Lemma congr_reduce f axes kd : un_congr (OReduce f axes kd).
Proof.
  apply un_congr_get. intros y g out Hn Hok Hg Ho.
  cbn [un_arr areduce get shape]. f_equal. apply map_ext_in. intros r Hr. apply Hg.
  apply red_src_in_bounds; [apply all_indices_in_bounds; exact Hr | exact Ho].
Qed.

Lemma congr_rechunk c : un_congr (ORechunk c).
Proof. intros y y' _ _ H. exact H. Qed.

Theorem un_congr_all o : un_congr o.
Proof.
  destruct o; [apply congr_T | apply congr_slice | apply congr_expand | apply congr_squeeze | apply congr_broadcast
    | apply congr_flip | apply congr_roll | apply congr_take | apply congr_repeat | apply congr_diff | apply congr_reshape
    | apply congr_reduce | apply congr_cum | apply congr_rechunk].
Qed.

Definition n_congr (o : naryop) : Prop :=
  forall xs ys, Forall (fun x => nonneg_shape (shape x)) xs -> n_ok o (map shape xs) = true ->
    Forall2 aeq xs ys -> aeq (n_arr o xs) (n_arr o ys).

Lemma congr_elem f : n_congr (NElem f).
Proof.
  intros xs ys _ Hok H. cbn [n_arr]. apply aelemwise_congr; [exact H|].
  cbn [n_ok] in Hok. apply andb_true_iff in Hok. destruct Hok as [_ Hb].
  apply (Forall_map shape (fun s => bcast_into s _)), Forall_forall. intros s Hs.
  rewrite forallb_forall in Hb. apply bcast_intob_spec, Hb, Hs.
Qed.

(* [concat_compat] as a proposition: same rank, same dimensions except along ax *)
Definition agree_off (ax : nat) (s t : list Z) : Prop :=
  length s = length t /\ forall k, k <> ax -> nth k s 0 = nth k t 0.

Lemma concat_compat_iff ax s t : concat_compat ax s t = true <-> agree_off ax s t.
Proof.
  unfold concat_compat, agree_off. rewrite andb_true_iff, Nat.eqb_eq, zlist_eqb_eq. split; intros [Hl H]; split; try exact Hl.
  - intros k Hk. rewrite <- (nth_set_nth_neq ax k 0 s 0 ltac:(congruence)), H. apply nth_set_nth_neq. congruence.
  - apply list_eq_nth; [rewrite !set_nth_length; exact Hl|].
    intros k Hk. rewrite set_nth_length in Hk. destruct (Nat.eq_dec k ax) as [->|Hne].
    + rewrite !nth_set_nth_eq by lia. reflexivity.
    + rewrite !nth_set_nth_neq by congruence. apply H. exact Hne.
Qed.

Lemma agree_off_refl ax s : agree_off ax s s.
Proof. split; [reflexivity | intros; reflexivity]. Qed.

Lemma agree_off_trans ax s t u : agree_off ax s t -> agree_off ax s u -> agree_off ax t u.
Proof. intros [Hl H] [Hl' H']. split; [lia|]. intros k Hk. rewrite <- H, <- H' by exact Hk. reflexivity. Qed.

Lemma agree_off_set_nth ax v s t : agree_off ax s t -> agree_off ax (set_nth ax v s) t.
Proof.
  intros [Hl H]. split; [rewrite set_nth_length; exact Hl|]. intros k Hk. rewrite nth_set_nth_neq by congruence. apply H, Hk.
Qed.

Lemma n_ok_concat_agree ax s rest : n_ok (NConcat ax) (s :: rest) = true <->
  (ax < length s)%nat /\ Forall (agree_off ax s) rest.
Proof.
  cbn [n_ok]. rewrite andb_true_iff, ltn_lt, forallb_forall, Forall_forall.
  split; intros [H1 H2]; (split; [exact H1|]); intros t Ht; apply concat_compat_iff; apply H2; exact Ht.
Qed.

Lemma concat_shape_length ax s rest : length (concat_shape ax s rest) = length s.
Proof. unfold concat_shape. apply set_nth_length. Qed.

Lemma concat_shape_nth ax s rest k : (ax < length s)%nat ->
  nth k (concat_shape ax s rest) 0 =
  if Nat.eqb k ax then zsum (map (fun t => nth ax t 0) (s :: rest)) else nth k s 0.
Proof.
  intros Hl. unfold concat_shape. destruct (Nat.eqb k ax) eqn:E.
  - apply Nat.eqb_eq in E. subst k. apply nth_set_nth_eq. exact Hl.
  - apply Nat.eqb_neq in E. apply nth_set_nth_neq. congruence.
Qed.

(* where concat_get goes: the first operand if the position is inside it, else the rest *)
Lemma concat_in_first ax s rest out :
  (ax < length s)%nat -> in_bounds out (concat_shape ax s rest) -> nth ax out 0 < nth ax s 0 -> in_bounds out s.
Proof.
  intros Hl Ho Hj. apply in_bounds_iff_nth in Ho. destruct Ho as [Hlo Ho]. rewrite concat_shape_length in *.
  apply in_bounds_iff_nth. split; [exact Hlo|]. intros k Hk. specialize (Ho k Hk).
  rewrite concat_shape_nth in Ho by exact Hl. destruct (Nat.eqb k ax) eqn:E; [|exact Ho].
  apply Nat.eqb_eq in E. subst k. lia.
Qed.

Lemma concat_in_rest ax s t rest out :
  (ax < length s)%nat -> agree_off ax s t ->
  in_bounds out (concat_shape ax s (t :: rest)) -> nth ax s 0 <= nth ax out 0 ->
  in_bounds (set_nth ax (nth ax out 0 - nth ax s 0) out) (concat_shape ax t rest).
Proof.
  intros Hl [Hlt Hag] Ho Hj. apply in_bounds_iff_nth in Ho. destruct Ho as [Hlo Ho]. rewrite concat_shape_length in *.
  apply in_bounds_iff_nth. rewrite concat_shape_length, set_nth_length. split; [lia|]. intros k Hk.
  specialize (Ho k ltac:(lia)). rewrite concat_shape_nth in Ho by exact Hl. rewrite concat_shape_nth by lia.
  destruct (Nat.eqb k ax) eqn:E.
  - apply Nat.eqb_eq in E. subst k. rewrite nth_set_nth_eq by lia. cbn [map zsum] in *. lia.
  - apply Nat.eqb_neq in E. rewrite nth_set_nth_neq by congruence. rewrite <- Hag by exact E. exact Ho.
Qed.

Lemma concat_get_congr ax : forall rest rest' (a a' : arr Z) out,
  (ax < length (shape a))%nat -> Forall (fun b => agree_off ax (shape a) (shape b)) rest ->
  aeq a a' -> Forall2 aeq rest rest' ->
  in_bounds out (concat_shape ax (shape a) (map shape rest)) ->
  concat_get ax a rest out = concat_get ax a' rest' out.
Proof.
  induction rest as [|b rest IH]; intros rest' a a' out Hl Hag [Hs Hg] H2 Ho; inversion H2; subst.
  - cbn [concat_get]. apply Hg. apply (concat_in_first ax _ [] out Hl Ho).
    pose proof (in_bounds_nth _ _ ax Ho) as Hi. rewrite concat_shape_length, concat_shape_nth, Nat.eqb_refl in Hi by exact Hl.
    cbn [map zsum] in Hi. specialize (Hi Hl). lia.
  - inversion Hag as [|b0 r0 Hb Hr]; subst. cbn [concat_get map] in *. rewrite <- Hs.
    destruct (nth ax out 0 <? nth ax (shape a) 0) eqn:E.
    + apply Hg. apply (concat_in_first ax _ _ out Hl Ho). lia.
    + apply IH; try assumption.
      * destruct Hb. lia.
      * eapply Forall_impl; [|exact Hr]. intros c. apply agree_off_trans. exact Hb.
      * apply concat_in_rest; [exact Hl | exact Hb | exact Ho | lia].
Qed.

Lemma congr_concat ax : n_congr (NConcat ax).
Proof.
  intros xs ys _ Hok H. destruct H as [|a a' rest rest' Ha Hr]; [apply aeq_refl|].
  cbn [map] in Hok. apply n_ok_concat_agree in Hok. destruct Hok as [Hl Hag].
  cbn [n_arr]. split; cbn [aconcat shape get].
  - destruct Ha as [-> _]. rewrite (Forall2_aeq_shapes _ _ Hr). reflexivity.
  - intros out Ho. apply concat_get_congr; try assumption. exact (proj1 (Forall_map shape _ rest) Hag).
Qed.

(* stack = concatenate the operands expanded by a unit axis *)
Lemma congr_stack ax : n_congr (NStack ax).
Proof.
  intros xs ys Hnn Hok H. destruct H as [|x y rest rest' Hxy Hr]; [apply aeq_refl|].
  cbn [map n_ok] in Hok. apply andb_true_iff in Hok. destruct Hok as [Hax Heq]. apply Nat.leb_le in Hax.
  assert (Hshape : Forall (fun b => shape b = shape x) (x :: rest)).
  { constructor; [reflexivity|]. apply (Forall_map shape (fun s => s = shape x)), Forall_forall. intros s Hs.
    rewrite forallb_forall in Heq. symmetry. apply zlist_eqb_eq, Heq, Hs. }
  cbn [n_arr].
  change (aconcat ax (aexpand ax x) (map (aexpand ax) rest)) with (n_arr (NConcat ax) (map (aexpand ax) (x :: rest))).
  change (aconcat ax (aexpand ax y) (map (aexpand ax) rest')) with (n_arr (NConcat ax) (map (aexpand ax) (y :: rest'))).
  apply congr_concat.
  - apply Forall_map. eapply Forall_impl; [|exact Hnn]. intros b. apply insert_at_nonneg. lia.
  - cbn [map]. apply n_ok_concat_agree. cbn [aexpand shape]. split; [rewrite insert_at_length; lia|].
    rewrite map_map. apply Forall_map. eapply Forall_impl; [|exact (Forall_inv_tail Hshape)].
    intros b Hb. cbn [aexpand shape]. rewrite Hb. apply agree_off_refl.
  - assert (Forall2 aeq (x :: rest) (y :: rest')) as H2 by (constructor; assumption).
    clear - H2 Hshape Hnn Hax. induction H2 as [|a b l l' Hab _ IH]; [constructor|].
    inversion Hshape as [|a0 l0 Ha Hshape']; inversion Hnn as [|a1 l1 Hna Hnn']. cbn [map]. constructor; [|apply IH; assumption].
    apply (congr_expand ax a b); [exact Hna | cbn [un_ok]; apply Nat.leb_le; rewrite Ha; exact Hax | exact Hab].
Qed.

Theorem n_congr_all o : n_congr o.
Proof. destruct o; [apply congr_elem | apply congr_concat | apply congr_stack]. Qed.

(* C01: in the unary and n-ary cases [eval] re-reads the tabulated operands ([of_nd (to_nd x)], equal to x
   only in bounds), which the congruences absorb *)
Theorem eval_is_tabulated_den p : eval p = option_map to_nd (pden p).
Proof.
  induction p as [s d|s|n|c|o p IH|o ps IH] using prog_ind2; cbn [pden eval]; try reflexivity.
  - destruct (src_ok s d) eqn:E; [|reflexivity]. cbn [option_map].
    rewrite to_nd_of_nd by (apply wfb_iff; exact E). reflexivity.
  - destruct (all_nonneg s); reflexivity.
  - destruct (pden p) as [x|]; rewrite IH; [|reflexivity]. cbn [option_map].
    assert (Hn : nonneg_shape (shape x)) by (apply (eval_wf p (to_nd x)); exact IH).
    rewrite un_eval_tab, nshape_to_nd by (apply to_nd_wf; exact Hn).
    destruct (un_ok o (shape x)) eqn:Hok; [|reflexivity]. cbn [option_map].
    f_equal. apply to_nd_ext. apply un_congr_all; [exact Hn | exact Hok | apply of_to_nd].
  - rewrite <- (sequence_option_map pden eval to_nd ps)
      by (eapply Forall_impl; [|exact IH]; intros p Hp; symmetry; exact Hp).
    destruct (sequence (map pden ps)) as [xs|] eqn:Exs; [|reflexivity]. cbn [option_map].
    assert (Hall : Forall (fun x => nonneg_shape (shape x)) xs).
    { apply (sequence_Forall _ pden ps xs); [|exact Exs]. eapply Forall_impl; [|exact IH].
      intros p Hp x Hx. apply (eval_wf p (to_nd x)). rewrite Hp, Hx. reflexivity. }
    unfold n_eval. rewrite map_map. cbn [nshape to_nd].
    change (map (fun x => shape x) xs) with (map shape xs).
    destruct (n_ok o (map shape xs)) eqn:Hok; [|reflexivity]. cbn [option_map].
    f_equal. apply to_nd_ext. rewrite map_map. apply n_congr_all.
    + apply Forall_map. exact Hall.
    + rewrite map_map. exact Hok.
    + rewrite <- (map_id xs) at 2. apply Forall2_maps, Forall_forall. intros x _. apply of_to_nd.
Qed.

Lemma pden_nonneg p x : pden p = Some x -> nonneg_shape (shape x).
Proof. intros H. apply (eval_wf p (to_nd x)). rewrite eval_is_tabulated_den, H. reflexivity. Qed.

Lemma pden_pshape p x : pden p = Some x -> pshape p = Some (shape x).
Proof.
  intros H. apply (eval_some_pshape p (to_nd x)). rewrite eval_is_tabulated_den, H. reflexivity.
Qed.

Lemma pden_oshape p x : pden p = Some x -> oshape p = shape x.
Proof. intros H. unfold oshape. rewrite (pden_pshape p x H). reflexivity. Qed.

(* a program may be replaced by one that denotes an equal array wherever the first denotes one *)
Lemma eval_of_den p p' r :
  (forall x, pden p = Some x -> exists x', pden p' = Some x' /\ aeq x' x) ->
  eval p = Some r -> eval p' = Some r.
Proof.
  intros H. rewrite !eval_is_tabulated_den. destruct (pden p) as [x|]; [|discriminate].
  destruct (H x eq_refl) as (x' & -> & Heq). cbn [option_map]. intros E. injection E as <-.
  f_equal. apply to_nd_ext. exact Heq.
Qed.

(* [pden] of a unary / n-ary node, forwards and backwards, so that the laws never unfold it *)
Lemma pden_un o p y : pden p = Some y -> un_ok o (shape y) = true -> pden (PUn o p) = Some (un_arr o y).
Proof. intros Hy Hok. cbn [pden]. rewrite Hy, Hok. reflexivity. Qed.

Lemma pden_n o ps ys : sequence (map pden ps) = Some ys -> n_ok o (map shape ys) = true -> pden (PN o ps) = Some (n_arr o ys).
Proof. intros Hys Hok. cbn [pden]. rewrite Hys, Hok. reflexivity. Qed.

Lemma pden_un_inv o p x : pden (PUn o p) = Some x ->
  exists y, pden p = Some y /\ un_ok o (shape y) = true /\ x = un_arr o y.
Proof.
  cbn [pden]. destruct (pden p) as [y|]; [|discriminate]. destruct (un_ok o (shape y)) eqn:E; [|discriminate].
  intros H. injection H as <-. exists y. repeat split. exact E.
Qed.

Lemma pden_n_inv o ps x : pden (PN o ps) = Some x ->
  exists ys, sequence (map pden ps) = Some ys /\ n_ok o (map shape ys) = true /\ x = n_arr o ys.
Proof.
  cbn [pden]. destruct (sequence (map pden ps)) as [ys|]; [|discriminate].
  destruct (n_ok o (map shape ys)) eqn:E; [|discriminate].
  intros H. injection H as <-. exists ys. repeat split. exact E.
Qed.

Lemma pden_un2_inv o1 o2 p x : pden (PUn o1 (PUn o2 p)) = Some x ->
  exists y, pden p = Some y /\ un_ok o2 (shape y) = true /\ un_ok o1 (un_shape o2 (shape y)) = true /\
            x = un_arr o1 (un_arr o2 y).
Proof.
  intros H. apply pden_un_inv in H. destruct H as (z & H & H1 & ->).
  apply pden_un_inv in H. destruct H as (y & Hy & H2 & ->). rewrite un_arr_shape in H1.
  exists y. repeat split; assumption.
Qed.

Lemma pden_seq_nonneg ps ys : sequence (map pden ps) = Some ys -> Forall (fun y => nonneg_shape (shape y)) ys.
Proof. apply sequence_Forall, Forall_forall. intros p _. apply pden_nonneg. Qed.

(* every operand wrapped in a unary operation chosen from the operand's advertised shape *)
Lemma pden_seq_un (oo : list Z -> unop) : forall ps ys, sequence (map pden ps) = Some ys ->
  Forall (fun y => un_ok (oo (shape y)) (shape y) = true) ys ->
  sequence (map pden (map (fun p => PUn (oo (oshape p)) p) ps)) = Some (map (fun y => un_arr (oo (shape y)) y) ys).
Proof.
  induction ps as [|p ps IH]; intros ys H Hok; cbn [map sequence] in H.
  - injection H as <-. reflexivity.
  - destruct (pden p) as [y|] eqn:Ey; [|discriminate].
    destruct (sequence (map pden ps)) as [t|]; [|discriminate]. injection H as <-.
    inversion Hok as [|y0 t0 Hy Ht]; subst.
    cbn [map sequence pden]. rewrite Ey, (pden_oshape p y Ey), Hy, (IH t eq_refl Ht). reflexivity.
Qed.

(* The three shapes of pushdown rewrite:
     un o1 (un o2 p)  ==>  un o3 p,   un o1 (un o2 p)  ==>  un o3 (un o4 p),   un o (n ps)  ==>  n (un (oo _) p for p in ps).
   Each reduces the statement about [eval] to: where the left side is defined on operand arrays, so is the right
   side, and the two arrays are equal. *)
Lemma law_un2_un o1 o2 o3 p r :
  (forall y, pden p = Some y -> un_ok o2 (shape y) = true -> un_ok o1 (un_shape o2 (shape y)) = true ->
     un_ok o3 (shape y) = true /\ aeq (un_arr o3 y) (un_arr o1 (un_arr o2 y))) ->
  eval (PUn o1 (PUn o2 p)) = Some r -> eval (PUn o3 p) = Some r.
Proof.
  intros Hlaw. apply eval_of_den. intros x H. apply pden_un2_inv in H. destruct H as (y & Hy & H2 & H1 & ->).
  destruct (Hlaw y Hy H2 H1) as [H3 Heq]. exists (un_arr o3 y). split; [apply pden_un; assumption | exact Heq].
Qed.

Lemma law_un2_un2 o1 o2 o3 o4 p r :
  (forall y, pden p = Some y -> un_ok o2 (shape y) = true -> un_ok o1 (un_shape o2 (shape y)) = true ->
     un_ok o4 (shape y) = true /\ un_ok o3 (un_shape o4 (shape y)) = true /\
     aeq (un_arr o3 (un_arr o4 y)) (un_arr o1 (un_arr o2 y))) ->
  eval (PUn o1 (PUn o2 p)) = Some r -> eval (PUn o3 (PUn o4 p)) = Some r.
Proof.
  intros Hlaw. apply eval_of_den. intros x H. apply pden_un2_inv in H. destruct H as (y & Hy & H2 & H1 & ->).
  destruct (Hlaw y Hy H2 H1) as (H4 & H3 & Heq). exists (un_arr o3 (un_arr o4 y)). split; [|exact Heq].
  apply pden_un; [apply pden_un; assumption | rewrite un_arr_shape; exact H3].
Qed.

Lemma law_un_n o n (oo : list Z -> unop) ps r :
  (forall ys, sequence (map pden ps) = Some ys -> n_ok n (map shape ys) = true -> un_ok o (shape (n_arr n ys)) = true ->
     let zs := map (fun y => un_arr (oo (shape y)) y) ys in
     Forall (fun y => un_ok (oo (shape y)) (shape y) = true) ys /\ n_ok n (map shape zs) = true /\
     aeq (n_arr n zs) (un_arr o (n_arr n ys))) ->
  eval (PUn o (PN n ps)) = Some r -> eval (PN n (map (fun p => PUn (oo (oshape p)) p) ps)) = Some r.
Proof.
  intros Hlaw. apply eval_of_den. intros x H. apply pden_un_inv in H. destruct H as (z & Hz & Hok & ->).
  apply pden_n_inv in Hz. destruct Hz as (ys & Hys & Hnok & ->).
  destruct (Hlaw ys Hys Hnok Hok) as (Hun & Hn & Heq). eexists. split; [|exact Heq].
  apply pden_n; [apply pden_seq_un; assumption | exact Hn].
Qed.
