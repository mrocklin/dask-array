(* RngModelFacts.v — proofs about the seed-derivation model (RngModel.v).
   `spawn` and `mk_random` are pairs by definition, so the `let '(_, _) := ...` of the statements
   below reduce by conversion. *)
From Coq Require Import List Bool ZArith Lia.
From DA Require Import PyBase RngModel.
Import ListNotations.
Open Scope Z_scope.

Lemma spawn_seeds_in : forall g n s, In s (fst (spawn g n)) <->
  fst s = g_root g /\ (g_counter g <= snd s < g_counter g + n)%nat.
Proof.
  intros g n [e k]. unfold spawn. cbn. rewrite in_map_iff. split.
  - intros [i [E Hi]]. inversion E; subst. apply in_seq in Hi. lia.
  - intros [E H]. subst e. exists (k - g_counter g)%nat. split; [f_equal; lia | apply in_seq; lia].
Qed.

Lemma spawn_counter : forall g n, g_counter (snd (spawn g n)) = (g_counter g + n)%nat /\ g_root (snd (spawn g n)) = g_root g.
Proof. intros. split; reflexivity. Qed.

Lemma spawn_length : forall g n, length (fst (spawn g n)) = n.
Proof. intros. unfold spawn. cbn. rewrite map_length, seq_length. reflexivity. Qed.

Lemma spawn_NoDup : forall g n, NoDup (fst (spawn g n)).
Proof.
  (* a seed gives its index back *)
  intros g n. apply (NoDup_map_inv (fun s => (snd s - g_counter g)%nat)). cbn [spawn fst].
  rewrite map_map, (map_ext _ (fun i => i)), map_id by (intros i; cbn [snd]; lia). apply seq_NoDup.
Qed.

(* two successive spawns from one generator give disjoint seeds *)
Theorem generator_advances : forall g n1 n2,
  let '(s1, g1) := spawn g n1 in let '(s2, _) := spawn g1 n2 in
  NoDup s1 /\ NoDup s2 /\ forall x, In x s1 -> ~ In x s2.
Proof.
  intros g n1 n2.
  split; [apply (spawn_NoDup g n1)|]. split; [apply (spawn_NoDup (snd (spawn g n1)) n2)|].
  intros x H1 H2. apply (spawn_seeds_in g n1) in H1. apply (spawn_seeds_in (snd (spawn g n1)) n2) in H2.
  cbn in H2. lia.
Qed.

Lemma mk_random_spec : forall g sizes,
  r_sizes (fst (mk_random g sizes)) = sizes /\
  r_seeds (fst (mk_random g sizes)) = fst (spawn g (length sizes)) /\
  snd (mk_random g sizes) = snd (spawn g (length sizes)).
Proof. intros. repeat split. Qed.

(* the j-th array's seeds in closed form: the generator's root and the block indices shifted by the
   number of blocks of all earlier arrays *)
Theorem mk_arrays_closed_form : forall sizess g,
  let '(ns, g') := mk_arrays g sizess in
  g_root g' = g_root g /\
  g_counter g' = (g_counter g + fold_right (fun s a => length s + a) 0 sizess)%nat /\
  length ns = length sizess /\
  forall j, (j < length sizess)%nat ->
    let off := (g_counter g + fold_right (fun s a => length s + a) 0 (firstn j sizess))%nat in
    let sz := nth j sizess [] in
    nth j ns {| r_sizes := []; r_seeds := [] |} =
      {| r_sizes := sz; r_seeds := map (fun i => (g_root g, (off + i)%nat)) (seq 0 (length sz)) |}.
Proof.
  induction sizess as [|s t IH]; intro g; cbn [mk_arrays].
  - repeat split; [cbn; lia|]. intros j Hj. cbn in Hj. lia.
  - cbn [mk_random spawn]. specialize (IH (snd (spawn g (length s)))).
    destruct (mk_arrays _ t) as [ns g2]. destruct IH as (R & Cn & L & Nth).
    cbn [spawn snd g_root g_counter] in R, Cn, Nth. cbn [fold_right length].
    repeat split; [assumption | lia | lia |].
    intros [|j] Hj; cbn [nth firstn fold_right].
    + f_equal. apply map_ext. intro i. f_equal. lia.
    + rewrite (Nth j ltac:(cbn in Hj; lia)). cbv zeta. f_equal. apply map_ext. intro i. f_equal. lia.
Qed.

Theorem rebuild_same : forall root sizess j, (j < length sizess)%nat ->
  r_seeds (nth j (fst (mk_arrays (fresh_gen root) sizess)) {| r_sizes := []; r_seeds := [] |}) =
  map (fun i => (root, (fold_right (fun s a => length s + a) 0 (firstn j sizess) + i)%nat))
      (seq 0 (length (nth j sizess []))).
Proof.
  intros root sizess j Hj.
  pose proof (mk_arrays_closed_form sizess (fresh_gen root)) as H.
  destruct (mk_arrays (fresh_gen root) sizess) as [ns g']. destruct H as (_ & _ & _ & Nth).
  cbn [fst]. rewrite (Nth j Hj). reflexivity.
Qed.

(* pickling *)
Theorem reduce_roundtrip : forall g_now n, unpickle (reduce g_now n) = n.
Proof. intros g_now [sz sd]. reflexivity. Qed.

(* reconstruction (and unpickling without the cache) re-derives the seeds from the generator's
   CURRENT state: for a node built from generator g, once g has advanced past it, none of the new
   seeds is one of the node's *)
Theorem reconstruct_respawns : forall g sizes,
  let '(n, g1) := mk_random g sizes in
  forall g_now, g_root g_now = g_root g -> (g_counter g1 <= g_counter g_now)%nat ->
  forall x, In x (r_seeds n) -> ~ In x (r_seeds (fst (reconstruct g_now n))).
Proof.
  intros g sizes g_now Hr Hc x H1 H2.
  apply (spawn_seeds_in g (length sizes)) in H1. apply (spawn_seeds_in g_now (length sizes)) in H2.
  cbn in Hc. lia.
Qed.

Section DrawFacts.
  Variable B : Type.
  Variable draw : seed -> Z -> B.

  (* the realization is a function of the node alone: nothing the generator does later, and no
     number of recomputations, changes what a derived program reads *)
  Theorem seeds_fixed : forall (R : Type) (prog : list B -> R) g sizes later,
    let '(n, g1) := mk_random g sizes in
    let '(_, g2) := mk_arrays g1 later in
    eval draw prog n = prog (map (fun p => draw (fst p) (snd p)) (combine (fst (spawn g (length sizes))) sizes)) /\
    length (realization draw n) = length sizes.
  Proof.
    intros R prog g sizes later. cbn [mk_random spawn]. destruct (mk_arrays _ later) as [ns g2].
    split; [reflexivity|]. unfold realization. cbn [r_seeds r_sizes].
    rewrite map_length, combine_length, map_length, seq_length. lia.
  Qed.
End DrawFacts.
