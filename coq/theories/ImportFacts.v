(* Reachability facts for ImportModel.v, for ANY graph: what `reach` returns stays inside every
   set that is closed under import edges, and with fuel beyond the number of modules it is
   itself closed.  Properties/C26.v then needs one closedness check of the generated graph per
   theorem, not the closure of every module. *)
From Coq Require Import List NArith Arith Bool Lia.
Import ListNotations.
From DA Require Import ListFacts ImportModel.

(* s contains the import-time imports of each of its members *)
Definition closedb (g : list (N * list N)) (s : list N) : bool :=
  forallb (fun x => forallb (fun y => mem y s) (succs g x)) s.

Lemma mem_In x l : mem x l = true <-> In x l.
Proof.
  unfold mem. rewrite existsb_exists. split.
  - intros (y & Hy & E). apply N.eqb_eq in E. subst. exact Hy.
  - intros H. exists x. split; [exact H | apply N.eqb_refl].
Qed.

Lemma closedb_spec g s :
  closedb g s = true <-> forall x y, In x s -> In y (succs g x) -> In y s.
Proof.
  unfold closedb. rewrite forallb_forall. split.
  - intros H x y Hx Hy. apply mem_In. specialize (H x Hx). rewrite forallb_forall in H. apply H, Hy.
  - intros H x Hx. apply forallb_forall. intros y Hy. apply mem_In. eapply H; eassumption.
Qed.

Section Reach.
  Variable g : list (N * list N).

  (* the modules one round adds: imported by the frontier and not visited before *)
  Definition fresh (visited frontier : list N) : list N :=
    nodup N.eq_dec (filter (fun x => negb (mem x visited)) (flat_map (succs g) frontier)).

  Lemma fresh_spec visited frontier y :
    In y (fresh visited frontier) <->
    (exists x, In x frontier /\ In y (succs g x)) /\ ~ In y visited.
  Proof.
    unfold fresh. rewrite nodup_In, filter_In, in_flat_map, negb_true_iff, <- not_true_iff_false, mem_In.
    reflexivity.
  Qed.

  Lemma reach_step fuel visited x frontier :
    reach g (S fuel) visited (x :: frontier) =
    reach g fuel (visited ++ fresh visited (x :: frontier)) (fresh visited (x :: frontier)).
  Proof. reflexivity. Qed.

  Lemma reach_incl s : closedb g s = true -> forall fuel visited frontier,
    incl visited s -> incl frontier s -> incl (reach g fuel visited frontier) s.
  Proof.
    intros Hs. rewrite closedb_spec in Hs.
    induction fuel as [|fuel IH]; intros visited frontier Hv Hf; [exact Hv|].
    destruct frontier as [|x frontier]; [exact Hv|]. rewrite reach_step.
    assert (Hfr : incl (fresh visited (x :: frontier)) s).
    { intros y Hy. apply fresh_spec in Hy as ((z & Hz & Hy) & _). eapply Hs; [apply Hf, Hz | exact Hy]. }
    apply IH; [apply incl_app; assumption | exact Hfr].
  Qed.

  (* Invariant of the worklist: visited has no repetitions and lies in the universe u, and the
     imports of every visited module outside the frontier are visited.  A round either adds a
     module or empties the frontier, so length u - length visited + 1 rounds are enough. *)
  Lemma reach_closed u : closedb g u = true -> forall fuel visited frontier,
    NoDup visited -> incl visited u -> incl frontier visited ->
    (forall x y, In x visited -> ~ In x frontier -> In y (succs g x) -> In y visited) ->
    length u < fuel + length visited ->
    closedb g (reach g fuel visited frontier) = true.
  Proof.
    intros Hu. rewrite closedb_spec in Hu.
    induction fuel as [|fuel IH]; intros visited frontier Hnd Hvu Hfv Hinv Hlen.
    { pose proof (NoDup_incl_length Hnd Hvu). lia. }
    destruct frontier as [|x0 frontier].
    { apply closedb_spec. intros x y Hx. apply Hinv; [exact Hx | intros []]. }
    rewrite reach_step. pose proof (fresh_spec visited (x0 :: frontier)) as Hfr.
    set (fr := fresh visited (x0 :: frontier)) in *.
    assert (Hinv' : forall x y, In x (visited ++ fr) -> ~ In x fr -> In y (succs g x) -> In y (visited ++ fr)).
    { intros x y Hx Hnx Hy. apply in_app_iff in Hx as [Hx|Hx]; [|contradiction]. apply in_app_iff.
      destruct (in_dec N.eq_dec y visited) as [Hyv|Hyv]; [left; exact Hyv|].
      destruct (in_dec N.eq_dec x (x0 :: frontier)) as [Hxf|Hxf].
      - right. apply Hfr. split; [exists x; split; assumption | exact Hyv].
      - left. eapply Hinv; eassumption. }
    destruct fr as [|y0 fr'] eqn:Efr.
    { (* nothing new: the frontier is empty from here on *)
      rewrite app_nil_r in *. apply closedb_spec. intros x y Hx.
      destruct fuel; cbn [reach]; apply Hinv'; auto. }
    rewrite <- Efr in *. apply IH.
    - apply NoDup_app_intro; [exact Hnd | apply NoDup_nodup |]. intros x Hx Hxf. apply Hfr in Hxf. tauto.
    - apply incl_app; [exact Hvu|]. intros y Hy. apply Hfr in Hy as ((x & Hx & Hy) & _).
      eapply Hu; [apply Hvu, Hfv, Hx | exact Hy].
    - apply incl_appr, incl_refl.
    - exact Hinv'.
    - rewrite app_length, Efr. cbn [length]. lia.
  Qed.
End Reach.

(* with as much fuel as there are modules the computed set is closed under imports *)
Theorem closure_closed_universe g n u m :
  closedb g u = true -> length u <= n -> In m u -> closure_closed g n m = true.
Proof.
  intros Hu Hn Hm. apply (reach_closed g u Hu).
  - constructor; [intros [] | constructor].
  - intros x [<-|[]]. exact Hm.
  - apply incl_refl.
  - intros x y Hx Hnx. contradiction.
  - cbn [length]. lia.
Qed.

(* a closed set without x: x is not imported, directly or indirectly, by any member *)
Theorem not_reachable_outside g n s m x :
  closedb g s = true -> In m s -> ~ In x s -> mem x (reachable_from g n m) = false.
Proof.
  intros Hs Hm Hx. apply not_true_iff_false. rewrite mem_In. intros H. apply Hx.
  revert H. apply reach_incl; [exact Hs | |]; intros y [<-|[]]; exact Hm.
Qed.

Theorem import_is_silent_closed g n reg s m :
  closedb g s = true -> In m s -> forallb (fun r => negb (mem r s)) reg = true ->
  import_is_silent g n reg m = true.
Proof.
  intros Hs Hm Hreg. unfold import_is_silent. rewrite forallb_forall in *. intros r Hr.
  apply negb_true_iff. apply not_reachable_outside with (s := s); [exact Hs | exact Hm |].
  rewrite <- mem_In. intros E. specialize (Hreg r Hr). rewrite E in Hreg. discriminate.
Qed.
