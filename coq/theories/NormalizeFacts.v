(* What slice.indices returns (endpoints in the clipped window), what [sel] selects (length, range, no repeats),
   and normalize_slice: it keeps the selection. *)
From DA Require Import PyBase PyBaseFacts Slicing Slice1dBase.
Open Scope Z_scope.

(* slice.indices returns endpoints in the clipped window *)
Lemma indices_bounds s n a b k :
  0 <= n -> indices s n = (a, b, k) ->
  k = step_of s /\
  (0 < k -> 0 <= a <= n /\ 0 <= b <= n) /\
  (k < 0 -> -1 <= a <= n - 1 /\ -1 <= b <= n - 1).
Proof.
  intros Hn H. unfold indices, adjust_endpoint in H.
  injection H as <- <- <-. split; [reflexivity|].
  split; intros Hk; split; repeat break_if; lia.
Qed.

(* A slice whose fields are endpoints of the clipped window, written None where
   the endpoint is the default, has these endpoints as its indices. *)
Lemma indices_opt_pos (ca cb ck : bool) a b k n :
  0 < k -> 0 <= a <= n -> 0 <= b <= n ->
  (ca = true -> a = 0) -> (cb = true -> b = n) -> (ck = true -> k = 1) ->
  indices (mkslice (if ca then None else Some a) (if cb then None else Some b) (if ck then None else Some k)) n
  = (a, b, k).
Proof.
  intros Hk Ha Hb Hca Hcb Hck. unfold indices, step_of. cbn [s_start s_stop s_step].
  assert (match (if ck then None else Some k) with Some k0 => k0 | None => 1 end = k) as ->
    by (destruct ck; [symmetry; apply Hck|]; reflexivity).
  do 2 f_equal; [destruct ca | destruct cb]; cbn [adjust_endpoint]; repeat break_if; lia.
Qed.

Lemma indices_opt_neg (ca cb : bool) a b k n :
  k < 0 -> (ca = true -> a = n - 1) -> (ca = false -> 0 <= a <= n - 1) ->
  (cb = true -> b = -1) -> (cb = false -> 0 <= b <= n - 1) ->
  indices (mkslice (if ca then None else Some a) (if cb then None else Some b) (Some k)) n = (a, b, k).
Proof.
  intros Hk Hca Ha Hcb Hb. unfold indices, step_of. cbn [s_start s_stop s_step].
  do 2 f_equal; [destruct ca | destruct cb]; cbn [adjust_endpoint]; repeat break_if; lia.
Qed.

(* non-negative fields, positive step: only the clipping to n is left *)
Definition clip_stop (st : option Z) (n : Z) : Z :=
  match st with None => n | Some x => Z.min x n end.

Definition start_or0 (s : pslice) : Z := match s_start s with None => 0 | Some x => x end.

Lemma adjust_endpoint_nonneg x n k dn dp :
  0 <= x -> 0 < k -> adjust_endpoint (Some x) n k dn dp = Z.min x n.
Proof.
  intros Hx Hk. cbn [adjust_endpoint].
  replace (x <? 0) with false by lia. replace (k <? 0) with false by lia. break_if; lia.
Qed.

Lemma indices_nonneg s n :
  0 <= n -> 0 < step_of s ->
  (forall x, s_start s = Some x -> 0 <= x) -> (forall x, s_stop s = Some x -> 0 <= x) ->
  indices s n = (Z.min (start_or0 s) n, clip_stop (s_stop s) n, step_of s).
Proof.
  intros Hn Hk Hs He. unfold indices, start_or0, clip_stop.
  assert (step_of s <? 0 = false) as Ek by lia.
  destruct (s_start s) as [x|], (s_stop s) as [y|];
    rewrite ?adjust_endpoint_nonneg by auto; cbn [adjust_endpoint]; rewrite ?Ek, ?(Z.min_l 0 n) by lia;
    reflexivity.
Qed.

Lemma clip_stop_le st n : clip_stop st n <= n.
Proof. unfold clip_stop. destruct st; lia. Qed.

(* negative step: an endpoint that is absent or lies in [0, n - 1] is taken as it is *)
Lemma adjust_endpoint_neg v n k dn dp :
  k < 0 -> (forall x, v = Some x -> 0 <= x <= n - 1) ->
  adjust_endpoint v n k dn dp = match v with None => dn | Some x => x end.
Proof.
  intros Hk Hv. unfold adjust_endpoint. destruct v as [x|].
  - specialize (Hv x eq_refl). replace (x <? 0) with false by lia. replace (x >=? n) with false by lia. reflexivity.
  - replace (k <? 0) with true by lia. reflexivity.
Qed.

Lemma sel_same_endpoints x ks n : sel (mkslice (Some x) (Some x) ks) n = [].
Proof.
  unfold sel, indices. cbn [s_start s_stop adjust_endpoint].
  apply zrange_empty. unfold range_len. rewrite Z.ltb_irrefl. break_if; reflexivity.
Qed.

Lemma sel_length s n : Z.of_nat (length (sel s n)) = slice_len s n.
Proof. unfold sel, slice_len. destruct (indices s n) as [[a b] k]. apply zrange_length. Qed.

Lemma sel_in_range s n p : 0 <= n -> step_of s <> 0 -> In p (sel s n) -> 0 <= p < n.
Proof.
  intros Hn Hk Hin. unfold sel in Hin.
  destruct (indices s n) as [[a b] k] eqn:Hi.
  pose proof (indices_bounds s n a b k Hn Hi) as (Hstep & Hpos & Hneg).
  apply zrange_In in Hin as (i & [Hi0 Hir] & ->).
  assert (0 < k \/ k < 0) as [Hk0|Hk0] by lia.
  - specialize (Hpos Hk0). apply range_len_pos_lt in Hir; [|lia|lia].
    pose proof (Z.mul_nonneg_nonneg i k). lia.
  - specialize (Hneg Hk0). rewrite <- range_len_opp in Hir by lia.
    apply range_len_pos_lt in Hir; [|lia|lia]. pose proof (Z.mul_nonneg_nonneg i (- k)). lia.
Qed.

Lemma sel_NoDup s n : step_of s <> 0 -> NoDup (sel s n).
Proof. intros H. unfold sel, indices. apply zrange_NoDup. exact H. Qed.

(* For a positive step the stop is never left below the start: an empty selection
   comes out as start:start. *)
Lemma normalize_slice_pos s n a b k :
  indices s n = (a, b, k) -> 0 < k -> 0 <= b -> a <= n ->
  normalize_slice s n =
    if b <? a then mkslice (Some a) (Some a) (if k =? 1 then None else Some k)
    else mkslice (if a =? 0 then None else Some a) (if b >=? n then None else Some b)
                 (if k =? 1 then None else Some k).
Proof.
  intros Hi Hk Hb Ha. unfold normalize_slice. rewrite Hi. replace (k >? 0) with true by lia.
  destruct (b <? a) eqn:Eba.
  - replace (a =? 0) with false by lia. replace (b >=? n) with false by lia. rewrite Eba. reflexivity.
  - destruct (a =? 0), (b >=? n); try rewrite Eba; reflexivity.
Qed.

Theorem normalize_slice_sel s n :
  0 <= n -> step_of s <> 0 -> sel (normalize_slice s n) n = sel s n.
Proof.
  intros Hn Hk. unfold sel at 2.
  destruct (indices s n) as [[a b] k] eqn:Hi.
  pose proof (indices_bounds s n a b k Hn Hi) as (Hstep & Hpos & Hneg).
  destruct (Z_lt_le_dec 0 k) as [Hk0|Hk0].
  - destruct Hpos as [Ha Hb]; [lia|]. rewrite (normalize_slice_pos s n a b k) by (assumption || lia).
    unfold sel. destruct (b <? a) eqn:Eba.
    + rewrite (indices_opt_pos false false) by lia.
      apply zrange_ext. rewrite !range_len_empty_pos by lia. reflexivity.
    + rewrite indices_opt_pos by lia. reflexivity.
  - destruct Hneg as [Ha Hb]; [lia|]. unfold normalize_slice. rewrite Hi.
    replace (k >? 0) with false by lia. replace (k <? 0) with true by lia.
    destruct (a >=? n - 1) eqn:Ea; [|destruct (a <? 0) eqn:Ea0].
    + unfold sel. rewrite (indices_opt_neg true (b <? 0) a b) by lia. reflexivity.
    + (* a = -1: nothing is selected *)
      rewrite sel_same_endpoints. symmetry. apply zrange_empty, range_len_empty_neg; lia.
    + unfold sel. rewrite (indices_opt_neg false (b <? 0) a b) by lia. reflexivity.
Qed.
