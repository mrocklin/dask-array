(* C19 — list toolkit for the window / overlap proofs: Python slices of a list, block
   layouts, prefix sums of chunk sizes. *)
From DA Require Import PyBase PyBaseFacts Slicing Slice1dBase Scan Window.
Open Scope Z_scope.

Lemma firstn_seq n : forall s m, firstn n (seq s m) = seq s (Nat.min n m).
Proof.
  induction n as [|n IH]; intros s m; [reflexivity|].
  destruct m as [|m]; [reflexivity|]. cbn [seq firstn Nat.min]. rewrite IH. reflexivity.
Qed.

Lemma skipn_seq n : forall s m, skipn n (seq s m) = seq (s + n) (m - n).
Proof.
  induction n as [|n IH]; intros s m.
  - rewrite Nat.add_0_r, Nat.sub_0_r. reflexivity.
  - destruct m as [|m]; [reflexivity|]. cbn [seq skipn Nat.sub]. rewrite IH. f_equal. lia.
Qed.

Lemma map_seq_shift {B} (f : nat -> B) s n : map f (seq s n) = map (fun t => f (s + t)%nat) (seq 0 n).
Proof.
  change s with (0 + s)%nat at 1. rewrite seq_shift_add, map_map. apply map_ext. intros t. f_equal. lia.
Qed.

Lemma list_eq_nth_error {A} (l : list A) (h : nat -> A) n :
  length l = n -> (forall p, (p < n)%nat -> nth_error l p = Some (h p)) -> l = map h (seq 0 n).
Proof.
  revert h n. induction l as [|x t IH]; intros h n Hlen Hp.
  - cbn in Hlen. subst n. reflexivity.
  - destruct n as [|n]; [cbn in Hlen; lia|]. cbn [seq map].
    pose proof (Hp 0%nat ltac:(lia)) as H0. cbn in H0. injection H0 as ->. f_equal.
    rewrite <- seq_shift, map_map. apply IH; [cbn in Hlen; lia|].
    intros p Hlt. apply (Hp (S p)). lia.
Qed.

(* Window.zlen is Slicing.lenZ under a second name *)
Lemma zlen_nonneg {A} (l : list A) : 0 <= zlen l.
Proof. exact (lenZ_nonneg l). Qed.

Lemma zlen_app {A} (a b : list A) : zlen (a ++ b) = zlen a + zlen b.
Proof. exact (lenZ_app a b). Qed.

Lemma zlen_cons {A} (x : A) l : zlen (x :: l) = zlen l + 1.
Proof. exact (lenZ_cons x l). Qed.

Lemma Forall_zlen_nonneg {A} (blocks : list (list A)) : Forall (fun c => 0 <= c) (map zlen blocks).
Proof. apply Forall_forall. intros c Hc. apply in_map_iff in Hc as (b & <- & _). apply zlen_nonneg. Qed.

Lemma zsum_map_zlen {A} (blocks : list (list A)) : zsum (map zlen blocks) = zlen (concat blocks).
Proof. exact (length_concat_z blocks). Qed.

Lemma snoc_neq_nil {A} (l : list A) x : l ++ [x] <> [].
Proof. intros E. apply app_eq_nil in E as [_ E]. discriminate. Qed.

(* a list of at least two elements, seen from its end *)
Lemma snoc2_view {A} (l : list A) : 1 < zlen l -> exists u p q, l = (u ++ [p]) ++ [q].
Proof.
  intros H. destruct (exists_last (l := l)) as (l' & q & ->); [intros ->; cbn in H; lia|].
  rewrite zlen_app in H. change (zlen [q]) with 1 in H.
  destruct (exists_last (l := l')) as (u & p & ->); [intros ->; cbn in H; lia|].
  exists u, p, q. reflexivity.
Qed.

Lemma pyslice_length {A} (l : list A) a b :
  0 <= a -> a <= b -> b <= zlen l -> zlen (pyslice l a b) = b - a.
Proof.
  unfold zlen, pyslice. intros Ha Hab Hb. rewrite firstn_length, skipn_length. lia.
Qed.

Lemma pyslice_length_le {A} (l : list A) a b : zlen (pyslice l a b) <= zlen l.
Proof. unfold zlen, pyslice. rewrite firstn_length, skipn_length. lia. Qed.

Lemma pyslice_app {A} (l : list A) a b c :
  0 <= a -> a <= b -> b <= c -> pyslice l a c = pyslice l a b ++ pyslice l b c.
Proof.
  unfold pyslice. intros Ha Hab Hbc.
  replace (Z.to_nat (c - a)) with (Z.to_nat (b - a) + Z.to_nat (c - b))%nat by lia.
  rewrite firstn_add. f_equal. rewrite skipn_skipn. do 2 f_equal. lia.
Qed.

Lemma pyslice_empty {A} (l : list A) a b : b <= a -> pyslice l a b = [].
Proof. unfold pyslice. intros H. replace (Z.to_nat (b - a)) with 0%nat by lia. reflexivity. Qed.

Lemma pyslice_all {A} (l : list A) : pyslice l 0 (zlen l) = l.
Proof. unfold pyslice, zlen. cbn [Z.to_nat skipn]. rewrite Z.sub_0_r, Nat2Z.id. apply firstn_all. Qed.

Lemma skipn_pyslice {A} (l : list A) a b t :
  0 <= a -> 0 <= t -> skipn (Z.to_nat t) (pyslice l a b) = pyslice l (a + t) b.
Proof.
  unfold pyslice. intros Ha Ht. rewrite skipn_firstn_comm, skipn_skipn. f_equal; [lia|]. f_equal. lia.
Qed.

Lemma firstn_pyslice {A} (l : list A) a b m :
  0 <= m -> a + m <= b -> firstn (Z.to_nat m) (pyslice l a b) = pyslice l a (a + m).
Proof.
  unfold pyslice. intros Hm Hb. rewrite firstn_firstn. f_equal. lia.
Qed.

Lemma pyslice_pyslice {A} (l : list A) a b u v :
  0 <= a -> 0 <= u -> a + v <= b -> pyslice (pyslice l a b) u v = pyslice l (a + u) (a + v).
Proof.
  intros Ha Hu Hv. unfold pyslice at 1. rewrite skipn_pyslice by lia.
  destruct (Z_le_gt_dec u v) as [Huv|Huv].
  - rewrite firstn_pyslice by lia. f_equal. lia.
  - replace (Z.to_nat (v - u)) with 0%nat by lia. cbn [firstn]. symmetry. apply pyslice_empty. lia.
Qed.

Lemma pyslice_skipn {A} (l : list A) g w :
  firstn (Z.to_nat w) (skipn g l) = pyslice l (Z.of_nat g) (Z.of_nat g + w).
Proof. unfold pyslice. rewrite Nat2Z.id. do 2 f_equal. lia. Qed.

Lemma pyslice_map_seq {B} (g : nat -> B) n a b :
  0 <= a -> b <= Z.of_nat n ->
  pyslice (map g (seq 0 n)) a b = map g (seq (Z.to_nat a) (Z.to_nat (b - a))).
Proof.
  intros Ha Hb. unfold pyslice. rewrite skipn_map, firstn_map, skipn_seq, firstn_seq.
  do 2 f_equal. lia.
Qed.

Lemma pyslice_app_l {A} (p l : list A) a b :
  0 <= a -> pyslice (p ++ l) (zlen p + a) (zlen p + b) = pyslice l a b.
Proof.
  unfold pyslice, zlen. intros Ha.
  replace (Z.to_nat (Z.of_nat (length p) + a)) with (length p + Z.to_nat a)%nat by lia.
  rewrite <- skipn_skipn. rewrite skipn_app, skipn_all, Nat.sub_diag. cbn [app skipn]. f_equal. lia.
Qed.

Lemma pyslice_app_first {A} (l q : list A) a b :
  0 <= a -> b <= zlen l -> pyslice (l ++ q) a b = pyslice l a b.
Proof.
  unfold pyslice, zlen. intros Ha Hb.
  rewrite skipn_app, firstn_app, skipn_length.
  replace (Z.to_nat (b - a) - (length l - Z.to_nat a))%nat with 0%nat by lia.
  cbn [firstn]. apply app_nil_r.
Qed.

Lemma pyslice_nonempty {A} (l : list A) a b : 0 <= a -> a < b -> b <= zlen l -> pyslice l a b <> [].
Proof.
  intros Ha Hab Hb E. pose proof (pyslice_length l a b Ha ltac:(lia) Hb) as H. rewrite E in H. cbn in H. lia.
Qed.

Lemma nth_error_firstn {A} (l : list A) : forall m t, (t < m)%nat -> nth_error (firstn m l) t = nth_error l t.
Proof.
  induction l as [|x l IH]; intros m t Ht; [rewrite firstn_nil; reflexivity|].
  destruct m; [lia|]. destruct t; [reflexivity|]. cbn [firstn nth_error]. apply IH. lia.
Qed.

Lemma nth_error_skipn {A} (l : list A) : forall k t, nth_error (skipn k l) t = nth_error l (k + t).
Proof.
  induction l as [|x l IH]; intros k t; [rewrite skipn_nil; destruct t, k; reflexivity|].
  destruct k; [reflexivity|]. cbn [skipn Nat.add nth_error]. apply IH.
Qed.

Lemma nth_error_pyslice {A} (l : list A) a b t :
  Z.of_nat t < b - a -> nth_error (pyslice l a b) t = nth_error l (Z.to_nat a + t).
Proof.
  intros Ht. unfold pyslice. rewrite nth_error_firstn by lia. apply nth_error_skipn.
Qed.

Lemma zmin_list_spec cs mn : zmin_list cs = Some mn -> In mn cs /\ Forall (fun c => mn <= c) cs.
Proof.
  destruct cs as [|x t]; [discriminate|]. cbn [zmin_list]. intros H. injection H as <-.
  assert (G : forall t x, In (fold_left Z.min t x) (x :: t) /\ fold_left Z.min t x <= x /\
                          Forall (fun c => fold_left Z.min t x <= c) t).
  { clear. induction t as [|y t IH]; intros x; cbn [fold_left]; [split; [left; reflexivity | split; [lia | constructor]]|].
    destruct (IH (Z.min x y)) as (H1 & H2 & H3). split; [|split; [lia | constructor; [lia | exact H3]]].
    destruct H1 as [H1|H1]; [|right; right; exact H1]. rewrite <- H1.
    destruct (Z.min_spec x y) as [[_ ->]|[_ ->]]; [left | right; left]; reflexivity. }
  destruct (G t x) as (H1 & H2 & H3). split; [exact H1 | constructor; assumption].
Qed.

Lemma zmin_list_ge cs m : cs <> [] -> Forall (fun c => m <= c) cs -> exists mn, zmin_list cs = Some mn /\ m <= mn.
Proof.
  intros Hne HF. destruct (zmin_list cs) as [mn|] eqn:E; [|destruct cs; [congruence | discriminate]].
  exists mn. split; [reflexivity|]. apply zmin_list_spec in E as [Hin _]. rewrite Forall_forall in HF. apply HF, Hin.
Qed.

Definition psum (cs : list Z) (i : Z) : Z := zsum (firstnZ i cs).

Lemma psum_0 cs : psum cs 0 = 0.
Proof. reflexivity. Qed.

Lemma psum_all cs : psum cs (zlen cs) = zsum cs.
Proof. unfold psum, firstnZ, zlen. rewrite Nat2Z.id, firstn_all. reflexivity. Qed.

Lemma psum_cons c t i : 0 <= i -> psum (c :: t) (i + 1) = c + psum t i.
Proof.
  intros Hi. unfold psum, firstnZ. replace (Z.to_nat (i + 1)) with (S (Z.to_nat i)) by lia. reflexivity.
Qed.

Lemma psum_succ cs i : 0 <= i < zlen cs -> psum cs (i + 1) = psum cs i + nthZ cs i.
Proof.
  unfold psum, firstnZ, nthZ, zlen. intros Hi.
  replace (Z.to_nat (i + 1)) with (S (Z.to_nat i)) by lia.
  apply zsum_firstn_S. lia.
Qed.

Lemma psum_mono cs i j : Forall (fun c => 0 <= c) cs -> 0 <= i -> i <= j -> psum cs i <= psum cs j.
Proof. intros Hnn Hi Hij. unfold psum. apply zsum_firstnZ_le; assumption || lia. Qed.

Lemma psum_le_total cs i : Forall (fun c => 0 <= c) cs -> psum cs i <= zsum cs.
Proof. intros Hnn. unfold psum. apply zsum_firstnZ_le_all. exact Hnn. Qed.

Lemma psum_nonneg cs i : Forall (fun c => 0 <= c) cs -> 0 <= psum cs i.
Proof. intros Hnn. unfold psum. apply zsum_nonneg, Forall_firstn. exact Hnn. Qed.

Lemma Forall_ge_le m m' cs : m' <= m -> Forall (fun c => m <= c) cs -> Forall (fun c => m' <= c) cs.
Proof. intros H. apply Forall_impl. intros c Hc. lia. Qed.

Lemma zsum_nonneg_ge D cs : 0 <= D -> Forall (fun c => D <= c) cs -> 0 <= zsum cs.
Proof. intros HD H. apply zsum_nonneg, (Forall_ge_le D 0), H. exact HD. Qed.

(* a non-empty layout is at least as long as any lower bound of its chunks *)
Lemma zsum_ge_chunk cs D : cs <> [] -> 0 <= D -> Forall (fun c => D <= c) cs -> D <= zsum cs.
Proof.
  intros Hne HD H. destruct cs as [|c t]; [congruence|]. inversion H as [|? ? Hc Ht]; subst.
  pose proof (zsum_nonneg_ge D t HD Ht). cbn [zsum]. lia.
Qed.

Lemma Forall_ge_pos m cs : 0 < m -> Forall (fun c => m <= c) cs -> Forall (fun c => 0 < c) cs.
Proof. intros H. apply Forall_impl. intros c Hc. lia. Qed.

Lemma nthZ_pos cs i : Forall (fun c => 0 < c) cs -> 0 <= i < zlen cs -> 0 < nthZ cs i.
Proof.
  intros Hpos Hi. rewrite Forall_forall in Hpos. apply Hpos. unfold nthZ. apply nth_In. unfold zlen in Hi. lia.
Qed.

(* positive chunks: the block starts increase strictly, so positions order the blocks *)
Lemma psum_lt cs i j : Forall (fun c => 0 < c) cs -> 0 <= i < j -> j <= zlen cs -> psum cs i < psum cs j.
Proof.
  intros Hpos Hij Hj. pose proof (nthZ_pos cs i Hpos ltac:(lia)). pose proof (psum_succ cs i ltac:(lia)).
  pose proof (psum_mono cs (i + 1) j (Forall_pos_nonneg cs Hpos) ltac:(lia) ltac:(lia)). lia.
Qed.

Lemma psum_lt_inv cs i j : Forall (fun c => 0 <= c) cs -> 0 <= j -> psum cs i < psum cs j -> i < j.
Proof.
  intros Hnn Hj H. destruct (Z_lt_ge_dec i j) as [|Hge]; [assumption|].
  pose proof (psum_mono cs j i Hnn Hj ltac:(lia)). lia.
Qed.

Lemma nthZ_starts cs i : 0 <= i <= zlen cs -> nthZ (starts cs) i = psum cs i.
Proof.
  intros Hi. unfold starts. destruct (Z.eq_dec i 0) as [->|Hne]; [reflexivity|].
  unfold nthZ. replace (Z.to_nat i) with (S (Z.to_nat (i - 1))) by lia. cbn [nth].
  change (nth (Z.to_nat (i - 1)) (cumsum cs) 0) with (nthZ (cumsum cs) (i - 1)).
  rewrite cumsum_nthZ; [reflexivity|]. unfold lenZ. unfold zlen in Hi. lia.
Qed.

(* bisect_right(starts, x) - 1 is the block holding position x *)
Lemma bisect_starts cs x b : b = bisect_right (starts cs) x - 1 -> 0 <= x < zsum cs ->
  0 <= b < zlen cs /\ psum cs b <= x < psum cs (b + 1).
Proof.
  intros -> Hx. unfold starts. cbn [bisect_right].
  destruct (0 <=? x) eqn:E; [|lia].
  pose proof (bisect_right_cumsum cs 0 x) as H. cbv zeta in H. fold (cumsum cs) in H.
  set (j := bisect_right (cumsum cs) x) in *. destruct H as (H1 & H2 & H3).
  replace (1 + j - 1) with j by lia. change (lenZ cs) with (zlen cs) in *. unfold psum.
  destruct (Z.eq_dec j (zlen cs)) as [Ej|Ej].
  - (* x would lie at or after the end *)
    pose proof (psum_all cs) as Hall. unfold psum in Hall. rewrite <- Ej in Hall.
    destruct (Z.eq_dec j 0) as [E0|E0]; [rewrite E0 in Hall; cbn in Hall; lia | specialize (H2 ltac:(lia)); lia].
  - specialize (H3 ltac:(lia)). split; [lia|]. split; [|lia].
    destruct (Z.eq_dec j 0) as [->|E0]; [cbn; lia | specialize (H2 ltac:(lia)); lia].
Qed.

Lemma split_blocks_length {A} cs (xs : list A) : length (split_blocks cs xs) = length cs.
Proof. revert xs. induction cs as [|c t IH]; intros xs; cbn; [reflexivity|]. rewrite IH. reflexivity. Qed.

Lemma getblock_split {A} cs : forall (xs : list A) i,
  Forall (fun c => 0 <= c) cs -> 0 <= i < zlen cs ->
  getblock (split_blocks cs xs) i = pyslice xs (psum cs i) (psum cs (i + 1)).
Proof.
  induction cs as [|c t IH]; intros xs i Hnn Hi; [unfold zlen in Hi; cbn in Hi; lia|].
  inversion Hnn as [|c' t' Hc Ht]; subst. rewrite zlen_cons in Hi.
  destruct (Z.eq_dec i 0) as [->|Hne].
  - rewrite (psum_cons c t 0), !psum_0 by lia. unfold getblock, pyslice.
    cbn [split_blocks Z.to_nat nth skipn]. f_equal. lia.
  - assert (Ei : i = (i - 1) + 1) by lia. set (i' := i - 1) in *. clearbody i'. subst i.
    specialize (IH (skipn (Z.to_nat c) xs) i' Ht ltac:(lia)). unfold getblock in *.
    replace (Z.to_nat (i' + 1)) with (S (Z.to_nat i')) by lia. cbn [split_blocks nth].
    rewrite IH, !psum_cons by lia. pose proof (psum_nonneg t i' Ht).
    unfold pyslice. rewrite skipn_skipn. f_equal; [lia|]. f_equal. lia.
Qed.

Lemma zrange_1_cons a b : a < b -> zrange a b 1 = a :: zrange (a + 1) b 1.
Proof.
  intros H. unfold zrange. rewrite !range_len_unit.
  replace (Z.to_nat (Z.max (b - a) 0)) with (S (Z.to_nat (Z.max (b - (a + 1)) 0))) by lia.
  cbn [seq map]. f_equal; [lia|]. rewrite <- seq_shift, map_map. apply map_ext. intros i. lia.
Qed.

Lemma zrange_1_nil a b : b <= a -> zrange a b 1 = [].
Proof. intros H. unfold zrange. rewrite range_len_unit. replace (Z.to_nat (Z.max (b - a) 0)) with 0%nat by lia. reflexivity. Qed.

Lemma zrange_1_length a b : length (zrange a b 1) = Z.to_nat (b - a).
Proof. unfold zrange. rewrite map_length, seq_length, range_len_unit. lia. Qed.

Lemma concat_getblocks {A} cs (xs : list A) a b :
  Forall (fun c => 0 <= c) cs -> 0 <= a <= b -> b <= zlen cs ->
  concat (map (getblock (split_blocks cs xs)) (zrange a b 1)) = pyslice xs (psum cs a) (psum cs b).
Proof.
  intros Hnn Hab Hb. remember (Z.to_nat (b - a)) as m eqn:Em. revert a Hab Em.
  induction m as [|m IH]; intros a Hab Em.
  - rewrite zrange_1_nil by lia. replace b with a by lia. symmetry. apply pyslice_empty. lia.
  - rewrite zrange_1_cons by lia. cbn [map concat].
    rewrite IH by lia. rewrite getblock_split by (assumption || lia).
    symmetry. apply pyslice_app; [apply psum_nonneg, Hnn | apply psum_mono; [exact Hnn | lia | lia] ..].
Qed.

(* the run of blocks that holds the positions x .. y, as bisect_right finds it on the block starts *)
Lemma bisect_band {A} cs (xs : list A) x y b e :
  Forall (fun c => 0 <= c) cs -> b = bisect_right (starts cs) x - 1 -> e = bisect_right (starts cs) y - 1 ->
  0 <= x <= y -> y < zsum cs ->
  0 <= b <= e /\ e < zlen cs /\ psum cs b <= x < psum cs (b + 1) /\ psum cs e <= y < psum cs (e + 1) /\
  nthZ (starts cs) b = psum cs b /\
  concat (map (getblock (split_blocks cs xs)) (zrange b (e + 1) 1)) = pyslice xs (psum cs b) (psum cs (e + 1)).
Proof.
  intros Hnn Eb Ee Hxy Hy.
  destruct (bisect_starts cs x b Eb ltac:(lia)) as (Hb1 & Hb2).
  destruct (bisect_starts cs y e Ee ltac:(lia)) as (He1 & He2).
  assert (Hbe : b < e + 1) by (apply (psum_lt_inv cs); [exact Hnn | lia | lia]).
  repeat split; try lia; [apply nthZ_starts; lia | apply concat_getblocks; [exact Hnn | lia | lia]].
Qed.

Lemma getblocks_nonempty {A} cs (xs : list A) a b :
  Forall (fun c => 0 < c) cs -> zsum cs <= zlen xs -> 0 <= a -> b <= zlen cs ->
  Forall (fun bl => bl <> []) (map (getblock (split_blocks cs xs)) (zrange a b 1)).
Proof.
  intros Hpos Hfit Ha Hb. pose proof (Forall_pos_nonneg cs Hpos) as Hnn.
  apply Forall_forall. intros bl Hin. apply in_map_iff in Hin as (q & <- & Hq). apply zrange_unit_In in Hq.
  rewrite getblock_split by (assumption || lia).
  pose proof (psum_lt cs q (q + 1) Hpos ltac:(lia) ltac:(lia)). pose proof (psum_le_total cs (q + 1) Hnn).
  apply pyslice_nonempty; [apply psum_nonneg, Hnn | lia | lia].
Qed.

Lemma concat_split_blocks {A} cs : forall (xs : list A),
  Forall (fun c => 0 <= c) cs -> zsum cs = zlen xs -> concat (split_blocks cs xs) = xs.
Proof.
  induction cs as [|c t IH]; intros xs Hnn Hs.
  - cbn in Hs. destruct xs; [reflexivity|]. rewrite zlen_cons in Hs. pose proof (zlen_nonneg xs). lia.
  - inversion Hnn as [|c' t' Hc Ht]; subst. cbn [split_blocks concat].
    rewrite IH; [apply firstn_skipn | exact Ht |].
    pose proof (zsum_nonneg t Ht). unfold zlen in *. rewrite skipn_length. cbn [zsum] in Hs. lia.
Qed.

Lemma map_zlen_split_blocks {A} cs : forall (xs : list A),
  Forall (fun c => 0 <= c) cs -> zsum cs = zlen xs -> map zlen (split_blocks cs xs) = cs.
Proof.
  induction cs as [|c t IH]; intros xs Hnn Hs; [reflexivity|].
  inversion Hnn as [|c' t' Hc Ht]; subst. cbn [split_blocks map]. cbn [zsum] in Hs.
  pose proof (zsum_nonneg t Ht) as Hz.
  f_equal.
  - unfold zlen in *. rewrite firstn_length. lia.
  - apply IH; [exact Ht|]. unfold zlen in *. rewrite skipn_length. lia.
Qed.
