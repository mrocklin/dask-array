(* C18 — the N-D tree: every level groups a product of per-axis partitions; for an
   order-insensitive combine the tree equals one flat aggregate over all blocks. *)
From DA Require Import PyBase PyBaseFacts TreeReduce TreeReduceFacts.
From Coq Require Import Permutation.
Open Scope Z_scope.

Lemma fm_singleton {A} (l : list A) : flat_map (fun x => [x]) l = l.
Proof. induction l as [|a t IH]; cbn; [reflexivity|]. rewrite IH. reflexivity. Qed.

Lemma fm_ext_Forall {A B} (P : A -> Prop) (f g : A -> list B) l :
  Forall P l -> (forall a, P a -> f a = g a) -> flat_map f l = flat_map g l.
Proof. intros Hl H. induction Hl as [|a t Ha Ht IH]; cbn; [reflexivity|]. rewrite IH, (H a Ha). reflexivity. Qed.

Lemma perm_fm_ext_Forall {A B} (P : A -> Prop) (f g : A -> list B) l :
  Forall P l -> (forall a, P a -> Permutation (f a) (g a)) -> Permutation (flat_map f l) (flat_map g l).
Proof. intros Hl H. induction Hl as [|a t Ha Ht IH]; cbn; [constructor|]. apply Permutation_app; auto. Qed.

Lemma map2_length {A B C} (f : A -> B -> C) la lb : length la = length lb -> length (map2 f la lb) = length la.
Proof.
  revert lb. induction la as [|a t IH]; intros [|b tb] H; cbn in *; try reflexivity; try discriminate.
  rewrite IH by lia. reflexivity.
Qed.

Lemma map_map2 {A B C D} (f : A -> B -> C) (g : C -> D) la lb : map g (map2 f la lb) = map2 (fun a b => g (f a b)) la lb.
Proof. revert lb. induction la as [|a t IH]; intros [|b tb]; cbn; try reflexivity. rewrite IH. reflexivity. Qed.

Lemma map2_map_l {A A' B C} (f : A' -> B -> C) (h : A -> A') la lb : map2 f (map h la) lb = map2 (fun a b => f (h a) b) la lb.
Proof. revert lb. induction la as [|a t IH]; intros [|b tb]; cbn; try reflexivity. rewrite IH. reflexivity. Qed.

Lemma map2_map2_r {A B B' C} (f : A -> B' -> C) (h : A -> B -> B') la lb :
  map2 f la (map2 h la lb) = map2 (fun a b => f a (h a b)) la lb.
Proof. revert lb. induction la as [|a t IH]; intros [|b tb]; cbn; try reflexivity. rewrite IH. reflexivity. Qed.

Lemma map2_ext {A B C} (f g : A -> B -> C) la lb : (forall a b, f a b = g a b) -> map2 f la lb = map2 g la lb.
Proof. intros H. revert lb. induction la as [|a t IH]; intros [|b tb]; cbn; try reflexivity. rewrite H, IH. reflexivity. Qed.

Lemma map2_map_map {X A B C} (f : A -> B -> C) (g : X -> A) (h : X -> B) (l : list X) :
  map2 f (map g l) (map h l) = map (fun x => f (g x) (h x)) l.
Proof. induction l as [|x t IH]; cbn; [reflexivity|]. rewrite IH. reflexivity. Qed.

Lemma map2_fst_snd {A B C} (f : A -> B -> C) (l : list (A * B)) :
  map2 f (map fst l) (map snd l) = map (fun p => f (fst p) (snd p)) l.
Proof. apply map2_map_map. Qed.

Lemma cprod_elem_length {A} (ls : list (list A)) x : In x (cprod ls) -> length x = length ls.
Proof.
  revert x. induction ls as [|l t IH]; intros x H; cbn [cprod] in H.
  - destruct H as [<-|[]]. reflexivity.
  - apply in_flat_map in H. destruct H as (a & _ & H). apply in_map_iff in H. destruct H as (y & <- & Hy).
    cbn [length]. rewrite (IH y Hy). reflexivity.
Qed.

Lemma cprod_singletons {A} (q : list A) : cprod (map (fun j => [j]) q) = [q].
Proof. induction q as [|a t IH]; [reflexivity|]. cbn [map cprod flat_map]. rewrite IH. reflexivity. Qed.

(* the groups of a product of partitions, taken together, are the product of the wholes *)
Lemma cprod_parts_perm {A} (parts : list (list (list A))) :
  Permutation (flat_map cprod (cprod parts)) (cprod (map (@concat A) parts)).
Proof.
  induction parts as [|P rest IH].
  - cbn. apply Permutation_refl.
  - cbn [cprod map]. rewrite flat_map_flat_map, flat_map_concat_list. apply flat_map_perm_ext. intros g.
    rewrite flat_map_map.
    refine (Permutation_trans (flat_map_swap (fun q a => map (cons a) (cprod q)) (cprod rest) g) _).
    apply flat_map_perm_ext. intros a. rewrite <- map_flat_map. apply Permutation_map. exact IH.
Qed.

Lemma cprod_map2 {A B C} (g : A -> B -> C) ps : forall Cs, length ps = length Cs ->
  map (fun q => map2 g ps q) (cprod Cs) = cprod (map2 (fun p c => map (g p) c) ps Cs).
Proof.
  induction ps as [|p ps IH]; intros [|c Cs] H; try discriminate.
  - reflexivity.
  - cbn [cprod map2]. rewrite map_flat_map, flat_map_map. apply flat_map_ext. intros a.
    rewrite map_map. cbn [map2]. rewrite <- (IH Cs) by (cbn in H; lia). rewrite map_map. reflexivity.
Qed.

Lemma zrange0_seq n : zrange0 n = map Z.of_nat (seq 0 (Z.to_nat n)).
Proof.
  unfold zrange0, zrange.
  assert (range_len 0 n 1 = Z.max 0 n) as ->.
  { unfold range_len. cbn. destruct (0 <? n) eqn:E; rewrite ?Z.div_1_r; lia. }
  replace (Z.to_nat (Z.max 0 n)) with (Z.to_nat n) by lia.
  apply map_ext. intros i. lia.
Qed.

Lemma zrange0_length n : 0 <= n -> Z.of_nat (length (zrange0 n)) = n.
Proof. intros H. rewrite zrange0_seq, map_length, seq_length. lia. Qed.

Lemma zrange0_nonempty n : 1 <= n -> zrange0 n <> [].
Proof. intros H E. pose proof (zrange0_length n ltac:(lia)) as L. rewrite E in L. cbn in L. lia. Qed.

Lemma zrange0_nth n j : 0 <= j < n -> nth (Z.to_nat j) (zrange0 n) 0 = j.
Proof.
  intros H. rewrite zrange0_seq. change 0 with (Z.of_nat 0) at 1. rewrite map_nth, seq_nth by lia. lia.
Qed.

Lemma map_nth_zrange0 {A} (l : list A) d :
  map (fun j => nth (Z.to_nat j) l d) (zrange0 (Z.of_nat (length l))) = l.
Proof.
  rewrite zrange0_seq, Nat2Z.id, map_map.
  rewrite (map_ext _ (fun i => nth i l d)) by (intros i; rewrite Nat2Z.id; reflexivity).
  induction l as [|x t IH]; [reflexivity|].
  cbn [length seq map nth]. f_equal. rewrite <- seq_shift, map_map. exact IH.
Qed.

Lemma fm_nth_all {A} (parts : list (list A)) :
  flat_map (fun j => nth (Z.to_nat j) parts []) (zrange0 (Z.of_nat (length parts))) = concat parts.
Proof. rewrite flat_map_concat_map, map_nth_zrange0. reflexivity. Qed.

Lemma cover_step_perm {P} (c : P -> Z -> list Z) (ps : list P) (G : list (list Z)) :
  length ps = length G ->
  Permutation (flat_map (fun q' => cprod (map2 c ps q')) (cprod G))
              (cprod (map2 (fun p cc => flat_map (c p) cc) ps G)).
Proof.
  intros H. rewrite <- (flat_map_map (fun q' => map2 c ps q') cprod). rewrite cprod_map2 by assumption.
  rewrite (map2_ext _ _ ps G (fun p cc => flat_map_concat_map (c p) cc)), <- map_map2.
  apply cprod_parts_perm.
Qed.

Section ND.
  Context {S : Type} (comb : list S -> S).
  Variable kn : list (Z * Z).             (* per axis: (fan-in, number of blocks) *)
  Let ks := map fst kn.
  Let nb := map snd kn.

  Definition nb_at (d : nat) : list Z := map (fun p => nblk d (fst p) (snd p)) kn.

  Lemma nd_iter_snoc d : forall nb0 (f : list Z -> S),
    nd_iter comb ks (Datatypes.S d) nb0 f =
    (nd_numblocks ks (fst (nd_iter comb ks d nb0 f)),
     nd_level comb ks (fst (nd_iter comb ks d nb0 f)) (snd (nd_iter comb ks d nb0 f))).
  Proof.
    induction d as [|d IH]; intros nb0 f; [reflexivity|].
    change (nd_iter comb ks (Datatypes.S (Datatypes.S d)) nb0 f)
      with (nd_iter comb ks (Datatypes.S d) (nd_numblocks ks nb0) (nd_level comb ks nb0 f)).
    rewrite IH. reflexivity.
  Qed.

  Lemma nd_parts_at d : nd_parts ks (nb_at d) =
    map (fun p => partition_all (fst p) (zrange0 (nblk d (fst p) (snd p)))) kn.
  Proof. apply (map2_map_map (fun k n => partition_all k (zrange0 n))). Qed.

  Lemma nd_iter_fst d (f : list Z -> S) : fst (nd_iter comb ks d nb f) = nb_at d.
  Proof.
    induction d as [|d IH]; [reflexivity|].
    rewrite nd_iter_snoc. cbn [fst]. rewrite IH. unfold nd_numblocks. rewrite nd_parts_at, map_map. reflexivity.
  Qed.

  Lemma nd_iter_snd_succ d (f : list Z -> S) :
    snd (nd_iter comb ks (Datatypes.S d) nb f) = nd_level comb ks (nb_at d) (snd (nd_iter comb ks d nb f)).
  Proof. rewrite nd_iter_snoc. cbn [snd]. rewrite nd_iter_fst. reflexivity. Qed.

  Lemma nd_cover_zero q : length q = length kn -> cprod (nd_cover kn 0 q) = [q].
  Proof.
    intros H. unfold nd_cover. cbn [cover1].
    replace (map2 (fun (_ : Z * Z) j => [j]) kn q) with (map (fun j => [j]) q); [apply cprod_singletons|].
    revert q H. induction kn as [|p t IH]; intros [|j q] H; cbn in *; try reflexivity; try discriminate.
    rewrite IH by lia. reflexivity.
  Qed.

  Lemma nd_group_at d q :
    nd_group (nd_parts ks (nb_at d)) q =
    map2 (fun p j => nth (Z.to_nat j) (partition_all (fst p) (zrange0 (nblk d (fst p) (snd p)))) []) kn q.
  Proof. rewrite nd_parts_at. unfold nd_group. rewrite map2_map_l. reflexivity. Qed.

  Lemma nd_group_length d q : length q = length kn -> length (nd_group (nd_parts ks (nb_at d)) q) = length kn.
  Proof. intros H. rewrite nd_group_at. apply map2_length. lia. Qed.

  Lemma nd_group_members d q : length q = length kn ->
    Forall (fun q' => length q' = length kn) (cprod (nd_group (nd_parts ks (nb_at d)) q)).
  Proof.
    intros H. apply Forall_forall. intros x Hx. rewrite (cprod_elem_length _ _ Hx). apply nd_group_length, H.
  Qed.

  (* one level: the blocks below the members of the group of q are the blocks below q *)
  Lemma nd_cover_step d q : length q = length kn ->
    Permutation (flat_map (fun q' => cprod (nd_cover kn d q')) (cprod (nd_group (nd_parts ks (nb_at d)) q)))
                (cprod (nd_cover kn (Datatypes.S d) q)).
  Proof.
    intros H. unfold nd_cover at 1.
    eapply Permutation_trans.
    - apply (cover_step_perm (fun p j => cover1 (fst p) d (snd p) j)). rewrite nd_group_length; auto.
    - rewrite nd_group_at, map2_map2_r. unfold nd_cover. cbn [cover1]. apply Permutation_refl.
  Qed.

  Section Observer.
    Context {T : Type} (phi : list S -> T).
    Hypothesis Pphi : forall l l', Permutation l l' -> phi l = phi l'.
    Hypothesis Fphi : forall ls, phi (map comb ls) = phi (concat ls).

    (* the induction over the levels: an observer phi that is blind to the order of its arguments and
       absorbs comb sees, in the level-d values at the keys qs, the inputs at all the blocks below them *)
    Lemma claim d (f : list Z -> S) : forall qs, Forall (fun q => length q = length kn) qs ->
      phi (map (snd (nd_iter comb ks d nb f)) qs) = phi (map f (flat_map (fun q => cprod (nd_cover kn d q)) qs)).
    Proof.
      induction d as [|d IH]; intros qs Hqs.
      - cbn [nd_iter snd]. rewrite (fm_ext_Forall _ _ (fun q => [q]) qs Hqs); [|apply nd_cover_zero].
        rewrite fm_singleton. reflexivity.
      - rewrite nd_iter_snd_succ. unfold nd_level.
        rewrite <- (map_map (fun key => map (snd (nd_iter comb ks d nb f)) (cprod (nd_group (nd_parts ks (nb_at d)) key))) comb).
        rewrite Fphi. rewrite <- flat_map_concat_map, <- map_flat_map.
        rewrite IH.
        + apply Pphi. apply Permutation_map. rewrite flat_map_flat_map.
          apply (perm_fm_ext_Forall _ _ _ qs Hqs). intros q Hq. apply nd_cover_step. assumption.
        + apply Forall_flat_map, (Forall_impl _ (nd_group_members d)), Hqs.
    Qed.
  End Observer.

  (* the statement of C18_tree_nd_cover *)
  Theorem nd_tree_value_cover {R} (agg : list S -> R) (depth : nat) (f : list Z -> S) (key : list Z) :
    tree_laws comb agg -> (1 <= depth)%nat -> length key = length kn ->
    nd_tree_value comb agg ks depth nb f key = agg (map f (cprod (nd_cover kn depth key))).
  Proof.
    intros [HP HF] Hd Hkey. destruct depth as [|d]; [lia|].
    unfold nd_tree_value. replace (Datatypes.S d - 1)%nat with d by lia.
    rewrite (surjective_pairing (nd_iter comb ks d nb f)), nd_iter_fst. unfold nd_level.
    rewrite (claim agg (fun l l' H => proj2 (HP l l' H)) (fun ls => proj2 (HF ls)) d f).
    - apply HP. apply Permutation_map. apply nd_cover_step. assumption.
    - apply nd_group_members, Hkey.
  Qed.
End ND.

Lemma nblk_nonneg d k n : 0 <= n -> 0 <= nblk d k n.
Proof. destruct d; cbn [nblk]; lia. Qed.

Lemma nblk_iter_cdiv d k n : 1 <= k -> 0 <= n -> nblk d k n = iter_cdiv d k n.
Proof.
  intros Hk Hn. induction d as [|d IH]; [reflexivity|].
  rewrite iter_cdiv_succ. cbn [nblk]. rewrite partition_all_pa, pa_length by lia.
  rewrite zrange0_length, IH by (apply nblk_nonneg; assumption). f_equal. lia.
Qed.

(* all blocks of level d together lie above all input blocks *)
Lemma cover_all k d n : 1 <= k -> flat_map (cover1 k d n) (zrange0 (nblk d k n)) = zrange0 n.
Proof.
  intros Hk. induction d as [|d IH].
  - cbn [cover1 nblk]. apply fm_singleton.
  - cbn [nblk]. rewrite (flat_map_ext _ (fun j => flat_map (cover1 k d n) (nth (Z.to_nat j) (partition_all k (zrange0 (nblk d k n))) []))) by reflexivity.
    rewrite <- flat_map_flat_map, fm_nth_all, partition_all_pa, pa_concat by lia. exact IH.
Qed.

(* a reduced axis: once the level below the top has at most k blocks, the single top block lies above everything *)
Lemma cover1_top k d n : 1 <= k -> 1 <= n -> n <= k ^ Z.of_nat (S d) -> cover1 k (S d) n 0 = zrange0 n.
Proof.
  intros Hk Hn Hle. cbn [cover1].
  assert (1 <= nblk d k n <= k) as Hm.
  { pose proof (Z.pow_pos_nonneg k (Z.of_nat d)). rewrite nblk_iter_cdiv by lia. split.
    - rewrite iter_cdiv_pow by assumption. apply cdiv_pos; lia.
    - apply iter_cdiv_le_k; assumption. }
  rewrite partition_all_pa, pa_single.
  - cbn [nth Z.to_nat]. apply cover_all; lia.
  - lia.
  - apply zrange0_nonempty. lia.
  - pose proof (zrange0_length (nblk d k n) ltac:(lia)). lia.
Qed.

(* a kept axis (fan-in 1): block j lies above block j only *)
Lemma cover1_fan1 d n j : 0 <= j < n -> cover1 1 d n j = [j].
Proof.
  intros Hj. induction d as [|d IH]; [reflexivity|].
  cbn [cover1]. rewrite nblk_iter_cdiv, iter_cdiv_fan1 by lia.
  rewrite partition_all_pa. change (Z.to_nat 1) with 1%nat. rewrite pa_one.
  rewrite (nth_indep _ [] [0]) by (rewrite map_length; pose proof (zrange0_length n ltac:(lia)); lia).
  change [0] with ((fun x : Z => [x]) 0). rewrite map_nth, zrange0_nth by assumption.
  cbn [flat_map]. rewrite IH. reflexivity.
Qed.

(* the per-axis index lists of the flat reduction: everything on a reduced axis, the kept
   coordinate on an axis of fan-in 1 *)
Definition flat_axes (kn : list (Z * Z)) (key : list Z) : list (list Z) :=
  map2 (fun p j => if fst p =? 1 then [j] else zrange0 (snd p)) kn key.

(* a kept axis (fan-in 1) may be asked at any block; a reduced axis (fan-in >= 2) only at its single top
   block 0, which `depth` levels must suffice to reach *)
Definition axis_ok (depth : Z) (p : Z * Z) (j : Z) : Prop :=
  (fst p = 1 /\ 0 <= j < snd p) \/ (2 <= fst p /\ j = 0 /\ 1 <= snd p /\ snd p <= fst p ^ depth).

Lemma nd_cover_flat kn : forall depth key, (1 <= depth)%nat ->
  Forall2 (axis_ok (Z.of_nat depth)) kn key -> nd_cover kn depth key = flat_axes kn key.
Proof.
  intros depth key Hd H. unfold nd_cover, flat_axes.
  induction H as [|p j kn' key' Hpj Hrest IH]; [reflexivity|].
  cbn [map2]. rewrite IH. f_equal.
  destruct Hpj as [[Hk Hj]|(Hk & Hj & Hn & Hle)].
  - rewrite Hk. cbn [Z.eqb Pos.eqb]. apply cover1_fan1. assumption.
  - destruct (fst p =? 1) eqn:E; [lia|]. subst j.
    destruct depth as [|d]; [lia|]. apply cover1_top; lia.
Qed.

(* the statement of C18_tree_equals_flat_nd *)
Theorem nd_tree_equals_flat {S R} (comb : list S -> S) (agg : list S -> R) kn depth (f : list Z -> S) key :
  tree_laws comb agg -> (1 <= depth)%nat -> Forall2 (axis_ok (Z.of_nat depth)) kn key ->
  nd_tree_value comb agg (map fst kn) depth (map snd kn) f key = agg (map f (cprod (flat_axes kn key))).
Proof.
  intros HL Hd Hok. rewrite nd_tree_value_cover; try assumption.
  - rewrite nd_cover_flat by assumption. reflexivity.
  - symmetry. apply (Forall2_length _ _ _ Hok).
Qed.

Lemma mfold_perm {S} (op : S -> S -> S) e : monoid_laws op e -> commutative op ->
  forall l l', Permutation l l' -> mfold op e l = mfold op e l'.
Proof.
  intros (Ha & Hl & Hr) Hc l l' H. unfold mfold. induction H; cbn [fold_right].
  - reflexivity.
  - congruence.
  - rewrite !Ha. f_equal. apply Hc.
  - congruence.
Qed.

Theorem tree_laws_monoid {S R} (op : S -> S -> S) e (out : S -> R) :
  monoid_laws op e -> commutative op -> tree_laws (mfold op e) (fun l => out (mfold op e l)).
Proof.
  intros Hm Hc. split.
  - intros l l' H. rewrite (mfold_perm op e Hm Hc l l' H). split; reflexivity.
  - intros ls. rewrite mfold_concat by assumption. split; reflexivity.
Qed.

Lemma Permutation_concat {A} (l l' : list (list A)) : Permutation l l' -> Permutation (concat l) (concat l').
Proof.
  intros H. rewrite <- (map_id l), <- (map_id l'), <- !flat_map_concat_map. apply Permutation_flat_map, H.
Qed.

(* concatenate=True reductions whose stages fold a commutative monoid over the elements *)
Theorem tree_laws_concat_monoid {D R} (op : D -> D -> D) e (out : D -> R) :
  monoid_laws op e -> commutative op ->
  tree_laws (fun l : list (list D) => [mfold op e (concat l)]) (fun l => out (mfold op e (concat l))).
Proof.
  intros Hm Hc. split.
  - intros l l' H. rewrite (mfold_perm op e Hm Hc _ _ (Permutation_concat _ _ H)). split; reflexivity.
  - intros ls.
    assert (mfold op e (concat (map (fun l : list (list D) => [mfold op e (concat l)]) ls)) = mfold op e (concat (concat ls))) as ->.
    { induction ls as [|l t IH]; [reflexivity|]. cbn [map concat].
      transitivity (op (mfold op e (concat l)) (mfold op e (concat (concat t)))).
      - rewrite <- IH. reflexivity.
      - rewrite concat_app, mfold_app by assumption. reflexivity. }
    split; reflexivity.
Qed.

(* zsum and zprod are the folds of (+, 0) and ( *, 1) up to conversion *)
Lemma zsum_mfold l : zsum l = mfold Z.add 0 l.
Proof. reflexivity. Qed.
Lemma zprod_mfold l : zprod l = mfold Z.mul 1 l.
Proof. reflexivity. Qed.
