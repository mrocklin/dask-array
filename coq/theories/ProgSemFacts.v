(* The flat arrays of ProgSem.v ([ndarr]: shape + row-major data) against the index functions of NdArray.v
   ([to_nd] / [of_nd] are inverse on well-formed arrays); every evaluated program is well-formed; the
   advertised-shape rule [pshape] agrees with [eval]. *)
From DA Require Import PyBase PyBaseFacts Slicing NormalizeFacts FuseFacts NdArray NdArrayFacts ProgSem.
Open Scope Z_scope.

Lemma flat_map_nth_uniform {A B} (f : A -> list B) (L : nat) (da : A) (d : B) : forall l i j,
  (forall a, In a l -> length (f a) = L) -> (i < length l)%nat -> (j < L)%nat ->
  nth (i * L + j) (flat_map f l) d = nth j (f (nth i l da)) d.
Proof.
  induction l as [|a l IH]; intros i j H Hi Hj; cbn [length] in Hi; [lia|].
  cbn [flat_map]. destruct i as [|i].
  - cbn [nth Nat.mul Nat.add]. rewrite app_nth1 by (rewrite (H a) by (cbn [In]; tauto); exact Hj). reflexivity.
  - rewrite app_nth2 by (rewrite (H a) by (cbn [In]; tauto); lia).
    rewrite (H a) by (cbn [In]; tauto).
    replace (S i * L + j - L)%nat with (i * L + j)%nat by lia.
    cbn [nth]. apply IH; [intros; apply H; cbn [In]; tauto | lia | exact Hj].
Qed.

Lemma remove_at_length {A} k (l : list A) : (k < length l)%nat -> length (remove_at k l) = (length l - 1)%nat.
Proof. intros H. unfold remove_at. rewrite app_length, firstn_length, skipn_length. lia. Qed.

Lemma nth_insert_at {A} k (v : A) l j d : (k <= length l)%nat ->
  nth j (insert_at k v l) d = if Nat.ltb j k then nth j l d else if Nat.eqb j k then v else nth (j - 1) l d.
Proof.
  intros H. unfold insert_at.
  destruct (Nat.ltb j k) eqn:E1; [apply Nat.ltb_lt in E1 | apply Nat.ltb_ge in E1].
  - rewrite app_nth1 by (rewrite firstn_length; lia). apply nth_firstn_lt. exact E1.
  - rewrite app_nth2 by (rewrite firstn_length; lia). rewrite firstn_length, Nat.min_l by exact H.
    destruct (Nat.eqb j k) eqn:E2; [apply Nat.eqb_eq in E2 | apply Nat.eqb_neq in E2].
    + subst j. rewrite Nat.sub_diag. reflexivity.
    + replace (j - k)%nat with (S (j - k - 1)) by lia. cbn [nth]. rewrite nth_skipn_add. f_equal. lia.
Qed.

Lemma nth_remove_at {A} k (l : list A) j d :
  nth j (remove_at k l) d = if Nat.ltb j k then nth j l d else nth (S j) l d.
Proof.
  unfold remove_at. destruct (Nat.le_gt_cases (length l) k) as [Hk|Hk].
  - rewrite firstn_all2 by exact Hk. rewrite skipn_all2 by lia. rewrite app_nil_r.
    destruct (Nat.ltb j k) eqn:E; [reflexivity|]. apply Nat.ltb_ge in E. rewrite !nth_overflow by lia. reflexivity.
  - destruct (Nat.ltb j k) eqn:E1; [apply Nat.ltb_lt in E1 | apply Nat.ltb_ge in E1].
    + rewrite app_nth1 by (rewrite firstn_length; lia). apply nth_firstn_lt. exact E1.
    + rewrite app_nth2 by (rewrite firstn_length; lia). rewrite firstn_length, Nat.min_l by lia.
      rewrite nth_skipn_add. f_equal. lia.
Qed.

Lemma remove_insert_at {A} k (v : A) : forall l, (k <= length l)%nat -> remove_at k (insert_at k v l) = l.
Proof.
  unfold remove_at, insert_at. induction k as [|k IH]; intros [|x l] H; cbn [length] in H; try lia;
    cbn [firstn skipn app]; try reflexivity.
  f_equal. apply IH. lia.
Qed.

Lemma insert_remove_at {A} (d : A) k : forall l, (k < length l)%nat -> insert_at k (nth k l d) (remove_at k l) = l.
Proof.
  unfold remove_at, insert_at. induction k as [|k IH]; intros [|x l] H; cbn [length] in H; try lia;
    cbn [firstn skipn app nth]; [reflexivity|].
  f_equal. apply IH. lia.
Qed.

Lemma prodZ_nonneg s : nonneg_shape s -> 0 <= prodZ s.
Proof.
  unfold nonneg_shape. induction 1 as [|n s Hn _ IH]; cbn [prodZ fold_right]; [lia|].
  fold (prodZ s). nia.
Qed.

Lemma prodZ_cons n s : prodZ (n :: s) = n * prodZ s.
Proof. reflexivity. Qed.

Lemma prodZ_app a b : prodZ (a ++ b) = prodZ a * prodZ b.
Proof. induction a as [|x a IH]; cbn [app]; rewrite ?prodZ_cons; [change (prodZ []) with 1; lia|]. rewrite IH. ring. Qed.

Lemma in_bounds_nonneg_shape idx : forall s, in_bounds idx s -> nonneg_shape s.
Proof.
  intros s H. pose proof (in_bounds_nonneg idx s H) as HF. unfold nonneg_shape.
  eapply Forall_impl; [|exact HF]. cbn. intros; lia.
Qed.

Lemma ravel_range s : forall idx, in_bounds idx s -> 0 <= ravel s idx < prodZ s.
Proof.
  induction s as [|n s IH]; intros [|i idx] H; cbn [in_bounds] in H; try (exfalso; tauto).
  - cbn. lia.
  - destruct H as [Hi H]. specialize (IH idx H). cbn [ravel]. rewrite prodZ_cons. nia.
Qed.

Lemma zrange_unit_length n : length (zrange 0 n 1) = Z.to_nat n.
Proof. pose proof (zrange_length 0 n 1) as H. rewrite range_len_unit in H. lia. Qed.

Lemma zrange_unit_nth n i d : (i < Z.to_nat n)%nat -> nth i (zrange 0 n 1) d = Z.of_nat i.
Proof. intros H. rewrite zrange_nth by (rewrite range_len_unit; lia). lia. Qed.

Lemma all_indices_length s : nonneg_shape s -> length (all_indices s) = Z.to_nat (prodZ s).
Proof.
  unfold nonneg_shape. induction 1 as [|n s Hn Hs IH]; [reflexivity|].
  cbn [all_indices]. rewrite (flat_map_length_uniform _ (Z.to_nat (prodZ s))).
  - rewrite zrange_unit_length, prodZ_cons. pose proof (prodZ_nonneg s Hs). rewrite Z2Nat.inj_mul by lia. reflexivity.
  - intros a _. rewrite map_length. exact IH.
Qed.

Lemma all_indices_in_bounds s : forall idx, In idx (all_indices s) -> in_bounds idx s.
Proof.
  induction s as [|n s IH]; intros idx H; cbn [all_indices] in H.
  - destruct H as [<-|[]]. exact I.
  - apply in_flat_map in H. destruct H as (i & Hi & H). apply in_map_iff in H. destruct H as (t & <- & Ht).
    cbn [in_bounds]. split; [apply zrange_unit_In; exact Hi | apply IH; exact Ht].
Qed.

Lemma all_indices_nth s : forall idx d, in_bounds idx s ->
  nth (Z.to_nat (ravel s idx)) (all_indices s) d = idx.
Proof.
  induction s as [|n s IH]; intros [|i idx] d H; cbn [in_bounds] in H; try (exfalso; tauto); [reflexivity|].
  destruct H as [Hi H]. pose proof (in_bounds_nonneg_shape idx s H) as Hs.
  pose proof (ravel_range s idx H) as Hr. pose proof (prodZ_nonneg s Hs) as HP.
  cbn [ravel all_indices].
  rewrite Z2Nat.inj_add, Z2Nat.inj_mul by nia.
  rewrite (flat_map_nth_uniform _ (Z.to_nat (prodZ s)) 0 d).
  - rewrite zrange_unit_nth by lia. rewrite Z2Nat.id by lia.
    rewrite (nth_indep _ d (i :: d)) by (rewrite map_length, all_indices_length by exact Hs; lia).
    rewrite (map_nth (cons i)). f_equal. apply IH. exact H.
  - intros a _. rewrite map_length. apply all_indices_length. exact Hs.
  - rewrite zrange_unit_length. lia.
  - lia.
Qed.

Definition wf (a : ndarr) : Prop :=
  nonneg_shape (nshape a) /\ length (ndata a) = Z.to_nat (prodZ (nshape a)).

Lemma wfb_iff a : nd_wfb a = true <-> wf a.
Proof.
  unfold nd_wfb, wf, lenZ. rewrite andb_true_iff, all_nonneg_iff, Z.eqb_eq.
  split; intros [H1 H2]; (split; [exact H1|]); pose proof (prodZ_nonneg _ H1); lia.
Qed.

Lemma to_nd_wf x : nonneg_shape (shape x) -> wf (to_nd x).
Proof.
  intros H. split; [exact H|]. cbn [to_nd ndata nshape]. unfold to_list.
  rewrite map_length. apply all_indices_length. exact H.
Qed.

Lemma to_nd_ext (x y : arr Z) : aeq x y -> to_nd x = to_nd y.
Proof.
  intros [Hs Hg]. unfold to_nd, to_list. rewrite <- Hs. f_equal.
  apply map_ext_in. intros idx Hi. apply Hg. apply all_indices_in_bounds. exact Hi.
Qed.

Lemma of_to_nd x : aeq (of_nd (to_nd x)) x.
Proof.
  split; [reflexivity|]. intros idx Hi. change (in_bounds idx (shape x)) in Hi.
  cbn [of_nd get]. unfold nget, to_nd, to_list, nthZ. cbn [ndata nshape].
  pose proof (in_bounds_nonneg_shape idx _ Hi) as Hs. pose proof (ravel_range _ _ Hi) as Hr.
  rewrite (nth_indep _ 0 (get x idx)) by (rewrite map_length, all_indices_length by exact Hs; lia).
  rewrite (map_nth (get x)). f_equal. apply all_indices_nth. exact Hi.
Qed.

Lemma shape_of_nd a : shape (of_nd a) = nshape a.
Proof. reflexivity. Qed.
Lemma nshape_to_nd x : nshape (to_nd x) = shape x.
Proof. reflexivity. Qed.

(* [all_indices s] lists the indices in row-major order: the k-th one ravels to k.  Position k is split as
   i * L + j with L the number of indices of the tail shape. *)
Lemma all_indices_ravel s : forall k, nonneg_shape s -> (k < length (all_indices s))%nat ->
  ravel s (nth k (all_indices s) []) = Z.of_nat k.
Proof.
  unfold nonneg_shape. induction s as [|n s IH]; intros k Hn Hk.
  - cbn [all_indices length] in Hk. assert (k = O) as -> by lia. reflexivity.
  - inversion Hn as [|n0 s0 Hn0 Hs]; subst.
    pose proof (all_indices_length s Hs) as HL. set (L := length (all_indices s)) in *.
    cbn [all_indices] in *.
    rewrite (flat_map_length_uniform _ L) in Hk by (intros a _; rewrite map_length; reflexivity).
    rewrite zrange_unit_length in Hk.
    assert (0 < L)%nat as HL0 by (destruct L; lia).
    pose proof (Nat.div_mod k L ltac:(lia)) as Hdm.
    pose proof (Nat.mod_upper_bound k L ltac:(lia)) as Hmod.
    set (i := (k / L)%nat) in *. set (j := (k mod L)%nat) in *.
    assert (i < Z.to_nat n)%nat as Hi by (apply Nat.div_lt_upper_bound; lia).
    replace k with (i * L + j)%nat at 1 by lia.
    rewrite (flat_map_nth_uniform _ L 0 []);
      [| intros a _; rewrite map_length; reflexivity | rewrite zrange_unit_length; exact Hi | exact Hmod].
    rewrite zrange_unit_nth by exact Hi.
    rewrite (nth_indep _ [] (Z.of_nat i :: [])) by (rewrite map_length; exact Hmod).
    rewrite (map_nth (cons (Z.of_nat i))). cbn [ravel].
    rewrite (IH j Hs Hmod).
    pose proof (prodZ_nonneg s Hs). rewrite <- (Z2Nat.id (prodZ s)) by lia. rewrite <- HL. lia.
Qed.

(* flat -> index function -> flat is the identity on well-formed arrays *)
Lemma to_nd_of_nd a : wf a -> to_nd (of_nd a) = a.
Proof.
  destruct a as [s d]. intros [Hs Hl]. cbn [nshape ndata] in *. unfold to_nd, of_nd, to_list. cbn [shape get]. f_equal.
  apply (nth_ext _ _ 0 0).
  - rewrite map_length, all_indices_length by exact Hs. symmetry. exact Hl.
  - intros k Hk. rewrite map_length in Hk.
    rewrite (nth_indep _ 0 (nget (mknd s d) [])) by (rewrite map_length; exact Hk).
    rewrite (map_nth (nget (mknd s d))). unfold nget, nthZ. cbn [nshape ndata].
    rewrite all_indices_ravel by assumption. rewrite Nat2Z.id. reflexivity.
Qed.

(* on a well-formed operand the rechunk case of [un_eval] (the operand itself, not re-tabulated) is the general one *)
Lemma un_eval_tab o a : wf a ->
  un_eval o a = if un_ok o (nshape a) then Some (to_nd (un_arr o (of_nd a))) else None.
Proof.
  intros Ha. unfold un_eval. destruct o; try reflexivity.
  cbn [un_arr]. rewrite to_nd_of_nd by exact Ha. reflexivity.
Qed.

(* induction over programs (the n-ary node nests [list prog]) *)
Section ProgInd.
  Variable P : prog -> Prop.
  Hypothesis Hsrc : forall s d, P (PSrc s d).
  Hypothesis Hones : forall s, P (POnes s).
  Hypothesis Harange : forall n, P (PArange n).
  Hypothesis Hconst : forall c, P (PConst c).
  Hypothesis Hun : forall o p, P p -> P (PUn o p).
  Hypothesis Hn : forall o ps, Forall P ps -> P (PN o ps).

  Fixpoint prog_ind2 (p : prog) : P p :=
    match p with
    | PSrc s d => Hsrc s d
    | POnes s => Hones s
    | PArange n => Harange n
    | PConst c => Hconst c
    | PUn o q => Hun o q (prog_ind2 q)
    | PN o ps =>
        Hn o ps ((fix go (l : list prog) : Forall P l :=
                    match l with
                    | [] => Forall_nil P
                    | x :: t => Forall_cons x (prog_ind2 x) (go t)
                    end) ps)
    end.
End ProgInd.

Lemma un_arr_shape o x : shape (un_arr o x) = un_shape o (shape x).
Proof. destruct o; reflexivity. Qed.

Lemma n_arr_shape o xs : shape (n_arr o xs) = n_shape o (map shape xs).
Proof.
  destruct o as [f|ax|ax]; [reflexivity | destruct xs; reflexivity |].
  destruct xs as [|x rest]; [reflexivity|].
  cbn [n_arr n_shape map aconcat shape aexpand]. rewrite !map_map. reflexivity.
Qed.

Lemma un_eval_shape o a : option_map nshape (un_eval o a) = un_rule o (nshape a).
Proof.
  unfold un_eval, un_rule. destruct (un_ok o (nshape a)); [|reflexivity].
  cbn [option_map]. f_equal. destruct o; reflexivity.
Qed.

Lemma n_eval_shape o l : option_map nshape (n_eval o l) = n_rule o (map nshape l).
Proof.
  unfold n_eval, n_rule. destruct (n_ok o (map nshape l)); [|reflexivity].
  cbn [option_map]. f_equal. rewrite nshape_to_nd, n_arr_shape, map_map. reflexivity.
Qed.

Lemma sequence_option_map {A B C} (f : A -> option B) (g : A -> option C) (h : B -> C) ps :
  Forall (fun p => option_map h (f p) = g p) ps ->
  option_map (map h) (sequence (map f ps)) = sequence (map g ps).
Proof.
  induction 1 as [|p ps Hp _ IH]; [reflexivity|].
  cbn [map sequence]. rewrite <- Hp, <- IH.
  destruct (f p) as [a|]; [|reflexivity]. cbn [option_map].
  destruct (sequence (map f ps)) as [l|]; reflexivity.
Qed.

(* C01 (b): the advertised shape is the shape of the value, and pshape fails exactly where eval fails *)
Theorem eval_pshape p : option_map nshape (eval p) = pshape p.
Proof.
  induction p as [s d|s|n|c|o p IH|o ps IH] using prog_ind2; cbn [eval pshape].
  - destruct (src_ok s d); reflexivity.
  - destruct (all_nonneg s); reflexivity.
  - reflexivity.
  - reflexivity.
  - rewrite <- IH. destruct (eval p) as [a|]; [|reflexivity]. cbn [option_map]. apply un_eval_shape.
  - rewrite <- (sequence_option_map eval pshape nshape ps IH).
    destruct (sequence (map eval ps)) as [l|]; [|reflexivity]. cbn [option_map]. apply n_eval_shape.
Qed.

Corollary eval_some_pshape p a : eval p = Some a -> pshape p = Some (nshape a).
Proof. intros H. rewrite <- eval_pshape, H. reflexivity. Qed.

Corollary pshape_none_iff p : pshape p = None <-> eval p = None.
Proof. rewrite <- eval_pshape. destruct (eval p); cbn [option_map]; split; congruence. Qed.

Corollary pshape_some_eval p s : pshape p = Some s -> exists a, eval p = Some a /\ nshape a = s.
Proof.
  rewrite <- eval_pshape. destruct (eval p) as [a|]; cbn [option_map]; [|discriminate].
  intros H. injection H as <-. exists a. split; reflexivity.
Qed.

Lemma nonneg_remove_at k s : nonneg_shape s -> nonneg_shape (remove_at k s).
Proof.
  intros H. unfold remove_at, nonneg_shape. apply Forall_app. split; [apply Forall_firstn | apply Forall_skipn]; exact H.
Qed.

Lemma filter_neg_nil req : length (filter (fun d => d <? 0) req) = O -> nonneg_shape req.
Proof.
  unfold nonneg_shape. induction req as [|d req IH]; intros H; [constructor|].
  cbn [filter] in H. destruct (d <? 0) eqn:E; cbn [length] in H; [discriminate|].
  constructor; [lia | apply IH; exact H].
Qed.

Lemma reshape_resolve_nonneg total req s :
  0 <= total -> reshape_resolve total req = Some s -> nonneg_shape s.
Proof.
  intros Ht. unfold reshape_resolve.
  destruct (length (filter (fun d => d <? 0) req)) as [|[|k]] eqn:E; [| |discriminate].
  - break_if; [|discriminate]. intros H. injection H as <-. apply filter_neg_nil. exact E.
  - break_if; [|discriminate]. intros H. injection H as <-.
    apply Forall_map, Forall_forall. intros d _. destruct (d <? 0) eqn:Ed; [|lia].
    apply Z.div_pos; lia.
Qed.

Lemma nonneg_red_kshape axes : forall s pos, nonneg_shape s -> nonneg_shape (red_kshape pos axes s).
Proof.
  unfold nonneg_shape. induction s as [|n s IH]; intros pos H; cbn [red_kshape]; [constructor|].
  inversion H; subst. constructor; [break_if; lia | apply IH; assumption].
Qed.

Lemma nonneg_red_rshape axes : forall s pos, nonneg_shape s -> nonneg_shape (red_rshape pos axes s).
Proof.
  unfold nonneg_shape. induction s as [|n s IH]; intros pos H; cbn [red_rshape]; [constructor|].
  inversion H; subst. constructor; [break_if; lia | apply IH; assumption].
Qed.

Lemma nonneg_drop_axes axes : forall s pos, nonneg_shape s -> nonneg_shape (drop_axes_from pos axes s).
Proof.
  unfold nonneg_shape. induction s as [|n s IH]; intros pos H; cbn [drop_axes_from]; [constructor|].
  inversion H; subst. break_if; [apply IH; assumption | constructor; [assumption | apply IH; assumption]].
Qed.

Lemma un_shape_nonneg o s : un_ok o s = true -> nonneg_shape s -> nonneg_shape (un_shape o s).
Proof.
  intros Hok Hs. destruct o; cbn [un_shape un_ok] in *; try exact Hs.
  - apply transpose_shape_nonneg. exact Hs.
  - apply slice_shape_nonneg. exact Hs.
  - apply insert_at_nonneg; [lia | exact Hs].
  - apply nonneg_remove_at. exact Hs.
  - apply andb_true_iff in Hok. apply all_nonneg_iff. tauto.
  - apply set_nth_nonneg; [unfold lenZ; lia | exact Hs].
  - apply andb_true_iff in Hok. destruct Hok as [_ Hk]. pose proof (nth_nonneg s ax Hs).
    apply set_nth_nonneg; [nia | exact Hs].
  - apply set_nth_nonneg; [lia | exact Hs].
  - destruct (reshape_resolve (prodZ s) req) as [s'|] eqn:E; [|discriminate].
    apply (reshape_resolve_nonneg (prodZ s) req); [apply prodZ_nonneg; exact Hs | exact E].
  - unfold red_oshape. destruct keepdims; [apply nonneg_red_kshape | apply nonneg_drop_axes]; exact Hs.
Qed.

Lemma nonneg_concat_shape ax s rest :
  nonneg_shape s -> Forall nonneg_shape rest -> nonneg_shape (concat_shape ax s rest).
Proof.
  intros Hs Hr. unfold concat_shape. apply set_nth_nonneg; [|exact Hs].
  apply zsum_nonneg, Forall_map. eapply Forall_impl; [|exact (Forall_cons s Hs Hr)].
  intros t. apply nth_nonneg.
Qed.

Lemma n_shape_nonneg o ss : Forall nonneg_shape ss -> nonneg_shape (n_shape o ss).
Proof.
  intros H. destruct o as [f|ax|ax]; cbn [n_shape].
  - apply bshape_all_nonneg. exact H.
  - destruct H as [|s rest Hs Hr]; [constructor|]. apply nonneg_concat_shape; assumption.
  - destruct H as [|s rest Hs Hr]; [constructor|].
    apply nonneg_concat_shape; [apply insert_at_nonneg; [lia | assumption]|].
    apply Forall_map. eapply Forall_impl; [|exact Hr]. intros t. apply insert_at_nonneg. lia.
Qed.

Lemma un_eval_wf o a b : wf a -> un_eval o a = Some b -> wf b.
Proof.
  intros Ha. rewrite un_eval_tab by exact Ha. destruct (un_ok o (nshape a)) eqn:Hok; [|discriminate].
  intros H. injection H as <-.
  apply to_nd_wf. rewrite un_arr_shape. apply un_shape_nonneg; [exact Hok | apply Ha].
Qed.

Lemma wf_nonneg_shapes l : Forall wf l -> Forall nonneg_shape (map nshape l).
Proof. intros H. apply Forall_map. eapply Forall_impl; [|exact H]. intros a Ha. apply Ha. Qed.

Lemma n_eval_wf o l b : Forall wf l -> n_eval o l = Some b -> wf b.
Proof.
  intros Hl. unfold n_eval. destruct (n_ok o (map nshape l)); [|discriminate]. intros H. injection H as <-.
  apply to_nd_wf. rewrite n_arr_shape, map_map. apply n_shape_nonneg, wf_nonneg_shapes, Hl.
Qed.

Lemma sequence_Forall {A B} (P : B -> Prop) (f : A -> option B) ps : forall l,
  Forall (fun p => forall a, f p = Some a -> P a) ps -> sequence (map f ps) = Some l -> Forall P l.
Proof.
  induction ps as [|p ps IH]; intros l H Hl; cbn [map sequence] in Hl.
  - injection Hl as <-. constructor.
  - inversion H as [|p0 ps0 Hp Hps]; subst.
    destruct (f p) as [a|] eqn:Ea; [|discriminate].
    destruct (sequence (map f ps)) as [r|] eqn:Er; [|discriminate]. injection Hl as <-.
    constructor; [apply Hp; reflexivity | apply IH; [exact Hps | reflexivity]].
Qed.

(* C01 (a): every evaluated program is a well-formed array *)
Theorem eval_wf p : forall a, eval p = Some a -> wf a.
Proof.
  induction p as [s d|s|n|c|o p IH|o ps IH] using prog_ind2; intros a H; cbn [eval] in H.
  - destruct (src_ok s d) eqn:E; [|discriminate]. injection H as <-. apply wfb_iff. exact E.
  - destruct (all_nonneg s) eqn:E; [|discriminate]. injection H as <-. apply to_nd_wf. apply all_nonneg_iff. exact E.
  - injection H as <-. apply to_nd_wf. cbn. constructor; [lia | constructor].
  - injection H as <-. split; [constructor | reflexivity].
  - destruct (eval p) as [b|] eqn:E; [|discriminate]. apply (un_eval_wf o b a); [apply IH; reflexivity | exact H].
  - destruct (sequence (map eval ps)) as [l|] eqn:E; [|discriminate].
    apply (n_eval_wf o l a); [apply (sequence_Forall wf eval ps l IH E) | exact H].
Qed.

(* the statement in the flat vocabulary: one datum per index, no negative dimension *)
Corollary eval_wf_flat p a :
  eval p = Some a -> Z.of_nat (length (ndata a)) = prodZ (nshape a) /\ Forall (fun n => 0 <= n) (nshape a).
Proof.
  intros H. destruct (eval_wf p a H) as [Hs Hl]. split; [|exact Hs].
  pose proof (prodZ_nonneg _ Hs). lia.
Qed.
