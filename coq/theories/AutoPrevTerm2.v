(* auto_chunks' previous_chunks branch (AutoPrev.v):
   TERMINATION of the shrinking case (multiplier < 1 initially: result IS median_chunks, the loop runs
   until the recomputed multiplier stops changing) when the recorded proposals are SANE (round_sane):

     prev_loop_sane_terminates   (n_autos + 1) * (sum of the 'auto' axis lengths + 3) passes suffice

   Argument.  A pass either removes an axis from `autos` (at most n_autos times) or not.  After a pass that
   removes nothing every entry is a fixed point of round_to and their product is within the target, so the
   recomputed multiplier is >= 1; from then on sane proposals are >= the entries, round_to is monotone, so the
   entries can only grow; the multiplier changes only if an entry changed, i.e. grew by >= 1; entries are
   bounded by the axis lengths. *)
From DA Require Import PyBase NormChunks NormChunksFacts AutoPrev AutoPrevFacts AutoPrevTerm.
Open Scope Z_scope.

(* round_to on a proposal with integer part q >= 1: q itself if q <= s, else q rounded down to a multiple of s *)
Definition rdown (q s : Z) : Z := if q <=? s then q else q / s * s.

Lemma rdown_bounds q s : 1 <= q -> 0 < s -> 1 <= rdown q s <= q.
Proof. intros Hq Hs. unfold rdown. destruct (q <=? s) eqn:E; [lia|]. Z.to_euclidean_division_equations; nia. Qed.

Lemma rdown_mono v q s : 0 < s -> v <= q -> rdown v s <= rdown q s.
Proof.
  intros Hs Hvq. unfold rdown. destruct (v <=? s) eqn:Ev, (q <=? s) eqn:Eq; try lia.
  - assert (1 <= q / s) by (apply Z.div_le_lower_bound; lia). nia.
  - apply Z.mul_le_mono_nonneg_r; [lia|]. apply Z.div_le_mono; lia.
Qed.

Lemma rdown_idem q s : 0 < s -> rdown (rdown q s) s = rdown q s.
Proof.
  intros Hs. unfold rdown. destruct (q <=? s) eqn:E; [rewrite E; reflexivity|].
  destruct (q / s * s <=? s); [reflexivity|]. rewrite Z.div_mul by lia. reflexivity.
Qed.

(* round_to(proposed, ideal) for 1 <= proposed <= shape[a]; the ideal chunk size is > 1 or the axis length *)
Lemma round_to_f_rdown n d s nc :
  0 < d -> d <= n -> n <= nc * d -> (1 < s \/ s = nc) ->
  0 < s /\ round_to_f (FQ n d) s = FQ (rdown (n / d) s) 1.
Proof.
  intros Hd Hn Hnc Hs. unfold round_to_f, rdown.
  assert (1 <= n / d) as Hq by (apply Z.div_le_lower_bound; lia).
  assert (n / d <= nc) as Hqn by (apply Z.div_le_upper_bound; lia).
  split; [lia|]. destruct (n <=? s * d) eqn:E.
  - assert (n / d <= s) as Hqs by (apply Z.div_le_upper_bound; lia).
    rewrite Z.quot_div_nonneg, Z.max_r by lia. destruct (n / d <=? s) eqn:E2; [reflexivity|lia].
  - assert (s <= n / d) as Hsq by (apply Z.div_le_lower_bound; lia).
    destruct (s =? 0) eqn:Es; [lia|]. rewrite <- Z.div_div by lia.
    destruct (n / d <=? s) eqn:E2; [|reflexivity].
    assert (n / d = s) as -> by lia. rewrite Z.div_same by lia. f_equal. lia.
Qed.

(* round_to(proposed, ideal) for any proposed <= shape[a] *)
Lemma round_to_f_pos n d s nc :
  0 < d -> n <= nc * d -> (1 < s \/ s = nc) ->
  exists r, round_to_f (FQ n d) s = FQ r 1 /\ 1 <= r <= Z.max 1 (n / d).
Proof.
  intros Hd Hnc Hs. destruct (Z_lt_le_dec n d) as [Hn|Hn].
  - exists 1. split; [|lia]. unfold round_to_f. destruct (n <=? s * d) eqn:E; [|nia].
    assert (n ÷ d <= 0) by (Z.to_euclidean_division_equations; nia). rewrite Z.max_l by lia. reflexivity.
  - destruct (round_to_f_rdown n d s nc Hd Hn Hnc Hs) as [Hs0 ->].
    assert (1 <= n / d) as Hq by (apply Z.div_le_lower_bound; lia).
    pose proof (rdown_bounds _ _ Hq Hs0). eexists. split; [reflexivity|lia].
Qed.

Lemma fmul_inv x y n d : fmul x y = FQ n d ->
  exists n1 d1 n2 d2, x = FQ n1 d1 /\ y = FQ n2 d2 /\ n = n1 * n2 /\ d = d1 * d2.
Proof. destruct x as [|n1 d1], y as [|n2 d2]; cbn [fmul]; intros H; try discriminate. injection H as <- <-. eauto 10. Qed.

Lemma med_prod_cons o l :
  med_prod (o :: l) = match o with
                      | Some v => match dv_factor v with Some x => fmul x (med_prod l) | None => med_prod l end
                      | None => med_prod l end.
Proof. reflexivity. Qed.

Lemma prod_split xs : forall an ad on od,
  autos_prod xs = FQ an ad -> others_prod xs = FQ on od ->
  exists pn pd, med_prod (map ax_med xs) = FQ pn pd /\ pn = an * on /\ pd = ad * od.
Proof.
  unfold autos_prod, others_prod.
  induction xs as [|x xs IH]; intros an ad on od Ha Ho; cbn [map] in *.
  - cbn in Ha, Ho. injection Ha as <- <-. injection Ho as <- <-. exists 1, 1. auto.
  - rewrite med_prod_cons in *.
    (* an axis without an entry, or whose entry is falsy, contributes no factor *)
    destruct (ax_auto x), (ax_med x) as [v|]; try (apply IH; assumption);
      (destruct (dv_factor v) as [f|]; [|apply IH; assumption]).
    + (* a factor of autos_prod *)
      apply fmul_inv in Ha as (n1 & d1 & n2 & d2 & -> & Ha & -> & ->).
      destruct (IH _ _ _ _ Ha Ho) as (pn & pd & -> & -> & ->).
      cbn [fmul]. eexists _, _. split; [reflexivity|]. split; ring.
    + (* a factor of others_prod *)
      apply fmul_inv in Ho as (n1 & d1 & n2 & d2 & -> & Ho & -> & ->).
      destruct (IH _ _ _ _ Ha Ho) as (pn & pd & -> & -> & ->).
      cbn [fmul]. eexists _, _. split; [reflexivity|]. split; ring.
Qed.

Definition consts_ok (c : axc) : Prop := 1 < c_ideal c \/ c_ideal c = c_n c.

(* the entry of an axis in `autos` is an integer fixed point of round_to within the axis *)
Definition ax_fix (c : axc) (x : axst) : Prop :=
  ax_auto x = true ->
  exists r, ax_med x = Some (VNum (FQ r 1)) /\ 1 <= r <= c_n c /\ rdown r (c_ideal c) = r.

(* the potential function of the termination argument: the sum of the entries of the axes in `autos` *)
Fixpoint sum_med (xs : list axst) : Z :=
  match xs with
  | [] => 0
  | x :: t => (if ax_auto x then match ax_med x with Some (VNum (FQ r _)) => r | _ => 0 end else 0) + sum_med t
  end.

(* what axes_sane asks of one axis of `autos` *)
Definition ax_sane (mge1 : bool) (p : fval) (med : option dv) : bool :=
  match p, med with
  | FQ n d, Some (VNum (FQ vn vd)) => (0 <? d) && (0 <? vd) && (negb mge1 || (vn * d <=? n * vd))
  | _, _ => false
  end.

(* an axis that stays in `autos` gets round_to(proposed): a fixed point within the axis, not above the
   proposal, and not below any fixed point that is not above the proposal, such as the old entry when the
   multiplier is >= 1 *)
Lemma axis_step_ns b c o x x' k :
  axis_step true c o x = (x', false, k) -> consts_ok c -> ax_sane b (fst o) (ax_med x) = true ->
  k = 1 /\ exists r,
    x' = mkax (ax_auto x) (Some (VNum (FQ r 1))) (ax_res x) /\
    1 <= r <= c_n c /\ rdown r (c_ideal c) = r /\ r <= ffloor (fst o) /\
    (b = true -> forall v, ax_med x = Some (VNum (FQ v 1)) -> rdown v (c_ideal c) = v -> v <= r).
Proof.
  destruct o as [[|n d] mcs]; [discriminate|]. cbn [fst ax_sane ffloor].
  destruct (ax_med x) as [[[|vn vd]|]|]; try discriminate. intros H Hc Hs.
  apply andb_true_iff in Hs as [Hs Hmono]. apply andb_true_iff in Hs as [Hd _].
  unfold axis_step in H. destruct (f_gt_z (FQ n d) (c_n c)) eqn:Eg; [discriminate|].
  cbn [orb] in H. cbv zeta in H. destruct (f_lt_z (FQ n d) 1) eqn:El; [discriminate|].
  cbn [f_gt_z f_lt_z] in Eg, El.
  destruct (round_to_f_rdown n d (c_ideal c) (c_n c)) as [Hs Hr]; [lia..|exact Hc|].
  rewrite Hr in H. injection H as <- <-.
  assert (1 <= n / d) as Hq by (apply Z.div_le_lower_bound; lia).
  assert (n / d <= c_n c) as Hqn by (apply Z.div_le_upper_bound; lia).
  pose proof (rdown_bounds (n / d) (c_ideal c) Hq Hs) as Hb.
  split; [reflexivity|]. exists (rdown (n / d) (c_ideal c)).
  split; [reflexivity|]. split; [lia|]. split; [apply rdown_idem; exact Hs|]. split; [lia|].
  intros -> v Hv Hfix. injection Hv as -> ->. rewrite <- Hfix. apply rdown_mono; [exact Hs|].
  apply Z.div_le_lower_bound; lia.
Qed.

Lemma round_rel_ns b o a cs xs xs' f k :
  round_rel true o a cs xs xs' f k -> f = false -> axes_sane b a o xs = true -> Forall consts_ok cs ->
  Forall2 ax_fix cs xs' /\ others_prod xs' = others_prod xs /\
  exists M, autos_prod xs' = FQ M 1 /\ 1 <= M <= floor_prod a o xs.
Proof.
  unfold others_prod, autos_prod.
  round_rel_induction; intros Hf Hsn Hc.
  - split; [constructor|]. split; [reflexivity|]. exists 1. cbn. split; [reflexivity|lia].
  - inversion_clear Hc as [|? ? _ Hc2]. cbn [axes_sane] in Hsn. rewrite Ea in Hsn.
    destruct (IH Hf Hsn Hc2) as (HF & HO & M & HM & HMb).
    split; [constructor; [intros Hx; congruence|exact HF]|].
    cbn [map floor_prod]. rewrite Ea, !med_prod_cons, HO. split; [reflexivity|]. exists M. split; [exact HM|lia].
  - inversion_clear Hc as [|? ? Hc1 Hc2]. apply orb_false_iff in Hf as [-> Hf].
    cbn [axes_sane] in Hsn. rewrite Ea in Hsn. apply andb_true_iff in Hsn as [Hs1 Hs2].
    destruct (IH Hf Hs2 Hc2) as (HF & HO & M & HM & HMb).
    destruct (axis_step_ns _ _ _ _ _ _ Hs Hc1 Hs1) as (_ & r & -> & Hr & Hfix & Hrq & _).
    split; [constructor; [intros _; exists r; auto|exact HF]|].
    cbn [map floor_prod ax_auto ax_med]. rewrite Ea, !med_prod_cons, HO. split; [reflexivity|].
    exists (r * M). cbn [dv_factor]. destruct (r =? 0) eqn:Er; [lia|]. rewrite HM. split; [reflexivity|].
    fold (ffloor (fst (o a))). nia.
Qed.

(* with multiplier >= 1 and fixed-point entries, sane proposals only make the entries grow *)
Lemma round_rel_ns_mono o a cs xs xs' f k :
  round_rel true o a cs xs xs' f k -> f = false -> axes_sane true a o xs = true -> Forall consts_ok cs ->
  Forall2 ax_fix cs xs ->
  sum_med xs <= sum_med xs' /\ (sum_med xs' = sum_med xs -> map ax_med xs' = map ax_med xs).
Proof.
  round_rel_induction; intros Hf Hsn Hc HF.
  - split; [lia|reflexivity].
  - inversion_clear Hc as [|? ? _ Hc2]. inversion_clear HF as [|? ? ? ? _ HF2].
    cbn [axes_sane] in Hsn. rewrite Ea in Hsn. destruct (IH Hf Hsn Hc2 HF2) as (I1 & I2).
    cbn [sum_med map]. rewrite Ea. split; [lia|]. intros Hsum. rewrite I2 by lia. reflexivity.
  - inversion_clear Hc as [|? ? Hc1 Hc2]. inversion_clear HF as [|? ? ? ? Hx HF2].
    apply orb_false_iff in Hf as [-> Hf].
    cbn [axes_sane] in Hsn. rewrite Ea in Hsn. apply andb_true_iff in Hsn as [Hs1 Hs2].
    destruct (IH Hf Hs2 Hc2 HF2) as (I1 & I2).
    destruct (axis_step_ns _ _ _ _ _ _ Hs Hc1 Hs1) as (_ & r & -> & _ & _ & _ & Hmono).
    destruct (Hx Ea) as (v & Em & _ & Hv). specialize (Hmono eq_refl v Em Hv).
    cbn [sum_med map ax_auto ax_med]. rewrite Ea, Em. split; [lia|].
    intros Hsum. assert (r = v) as -> by lia. rewrite I2 by lia. reflexivity.
Qed.

Lemma sum_med_le_sum_n cs : forall xs, Forall2 ax_fix cs xs -> 0 <= sum_med xs <= sum_n cs xs.
Proof.
  induction cs as [|c cs IH]; intros xs HF; inversion HF as [|? x ? xs0 Hx HF2]; subst; cbn [sum_med sum_n]; [lia|].
  specialize (IH _ HF2). destruct (ax_auto x) eqn:Ea; [|lia].
  destruct (Hx Ea) as (r & -> & Hr & _). lia.
Qed.

Lemma sum_n_nonneg cs : forall xs, 0 <= sum_n cs xs.
Proof. induction cs as [|c cs IH]; intros [|x xs]; cbn [sum_n]; try lia. specialize (IH xs). destruct (ax_auto x); lia. Qed.

Lemma sum_n_map cs : forall xs xs', map ax_auto xs' = map ax_auto xs -> sum_n cs xs' = sum_n cs xs.
Proof.
  induction cs as [|c cs IH]; intros [|x xs] [|x' xs'] H; cbn [map] in H; try discriminate; cbn [sum_n]; try reflexivity.
  injection H as H1 H2. rewrite H1, (IH _ _ H2). reflexivity.
Qed.

(* `autos` only shrinks: so does the sum of its axis lengths *)
Lemma round_rel_sum_n reduce o a cs xs xs' f k :
  round_rel reduce o a cs xs xs' f k -> sum_n cs xs' <= sum_n cs xs.
Proof.
  round_rel_induction; cbn [sum_n]; [lia|lia|].
  rewrite Ea. destruct (ax_auto x'); lia.
Qed.

Lemma round_rel_no_autos reduce o a cs xs xs' f k :
  round_rel reduce o a cs xs xs' f k -> n_autos xs = 0%nat -> xs' = xs /\ f = false /\ k = 1.
Proof.
  round_rel_induction; rewrite ?n_autos_cons, ?Ea; intros Hn;
    [auto| |discriminate].
  destruct (IH Hn) as (-> & -> & ->). auto.
Qed.

Lemma round_axes_no_autos reduce cs a o xs :
  length cs = length xs -> n_autos xs = 0%nat -> round_axes reduce cs a o xs = (xs, false, 1).
Proof.
  intros Hl Hn. destruct (round_axes reduce cs a o xs) as [[xs' f] k] eqn:H.
  apply round_axes_rel in H; [|exact Hl].
  destruct (round_rel_no_autos _ _ _ _ _ _ _ _ H Hn) as (-> & -> & ->). reflexivity.
Qed.

Lemma ideal_of_ok pv s i : ideal_of pv s = Ok i -> 1 < i \/ i = s.
Proof.
  unfold ideal_of. destruct pv as [|x pv]; [discriminate|].
  destruct (mode_of (x :: pv) (x :: pv) x 0%nat) as [mode count].
  destruct ((1 <? mode) && (length (x :: pv) <=? 2 * count)%nat) eqn:E; intros H; injection H as <-.
  - apply andb_true_iff in E as [E _]. left. lia.
  - right. reflexivity.
Qed.

Lemma mk_consts_ok pvs : forall shape ids, ideals_of pvs shape = Ok ids -> Forall consts_ok (mk_consts shape pvs ids).
Proof.
  induction pvs as [|pv pvs IH]; intros [|s shape] ids H; cbn [ideals_of] in H; try discriminate.
  - injection H as <-. constructor.
  - injection H as <-. constructor.
  - destruct (ideal_of pv s) as [i|] eqn:Hi; [|discriminate].
    destruct (ideals_of pvs shape) as [r|] eqn:Hr; [|discriminate].
    injection H as <-. cbn [mk_consts]. constructor; [|apply IH; exact Hr].
    unfold consts_ok. cbn [c_ideal c_n]. eapply ideal_of_ok; exact Hi.
Qed.

(* the invariant after a pass that removed nothing: fixed-point entries, the multiplier is the one computed
   from them and, while `autos` is not empty, it is >= 1 *)
Definition settled (limit itemsize : Z) (cs : list axc) (st : lstate) : Prop :=
  Forall2 ax_fix cs (ls_axes st) /\
  (exists N D, ls_mult st = FQ N D /\ 0 < D /\ ((0 < n_autos (ls_axes st))%nat -> D <= N)) /\
  compute_multiplier limit itemsize (ls_lb st) (map ax_med (ls_axes st)) = Ok (ls_mult st).

Lemma round_sane_inv limit itemsize o st :
  round_sane limit itemsize o st = true ->
  exists mn md on od,
    ls_mult st = FQ mn md /\ others_prod (ls_axes st) = FQ on od /\
    0 < md /\ 0 < od /\ 0 < itemsize * ls_lb st * on /\
    axes_sane (md <=? mn) 0 o (ls_axes st) = true /\
    (n_autos (ls_axes st) = 0%nat \/
     floor_prod 0 o (ls_axes st) * (itemsize * ls_lb st * on) <= limit * od).
Proof.
  unfold round_sane. destruct (ls_mult st) as [|mn md]; [discriminate|].
  destruct (others_prod (ls_axes st)) as [|on od]; [discriminate|].
  intros H. apply andb_true_iff in H as [H H5]. apply andb_true_iff in H as [H H4].
  apply andb_true_iff in H as [H H3]. apply andb_true_iff in H as [H1 H2].
  exists mn, md, on, od.
  split; [reflexivity|]. split; [reflexivity|]. split; [lia|]. split; [lia|]. split; [lia|]. split; [exact H4|].
  apply orb_true_iff in H5 as [H5|H5]; [left; apply Nat.eqb_eq; exact H5|right; lia].
Qed.

Lemma settle limit itemsize cs o st st' k :
  round_rel true o 0 cs (ls_axes st) (ls_axes st') false k -> ls_lb st' = ls_lb st * k ->
  compute_multiplier limit itemsize (ls_lb st') (map ax_med (ls_axes st')) = Ok (ls_mult st') ->
  Forall consts_ok cs -> round_sane limit itemsize o st = true ->
  settled limit itemsize cs st'.
Proof.
  intros Hr Hlb Hm Hc Hs.
  destruct (round_sane_inv _ _ _ _ Hs) as (mn & md & on & od & Em & Eo & Hmd & Hod & Hpos & Hax & Hprod).
  destruct (round_rel_autos _ _ _ _ _ _ _ _ Hr) as (_ & _ & A3). destruct (A3 eq_refl) as [-> E].
  destruct (round_rel_ns _ _ _ _ _ _ _ _ Hr eq_refl Hax Hc) as (HF & HO & M & HM & HMb).
  split; [exact HF|]. split; [|exact Hm].
  rewrite Eo in HO. destruct (prod_split _ _ _ _ _ HM HO) as (pn & pd & Hp & -> & ->).
  unfold compute_multiplier in Hm. rewrite Hp, Hlb in Hm.
  destruct ((itemsize =? 0) || (ls_lb st * 1 =? 0)); [discriminate|].
  destruct (M * on =? 0); [discriminate|]. injection Hm as <-. unfold mkq.
  (* the multiplier is  limit * od / (M * X)  with X > 0 and M * X <= floor_prod * X <= limit * od *)
  set (X := itemsize * ls_lb st * on) in *.
  replace (itemsize * (ls_lb st * 1) * (M * on)) with (M * X) by (unfold X; ring).
  assert (0 < M * X) as HD by (apply Z.mul_pos_pos; lia).
  destruct (M * X <? 0) eqn:Eneg; [lia|].
  exists (limit * (1 * od)), (M * X). split; [reflexivity|]. split; [exact HD|].
  rewrite (n_autos_map _ _ E). intros Hn. destruct Hprod as [Hz|Hprod]; [lia|].
  assert (M * X <= floor_prod 0 o (ls_axes st) * X) by (apply Z.mul_le_mono_nonneg_r; lia). lia.
Qed.

(* a pass from a settled state that removes nothing but changes the multiplier makes an entry grow *)
Lemma settled_progress limit itemsize cs o st st' k :
  round_rel true o 0 cs (ls_axes st) (ls_axes st') false k -> ls_lb st' = ls_lb st * k ->
  compute_multiplier limit itemsize (ls_lb st') (map ax_med (ls_axes st')) = Ok (ls_mult st') ->
  f_ne (ls_mult st') (ls_mult st) = true ->
  Forall consts_ok cs -> round_sane limit itemsize o st = true -> settled limit itemsize cs st ->
  sum_med (ls_axes st) + 1 <= sum_med (ls_axes st').
Proof.
  intros Hr Hlb Hm Hne Hc Hs (HF & (N & D & EN & HD & HND) & Hcur).
  destruct (round_sane_inv _ _ _ _ Hs) as (mn & md & on & od & Em & Eo & Hmd & Hod & Hpos & Hax & _).
  rewrite EN in Em. injection Em as <- <-.
  destruct (round_rel_autos _ _ _ _ _ _ _ _ Hr) as (_ & _ & A3). destruct (A3 eq_refl) as [-> _].
  rewrite Z.mul_1_r in Hlb.
  (* if the entries are the old ones, so is the multiplier computed from them *)
  assert (map ax_med (ls_axes st') <> map ax_med (ls_axes st)) as Hch.
  { intros E. rewrite E, Hlb, Hcur in Hm. injection Hm as Hm. rewrite <- Hm, EN in Hne.
    cbn [f_ne] in Hne. rewrite Z.eqb_refl in Hne. discriminate. }
  destruct (Nat.eq_dec (n_autos (ls_axes st)) 0) as [Hz|Hnz].
  { destruct (round_rel_no_autos _ _ _ _ _ _ _ _ Hr Hz) as (E & _). rewrite E in Hch. contradiction. }
  assert ((D <=? N) = true) as Hge by (specialize (HND ltac:(lia)); lia). rewrite Hge in Hax.
  destruct (round_rel_ns_mono _ _ _ _ _ _ _ Hr eq_refl Hax Hc HF) as (Hle & Heq).
  destruct (Z.eq_dec (sum_med (ls_axes st')) (sum_med (ls_axes st))) as [E|E]; [|lia].
  contradiction (Hch (Heq E)).
Qed.

Lemma sane_loop_step f reduce limit itemsize cs orc r st :
  sane_loop (S f) reduce limit itemsize cs orc r st = true ->
  round_sane limit itemsize (orc r) st = true /\
  forall st', prev_round reduce limit itemsize cs (orc r) st = Ok (st', true) ->
              sane_loop f reduce limit itemsize cs orc (S r) st' = true.
Proof.
  cbn [sane_loop]. intros H. apply andb_true_iff in H as [H1 H2]. split; [exact H1|].
  intros st' Hr. rewrite Hr in H2. exact H2.
Qed.

(* A pass that removes an axis from `autos` leaves any state; a pass that removes nothing leaves a settled
   state; from a settled state such a pass either ends the loop or makes an entry grow, and the entries are
   bounded by the axis lengths.  So n_autos * (S0 + 3) + S0 + 3 passes suffice from any state and
   n_autos * (S0 + 3) + (room left for the entries) + 2 from a settled one. *)
Lemma prev_loop_sane_aux limit itemsize cs orc S0 :
  Forall consts_ok cs ->
  forall fuel r st,
    length cs = length (ls_axes st) -> sum_n cs (ls_axes st) <= S0 ->
    sane_loop fuel true limit itemsize cs orc r st = true ->
    (Z.of_nat (n_autos (ls_axes st)) * (S0 + 3) + S0 + 3 <= Z.of_nat fuel \/
     settled limit itemsize cs st /\
     Z.of_nat (n_autos (ls_axes st)) * (S0 + 3) + (sum_n cs (ls_axes st) - sum_med (ls_axes st)) + 2
     <= Z.of_nat fuel) ->
    prev_loop fuel true limit itemsize cs orc r st <> LFuel.
Proof.
  intros Hc. induction fuel as [|f IH]; intros r st Hl HS Hs Hb;
    pose proof (sum_n_nonneg cs (ls_axes st)) as Hsn0;
    assert (0 <= Z.of_nat (n_autos (ls_axes st)) * (S0 + 3)) as Hn0 by (apply Z.mul_nonneg_nonneg; lia);
    assert (settled limit itemsize cs st -> sum_med (ls_axes st) <= sum_n cs (ls_axes st)) as Hgap
      by (intros (HF & _); apply sum_med_le_sum_n; exact HF).
  - destruct Hb as [Hb|[Hset Hb]]; [|specialize (Hgap Hset)]; lia.
  - destruct (sane_loop_step _ _ _ _ _ _ _ _ Hs) as [Hs1 Hnext]. cbn [prev_loop].
    destruct (prev_round true limit itemsize cs (orc r) st) as [[st1 [|]]|] eqn:Hr; try discriminate.
    specialize (Hnext _ eq_refl).
    destruct (prev_round_inv _ _ _ _ _ _ _ _ Hr Hl) as (fl & k & Hrel & Hlb & Hm & Hb2).
    pose proof (round_rel_length _ _ _ _ _ _ _ _ Hrel) as Hlen.
    pose proof (round_rel_sum_n _ _ _ _ _ _ _ _ Hrel) as Hsum.
    destruct (round_rel_autos _ _ _ _ _ _ _ _ Hrel) as (_ & A2 & A3).
    apply IH; [lia|lia|exact Hnext|]. destruct fl.
    + (* an axis left `autos` *)
      left. specialize (A2 eq_refl).
      assert (Z.of_nat (n_autos (ls_axes st1)) * (S0 + 3) + (S0 + 3) <= Z.of_nat (n_autos (ls_axes st)) * (S0 + 3))
        by (clear - A2 HS Hsn0; nia).
      destruct Hb as [Hb|[Hset Hb]]; [|specialize (Hgap Hset)]; lia.
    + (* nothing left `autos`: the state settles, and if it was settled an entry has grown *)
      right. destruct (A3 eq_refl) as [_ E].
      assert (settled limit itemsize cs st1) as Hset1 by (eapply settle; eassumption).
      split; [exact Hset1|]. rewrite (n_autos_map _ _ E), (sum_n_map cs _ _ E).
      destruct Hset1 as (HF1 & _). pose proof (sum_med_le_sum_n _ _ HF1).
      destruct Hb as [Hb|[Hset Hb]]; [lia|]. cbn [orb] in Hb2.
      pose proof (settled_progress _ _ _ _ _ _ _ Hrel Hlb Hm (eq_sym Hb2) Hc Hs1 Hset). lia.
Qed.

(* TERMINATION, shrinking case: if every pass the loop executes is sane, then
   (n_autos + 1) * (sum of the lengths of the 'auto' axes + 3) passes suffice *)
Theorem prev_loop_sane_terminates : forall fuel limit itemsize cs orc r st,
  Forall consts_ok cs -> length cs = length (ls_axes st) ->
  sane_loop fuel true limit itemsize cs orc r st = true ->
  reduce_fuel_bound cs (ls_axes st) <= Z.of_nat fuel ->
  prev_loop fuel true limit itemsize cs orc r st <> LFuel.
Proof.
  intros fuel limit itemsize cs orc r st Hc Hl Hs Hb.
  apply (prev_loop_sane_aux limit itemsize cs orc (sum_n cs (ls_axes st)) Hc); [exact Hl|lia|exact Hs|].
  left. unfold reduce_fuel_bound in Hb. lia.
Qed.

Lemma prev_start_props limit itemsize specs shape prev reduce cs st0 :
  prev_start limit itemsize specs shape prev = Some (reduce, cs, st0) ->
  length cs = length (ls_axes st0) /\ Forall consts_ok cs /\
  (n_autos (ls_axes st0) <= length (filter is_auto (subst_all specs shape)))%nat.
Proof.
  intros H. apply prev_start_inv in H as (Hlen & pvs & _ & Hst).
  destruct (loop_start_length _ _ _ _ _ _ _ _ (subst_all_length specs shape Hlen) Hst) as [Hl0 _].
  apply loop_start_inv in Hst as (ids & m & _ & Hi & _ & -> & ->).
  split; [exact Hl0|]. split; [eapply mk_consts_ok; exact Hi|apply init_axes_autos].
Qed.

(* TERMINATION of normalize_chunks(..., previous_chunks=...):
   - the loop is not reached, or
   - multiplier >= 1 initially: #autos + 1 passes suffice for ALL oracle values, or
   - multiplier < 1 initially and every executed pass is sane: reduce_fuel_bound passes suffice *)
Theorem normalize_prev_terminates : forall orc fuel limit itemsize specs shape prev,
  match prev_start limit itemsize specs shape prev with
  | None => True
  | Some (false, cs, st0) => (n_autos (ls_axes st0) < fuel)%nat
  | Some (true, cs, st0) => prev_sane orc fuel limit itemsize specs shape prev = true /\
                            reduce_fuel_bound cs (ls_axes st0) <= Z.of_nat fuel
  end ->
  normalize_chunks_prev orc fuel limit itemsize specs shape prev <> PFuel.
Proof.
  intros orc fuel limit itemsize specs shape prev H HF.
  apply normalize_prev_fuel in HF as (reduce & cs & st0 & Hst & Hl).
  unfold prev_sane in H. rewrite Hst in H.
  destruct (prev_start_props _ _ _ _ _ _ _ _ Hst) as (Hlen & Hc & _).
  destruct reduce.
  - destruct H as [Hs Hb]. revert Hl. apply prev_loop_sane_terminates; assumption.
  - revert Hl. apply prev_loop_grow_terminates; assumption.
Qed.

Corollary normalize_prev_grow_terminates : forall orc fuel limit itemsize specs shape prev cs st0,
  prev_start limit itemsize specs shape prev = Some (false, cs, st0) ->
  (length (filter is_auto (subst_all specs shape)) < fuel)%nat ->
  normalize_chunks_prev orc fuel limit itemsize specs shape prev <> PFuel.
Proof.
  intros orc fuel limit itemsize specs shape prev cs st0 Hst Hf.
  apply normalize_prev_terminates. rewrite Hst.
  destruct (prev_start_props _ _ _ _ _ _ _ _ Hst) as (_ & _ & Hn). lia.
Qed.

(* normalize_chunks((-2,'auto','auto'), (5,5,2), limit=128MiB, dtype='i4',
                    previous_chunks=((1,1,1,1,1),(5,),(2,))):
   largest_block = -2, multiplier = -1677721.6 < 1 (so result IS median_chunks), multiplier ** (1/2) is NaN,
   every proposal is NaN: no amount of fuel lets the model's loop finish *)
Theorem normalize_prev_negative_entry_never_returns : forall fuel,
  normalize_chunks_prev (fun _ _ => (FNan, FNan)) fuel 134217728 4
    [AInt (-2); AAuto; AAuto] [5; 5; 2] [[1; 1; 1; 1; 1]; [5]; [2]] = PFuel.
Proof.
  intros fuel.
  assert (exists cs st0,
    prev_start 134217728 4 [AInt (-2); AAuto; AAuto] [5; 5; 2] [[1; 1; 1; 1; 1]; [5]; [2]] = Some (true, cs, st0) /\
    length cs = length (ls_axes st0) /\ n_autos (ls_axes st0) = 2%nat /\ ls_lb st0 = -2)
    as (cs & st0 & Hst & Hl & Hn & Hlb).
  { eexists _, _. split; [vm_compute; reflexivity|]. vm_compute. auto. }
  apply normalize_prev_fuel. exists true, cs, st0. split; [exact Hst|].
  pose proof (prev_loop_nan fuel (Z.max 1 134217728) 4 cs _ 0%nat st0 (fun _ _ => eq_refl) Hl ltac:(lia)) as H.
  destruct (prev_loop fuel true _ 4 cs _ 0 st0); [destruct H|lia|reflexivity].
Qed.
