(* Proofs about the rechunk-expression model of RechunkGraph.v.
   Values: executing the modelled graph of one rechunk step yields exactly the blocks of the new
   layout, for all valid layouts (rechunk_1d_blocks).  This rests on the pieces of a new block coming
   from strictly increasing old blocks (intersect_1d_sorted: rec_cat_arg has one slot per piece, no
   IndexError) and on split keys being unique.  Then: aliases (whole_block_alias), multi-step plans
   (run_plan_1d_blocks), the 2-D product of two per-axis tilings (assemble2_block), and the N-D
   structural model at rank 1 (compute_rechunk_nd_rank1).
   Chunks: Rechunk.chunks is a valid layout of the shape for every value of the oracles
   (rechunk_chunks_layout), through _validate_rechunk (validate_rechunk_known_iff, validate_axis_unknown)
   and _balance_chunksizes (balance_preserves_sum, balance_layout). *)
From DA Require Import PyBase PyBaseFacts Rechunk RechunkFacts NormChunks NormChunksFacts RechunkGraph.
Open Scope Z_scope.

Section SubFacts.
Context {A : Type}.
Implicit Types l : list A.

Lemma sub_nil a l : sub a a l = [].
Proof. unfold sub. rewrite Z.sub_diag. reflexivity. Qed.

Lemma sub_app a m b l : 0 <= a -> a <= m -> m <= b -> sub a m l ++ sub m b l = sub a b l.
Proof.
  intros Ha Hm Hb. unfold sub.
  replace (Z.to_nat m) with (Z.to_nat a + Z.to_nat (m - a))%nat by lia.
  rewrite <- skipn_skipn.
  replace (Z.to_nat (b - a)) with (Z.to_nat (m - a) + Z.to_nat (b - m))%nat by lia.
  rewrite firstn_add. reflexivity.
Qed.

Lemma sub_sub s e a b l :
  0 <= s -> 0 <= a -> a <= b -> b <= e - s -> sub a b (sub s e l) = sub (s + a) (s + b) l.
Proof.
  intros Hs Ha Hab Hb. unfold sub.
  rewrite skipn_firstn_comm, firstn_firstn, skipn_skipn.
  f_equal; [lia|f_equal; lia].
Qed.

Lemma sub_length a b l : 0 <= a -> a <= b -> b <= Z.of_nat (length l) -> Z.of_nat (length (sub a b l)) = b - a.
Proof.
  intros Ha Hab Hb. unfold sub. rewrite firstn_length_le; [lia|]. rewrite skipn_length. lia.
Qed.

Lemma sub_all l : sub 0 (Z.of_nat (length l)) l = l.
Proof. unfold sub. cbn [Z.to_nat skipn]. apply firstn_all2. lia. Qed.

Lemma sub_map {B} (f : A -> B) a b l : sub a b (map f l) = map f (sub a b l).
Proof. unfold sub. rewrite skipn_map, firstn_map. reflexivity. Qed.
End SubFacts.

Lemma strictly_increasing_snoc l : forall x,
  strictly_increasing l = true -> (forall y, last_opt l = Some y -> y < x) -> strictly_increasing (l ++ [x]) = true.
Proof.
  induction l as [|a l IH]; intros x Hs Hl; [reflexivity|].
  destruct l as [|b l].
  - cbn [app strictly_increasing]. rewrite andb_true_r. apply Z.ltb_lt. apply Hl. reflexivity.
  - change ((a <? b) && strictly_increasing ((b :: l) ++ [x]) = true).
    cbn [strictly_increasing] in Hs. apply andb_true_iff in Hs as [H1 H2].
    rewrite H1. cbn [andb]. apply IH; [exact H2|].
    intros y Hy. apply Hl. unfold last_opt in *. cbn [rev] in *.
    destruct (rev l ++ [b]) eqn:E; [destruct (rev l); discriminate|]. cbn [app]. exact Hy.
Qed.

Definition pidx (p : piece) : Z := fst (fst p).

(* the old indices of the pieces of a block strictly increase *)
Definition sorted_block (ps : list piece) : Prop := strictly_increasing (map pidx ps) = true.

(* the pending pieces are kept in reverse *)
Lemma sorted_cons p nx :
  sorted_block (rev nx) -> (forall q, hd_error nx = Some q -> pidx q < pidx p) -> sorted_block (rev (p :: nx)).
Proof.
  unfold sorted_block. cbn [rev]. rewrite map_app. intros Hs Hhd. apply strictly_increasing_snoc; [exact Hs|].
  intros y Hy. unfold last_opt in Hy. rewrite <- map_rev, rev_involutive in Hy.
  destruct nx as [|q nx]; [discriminate|]. injection Hy as <-. apply Hhd. reflexivity.
Qed.

(* the last clause is what lets a piece of the current old block go in front of the pending ones:
   after an 'o' breakpoint ix_old_idx has moved past every pending piece *)
Definition sort_inv (st : ix_state) (prev : bool * Z) : Prop :=
  Forall sorted_block (ix_ret st) /\
  sorted_block (rev (ix_next st)) /\
  (fst prev = true -> forall p, hd_error (ix_next st) = Some p -> pidx p < ix_old_idx st).

Lemma sorted_flush st :
  Forall sorted_block (ix_ret st) -> sorted_block (rev (ix_next st)) -> Forall sorted_block (flush st).
Proof.
  unfold flush. intros Hret Hnx. destruct (ix_next st); [exact Hret|]. constructor; assumption.
Qed.

Lemma sort_inv_step loc lob st prev cur : sort_inv st prev -> sort_inv (ix_step loc lob st prev cur) cur.
Proof.
  destruct prev as [lo pb], cur as [io br]. intros (Hret & Hnx & Hhd). cbn [fst] in Hhd.
  rewrite ix_step_eq. unfold sort_inv. cbn [fst ix_ret ix_next ix_old_idx].
  split; [destruct lo; [exact Hret|apply sorted_flush; assumption]|].
  destruct lo; cbn [orb].
  - (* after an 'o': a new piece is put in front of pieces of earlier old blocks *)
    specialize (Hhd eq_refl). destruct (br =? pb); cbn [app].
    + split; [exact Hnx|]. intros _ p Hp. specialize (Hhd p Hp). destruct io; lia.
    + split; [apply sorted_cons; assumption|].
      intros Hio p Hp. injection Hp as <-. subst io. cbn. lia.
  - (* after an 'n': the pending block was flushed, at most one piece follows *)
    rewrite app_nil_r. split.
    + destruct (br =? pb); [destruct io; [|destruct (br =? lob)]|]; reflexivity.
    + intros Hio p Hp. subst io. destruct (br =? pb); [discriminate|]. injection Hp as <-. cbn. lia.
Qed.

Lemma sort_inv_loop loc lob : forall rest st prev, sort_inv st prev -> exists last, sort_inv (ix_loop loc lob st prev rest) last.
Proof.
  induction rest as [|cur rest IH]; intros st prev H; cbn [ix_loop]; [eauto|].
  apply IH. apply sort_inv_step. exact H.
Qed.

Theorem intersect_1d_sorted old new : cw_sorted (intersect_1d old new) = true.
Proof.
  unfold cw_sorted. apply forallb_forall. intros ps Hin. change (sorted_block ps).
  revert ps Hin. apply Forall_forall.
  unfold intersect_1d. destruct (merge_breaks (cum0 old) (cum0 new)) as [|b0 rest]; [constructor|].
  destruct (sort_inv_loop (Z.of_nat (length old) - 1) (zsum old) rest (mk_ix 0 0 0 [] []) b0) as (last & Hret & Hnx & _).
  { repeat split; cbn; try constructor. intros _ p Hp. discriminate. }
  apply Forall_rev. apply sorted_flush; assumption.
Qed.

Lemma strictly_increasing_lt x t : strictly_increasing (x :: t) = true -> Forall (fun y => x < y) t.
Proof.
  revert x. induction t as [|y t IH]; intros x H; [constructor|].
  cbn [strictly_increasing] in H. apply andb_true_iff in H as [H1 H2].
  constructor; [lia|]. specialize (IH y H2). eapply Forall_impl; [|exact IH]. cbn. intros. lia.
Qed.

Lemma strictly_increasing_tl x t : strictly_increasing (x :: t) = true -> strictly_increasing t = true.
Proof. destruct t; [reflexivity|]. cbn [strictly_increasing]. intros H. apply andb_true_iff in H. tauto. Qed.

Lemma count_distinct_sorted l : strictly_increasing l = true -> count_distinct l = length l.
Proof.
  induction l as [|x t IH]; intros H; [reflexivity|]. cbn [count_distinct length].
  pose proof (strictly_increasing_lt x t H) as Hlt.
  assert (existsb (Z.eqb x) t = false) as ->.
  { destruct (existsb (Z.eqb x) t) eqn:E; [|reflexivity]. apply existsb_exists in E as (y & Hy & He).
    rewrite Forall_forall in Hlt. specialize (Hlt y Hy). lia. }
  rewrite IH; [reflexivity|]. eapply strictly_increasing_tl. exact H.
Qed.

Definition skey (t : stask) : Z * Z := let '(i, k, _, _) := t in (i, k).

(* what a merge input must denote for piece p *)
Definition src_ok (old : list Z) (ss : list stask) (p : piece) (s : src) : Prop :=
  let '(i, a, b) := p in
  match s with
  | SrcOld i' => i' = i /\ a = 0 /\ b = nthZ old i
  | SrcSplit i' k => i' = i /\ In (i, k, a, b) ss
  end.

Lemma srcs_ok_weaken old ss ss' ps srcs :
  incl ss ss' -> Forall2 (src_ok old ss) ps srcs -> Forall2 (src_ok old ss') ps srcs.
Proof.
  intros Hi. apply Forall2_impl. intros [[i a] b] [i'|i' k]; cbn [src_ok]; [tauto|].
  intros [-> Hin]. split; [reflexivity|exact (Hi _ Hin)].
Qed.

Lemma in_skey i k ss : In (i, k) (map skey ss) -> exists a b, In (i, k, a, b) ss.
Proof.
  intros H. apply in_map_iff in H as ([[[i' k'] a] b] & Hk & Hin). cbn [skey] in Hk. injection Hk as -> ->. eauto.
Qed.

Lemma ctr_get_incr ctr i j : ctr_get (ctr_incr ctr i) j = if i =? j then ctr_get ctr i + 1 else ctr_get ctr j.
Proof. reflexivity. Qed.

Lemma ctr_incr_le ctr i j : ctr_get ctr j <= ctr_get (ctr_incr ctr i) j.
Proof. rewrite ctr_get_incr. destruct (Z.eqb_spec i j) as [->|_]; lia. Qed.

Lemma block_pieces_spec old : forall ps ctr srcs sp ctr',
  block_pieces old ps ctr = (srcs, sp, ctr') ->
  (forall i, ctr_get ctr i <= ctr_get ctr' i) /\
  (forall i k a b, In (i, k, a, b) sp -> ctr_get ctr i <= k < ctr_get ctr' i) /\
  NoDup (map skey sp) /\
  Forall2 (src_ok old sp) ps srcs.
Proof.
  induction ps as [|[[i a] b] t IH]; intros ctr srcs sp ctr' H; cbn [block_pieces] in H.
  - injection H as <- <- <-. split; [intros; lia|]. split; [intros i k a b []|]. split; constructor.
  - destruct ((a =? 0) && (b =? nthZ old i)) eqn:Ew.
    + destruct (block_pieces old t ctr) as [[srcs0 sp0] c0] eqn:Eb. injection H as <- <- <-.
      destruct (IH _ _ _ _ Eb) as (Hmono & Hrange & Hnd & Hsrc).
      split; [exact Hmono|]. split; [exact Hrange|]. split; [exact Hnd|].
      constructor; [|exact Hsrc]. cbn. lia.
    + destruct (block_pieces old t (ctr_incr ctr i)) as [[srcs0 sp0] c0] eqn:Eb. injection H as <- <- <-.
      destruct (IH _ _ _ _ Eb) as (Hmono & Hrange & Hnd & Hsrc).
      pose proof (Hmono i) as Hi. rewrite ctr_get_incr, Z.eqb_refl in Hi.
      split; [intros j; specialize (Hmono j); pose proof (ctr_incr_le ctr i j); lia|]. split; [|split].
      * (* the keys lie between the two counters *)
        intros i0 k0 a0 b0 [H|H].
        -- injection H as <- <- <- <-. lia.
        -- apply Hrange in H. pose proof (ctr_incr_le ctr i i0). lia.
      * (* the new key is below the range of the later ones *)
        cbn [map skey]. constructor; [|exact Hnd].
        intros Hin. apply in_skey in Hin as (a' & b' & Hin).
        apply Hrange in Hin. rewrite ctr_get_incr, Z.eqb_refl in Hin. lia.
      * constructor; [cbn; auto|]. exact (srcs_ok_weaken _ _ _ _ _ (incl_tl _ (incl_refl _)) Hsrc).
Qed.

Definition block_ok (old : list Z) (ss : list stask) (ps : list piece) (m : mtask) : Prop :=
  exists srcs, merge_of ps srcs = Some m /\ Forall2 (src_ok old ss) ps srcs.

Lemma block_ok_weaken old ss ss' ps m : incl ss ss' -> block_ok old ss ps m -> block_ok old ss' ps m.
Proof. intros Hi (srcs & Hm & F). exists srcs. split; [exact Hm|exact (srcs_ok_weaken _ _ _ _ _ Hi F)]. Qed.

Lemma graph_loop_spec old : forall cw ctr ms ss,
  graph_loop old cw ctr = Some (ms, ss) ->
  (forall i k a b, In (i, k, a, b) ss -> ctr_get ctr i <= k) /\
  NoDup (map skey ss) /\
  Forall2 (block_ok old ss) cw ms.
Proof.
  induction cw as [|ps rest IH]; intros ctr ms ss H; cbn [graph_loop] in H.
  - injection H as <- <-. repeat split; try constructor. intros i k a b [].
  - destruct (block_pieces old ps ctr) as [[srcs sp] ctr'] eqn:Eb.
    destruct (merge_of ps srcs) as [m|] eqn:Em; [|discriminate].
    destruct (graph_loop old rest ctr') as [[ms0 ss0]|] eqn:Eg; [|discriminate].
    injection H as <- <-.
    destruct (block_pieces_spec old _ _ _ _ _ Eb) as (Bmono & Brange & Bnd & Bsrc).
    destruct (IH _ _ _ Eg) as (Glow & Gnd & Gblk).
    split; [|split].
    + intros i k a b Hin. apply in_app_or in Hin as [Hin|Hin].
      * apply Brange in Hin. lia.
      * apply Glow in Hin. specialize (Bmono i). lia.
    + (* the keys of this block lie below ctr', those of the later blocks at or above it *)
      rewrite map_app. apply NoDup_app_intro; [exact Bnd|exact Gnd|].
      intros [i k] H1 H2. apply in_skey in H1 as (a1 & b1 & Hin1). apply in_skey in H2 as (a2 & b2 & Hin2).
      apply Brange in Hin1. apply Glow in Hin2. lia.
    + constructor.
      * exists srcs. split; [exact Em|]. exact (srcs_ok_weaken _ _ _ _ _ (incl_appl _ (incl_refl _)) Bsrc).
      * eapply Forall2_impl; [|exact Gblk]. intros ps' m'. apply block_ok_weaken. apply incl_appr, incl_refl.
Qed.

Lemma find_unique_key ss : forall i k a b,
  NoDup (map skey ss) -> In (i, k, a, b) ss -> find (stask_key_eqb i k) ss = Some (i, k, a, b).
Proof.
  induction ss as [|[[[i' k'] a'] b'] ss IH]; intros i k a b Hnd Hin; [destruct Hin|].
  cbn [map skey] in Hnd. inversion Hnd as [|? ? Hx Hnd']; subst.
  cbn [find stask_key_eqb]. destruct Hin as [Hin|Hin].
  - injection Hin as -> -> -> ->. rewrite !Z.eqb_refl. reflexivity.
  - destruct ((i' =? i) && (k' =? k)) eqn:E.
    + exfalso. apply Hx. apply in_map_iff. exists (i, k, a, b). split; [|exact Hin]. cbn. f_equal; lia.
    + apply IH; assumption.
Qed.

Section Values.
Context {A : Type}.
Variable old : list Z.
Variable xs : list A.
Hypothesis Hold : nonneg old.

Definition piece_value (p : piece) : list A := let '(i, a, b) := p in sub a b (block_at old xs i).

Lemma cum_nonneg j : 0 <= cum old j.
Proof. unfold cum. apply zsum_nonneg, Forall_firstn, Hold. Qed.

Lemma piece_value_global i a b :
  0 <= i < Z.of_nat (length old) -> 0 <= a -> a <= b -> b <= nthZ old i ->
  piece_value (i, a, b) = sub (nthZ (cum0 old) i + a) (nthZ (cum0 old) i + b) xs.
Proof.
  intros Hi Ha Hab Hb. unfold piece_value, block_at.
  apply sub_sub; try lia. rewrite cum0_nthZ by lia. apply cum_nonneg.
Qed.

Lemma tile_values : forall ps pos hi,
  pieces_tile (cum0 old) old ps pos hi = true ->
  concat (map piece_value ps) = sub pos hi xs.
Proof.
  induction ps as [|[[i a] b] t IH]; intros pos hi H; cbn [pieces_tile] in H.
  - apply Z.eqb_eq in H. subst hi. rewrite sub_nil. reflexivity.
  - rewrite !andb_true_iff in H. destruct H as [[[[[[Hi0 Hi1] Ha] Hab] Hb] Hpos] Ht].
    pose proof (pieces_tile_sound old t _ _ Ht) as (Hle & _ & _).
    unfold lenZ' in *.
    cbn [map concat]. rewrite (IH _ _ Ht), piece_value_global by lia.
    replace (nthZ (cum0 old) i + a) with pos by lia.
    apply sub_app; try lia.
    assert (0 <= nthZ (cum0 old) i) by (rewrite cum0_nthZ by lia; apply cum_nonneg). lia.
Qed.

Lemma src_ok_value ss p s :
  NoDup (map skey ss) -> piece_in_bounds old p ->
  src_ok old ss p s -> src_value old xs ss s = Some (piece_value p).
Proof.
  destruct p as [[i a] b], s as [i'|i' k]; cbn [src_ok src_value piece_in_bounds]; intros Hnd Hb H.
  - destruct H as (-> & -> & ->). f_equal. rewrite piece_value_global by lia. unfold block_at. f_equal; lia.
  - destruct H as (-> & Hin). rewrite (find_unique_key ss i k a b Hnd Hin). reflexivity.
Qed.

Lemma collect_opt_map_some {X Y} (f : X -> option Y) (g : X -> Y) l :
  Forall (fun x => f x = Some (g x)) l -> collect_opt (map f l) = Some (map g l).
Proof.
  induction 1 as [|x l Hx _ IH]; [reflexivity|]. cbn [map collect_opt]. rewrite Hx, IH. reflexivity.
Qed.

Lemma srcs_values ss : forall ps srcs,
  NoDup (map skey ss) -> Forall (piece_in_bounds old) ps -> Forall2 (src_ok old ss) ps srcs ->
  collect_opt (map (src_value old xs ss) srcs) = Some (map piece_value ps).
Proof.
  intros ps srcs Hnd Hb F. induction F as [|p s ps srcs Hps _ IH]; [reflexivity|].
  inversion Hb as [|? ? Hb1 Hb2]; subst. cbn [map collect_opt].
  rewrite (src_ok_value ss p s Hnd Hb1 Hps), (IH Hb2). reflexivity.
Qed.

(* an alias of the only input computes what concatenate3 of the one-element list would *)
Lemma merge_of_value ss ps srcs m :
  merge_of ps srcs = Some m ->
  mtask_value old xs ss m = option_map (@concat A) (collect_opt (map (src_value old xs ss) srcs)).
Proof.
  unfold merge_of. destruct (negb _); [discriminate|].
  destruct srcs as [|s [|s' srcs]]; intros H; [discriminate|..]; injection H as <-; [|reflexivity].
  cbn [mtask_value map collect_opt]. destruct (src_value old xs ss s); [|reflexivity].
  cbn [option_map concat]. rewrite app_nil_r. reflexivity.
Qed.

Lemma block_ok_value ss ps m :
  NoDup (map skey ss) -> Forall (piece_in_bounds old) ps -> block_ok old ss ps m ->
  mtask_value old xs ss m = Some (concat (map piece_value ps)).
Proof.
  intros Hnd Hb (srcs & Hm & F). rewrite (merge_of_value ss ps srcs m Hm), (srcs_values ss ps srcs Hnd Hb F).
  reflexivity.
Qed.

(* the blocks of a layout, by running position *)
Fixpoint blocks_from (pos : Z) (cs : list Z) : list (list A) :=
  match cs with
  | [] => []
  | c :: t => sub pos (pos + c) xs :: blocks_from (pos + c) t
  end.

Lemma crosswalk_values ss : forall new cw ms pos,
  NoDup (map skey ss) ->
  crosswalk_ok_from (cum0 old) old new cw pos = true ->
  Forall2 (block_ok old ss) cw ms ->
  collect_opt (map (mtask_value old xs ss) ms) = Some (blocks_from pos new).
Proof.
  induction new as [|c new IH]; intros [|ps cw] ms pos Hnd H F; cbn [crosswalk_ok_from] in H; try discriminate.
  - inversion F; subst. reflexivity.
  - inversion F as [|? m ? ms' Hb F']; subst.
    apply andb_true_iff in H as [H H3]. apply andb_true_iff in H as [_ H2].
    pose proof (pieces_tile_sound old ps _ _ H2) as (_ & Hbounds & _).
    cbn [map collect_opt blocks_from].
    rewrite (block_ok_value ss ps m Hnd Hbounds Hb), (tile_values ps _ _ H2), (IH cw ms' (pos + c) Hnd H3 F').
    reflexivity.
Qed.
End Values.

Lemma blocks_from_blocks_of {A} (xs : list A) : forall cs pre,
  blocks_from xs (zsum pre) cs =
  map (fun j => block_at (pre ++ cs) xs (Z.of_nat j)) (seq (length pre) (length cs)).
Proof.
  induction cs as [|c cs IH]; intros pre; [reflexivity|].
  cbn [blocks_from length seq map]. f_equal.
  - unfold block_at. destruct (nthZ_app_middle pre c cs) as [-> ->]. reflexivity.
  - specialize (IH (pre ++ [c])). rewrite zsum_app in IH. cbn [zsum] in IH. rewrite Z.add_0_r in IH.
    rewrite IH, <- app_assoc, app_length. cbn [length app]. rewrite Nat.add_1_r. reflexivity.
Qed.

Lemma blocks_from_0 {A} (xs : list A) cs : blocks_from xs 0 cs = blocks_of cs xs.
Proof. exact (blocks_from_blocks_of xs cs []). Qed.

(* the construction cannot fail: the old indices of a block strictly increase (so rec_cat_arg has one
   slot per piece) and no block is without pieces *)
Lemma graph_loop_total old : forall cw ctr,
  Forall (fun ps => ps <> [] /\ sorted_block ps) cw -> graph_loop old cw ctr <> None.
Proof.
  induction cw as [|ps rest IH]; intros ctr Hall; cbn [graph_loop]; [discriminate|].
  inversion Hall as [|? ? [Hne Hs] Hrest]; subst.
  destruct (block_pieces old ps ctr) as [[srcs sp] ctr'] eqn:Eb.
  destruct (block_pieces_spec old _ _ _ _ _ Eb) as (_ & _ & _ & F).
  specialize (IH ctr' Hrest). destruct (graph_loop old rest ctr') as [[ms ss]|]; [|contradiction].
  unfold merge_of. change (map (fun p : Z * Z * Z => fst (fst p)) ps) with (map pidx ps).
  rewrite (count_distinct_sorted _ Hs), map_length, Nat.eqb_refl.
  destruct F as [|p s ps' [|s' srcs']]; [contradiction|discriminate|discriminate].
Qed.

(* on valid layouts the graph is built, with a merge task for every block of the crosswalk *)
Lemma compute_rechunk_1d_spec old new :
  nonneg old -> nonneg new -> old <> [] -> zsum old = zsum new ->
  exists ms ss, compute_rechunk_1d old new = Some (ms, ss) /\
    NoDup (map skey ss) /\ Forall2 (block_ok old ss) (intersect_1d old new) ms.
Proof.
  intros Ho Hn Hne Hs. unfold compute_rechunk_1d.
  destruct (intersect_1d_spec old new Ho Hn Hne Hs) as [Hlen Hpieces].
  rewrite <- Hlen, firstn_all.
  destruct (graph_loop old (intersect_1d old new) []) as [[ms ss]|] eqn:Eg.
  - destruct (graph_loop_spec old _ _ _ _ Eg) as (_ & Hnd & F). eauto.
  - exfalso. revert Eg. apply graph_loop_total. apply Forall_forall. intros ps Hin. split.
    + apply In_nth_error in Hin as [j Hj]. exact (proj1 (Hpieces j ps Hj)).
    + pose proof (intersect_1d_sorted old new) as Hsorted. unfold cw_sorted in Hsorted.
      rewrite forallb_forall in Hsorted. exact (Hsorted ps Hin).
Qed.

Theorem rechunk_1d_blocks {A} old new (xs : list A) :
  nonneg old -> nonneg new -> old <> [] -> zsum old = zsum new ->
  run_rechunk_1d old new xs = Some (blocks_of new xs).
Proof.
  intros Ho Hn Hne Hs. destruct (compute_rechunk_1d_spec old new Ho Hn Hne Hs) as (ms & ss & Hc & Hnd & F).
  unfold run_rechunk_1d. rewrite Hc, <- blocks_from_0.
  eapply crosswalk_values; [exact Ho|exact Hnd|apply intersect_1d_ok_section; assumption|exact F].
Qed.

(* consequences of rechunk_1d_blocks: the new blocks concatenate to xs, have the advertised sizes, and block j is
   the segment [cum new j, cum new (j+1)) *)
Lemma blocks_from_concat {A} (xs : list A) : forall cs pos,
  nonneg cs -> 0 <= pos -> concat (blocks_from xs pos cs) = sub pos (pos + zsum cs) xs.
Proof.
  induction cs as [|c cs IH]; intros pos Hn Hp; cbn [blocks_from concat zsum].
  - rewrite Z.add_0_r, sub_nil. reflexivity.
  - inversion Hn as [|? ? Hc Hn']; subst. rewrite IH by (assumption || lia).
    pose proof (zsum_nonneg cs Hn'). rewrite sub_app by lia. f_equal. lia.
Qed.

Theorem blocks_of_concat {A} cs (xs : list A) :
  nonneg cs -> Z.of_nat (length xs) = zsum cs -> concat (blocks_of cs xs) = xs.
Proof.
  intros Hn Hl. rewrite <- blocks_from_0, blocks_from_concat by (assumption || lia).
  rewrite Z.add_0_l, <- Hl. apply sub_all.
Qed.

Lemma blocks_from_lengths {A} (xs : list A) : forall cs pos,
  nonneg cs -> 0 <= pos -> pos + zsum cs <= Z.of_nat (length xs) ->
  Forall2 (fun b c => Z.of_nat (length b) = c) (blocks_from xs pos cs) cs.
Proof.
  induction cs as [|c cs IH]; intros pos Hn Hp Hl; cbn [blocks_from zsum] in *; constructor.
  - inversion Hn as [|? ? Hc Hn']; subst. pose proof (zsum_nonneg cs Hn').
    rewrite sub_length by lia. lia.
  - inversion Hn as [|? ? Hc Hn']; subst. apply IH; [assumption|lia|lia].
Qed.

Theorem blocks_of_lengths {A} cs (xs : list A) :
  nonneg cs -> zsum cs <= Z.of_nat (length xs) ->
  Forall2 (fun b c => Z.of_nat (length b) = c) (blocks_of cs xs) cs.
Proof. intros Hn Hl. rewrite <- blocks_from_0. apply blocks_from_lengths; [assumption|lia|lia]. Qed.

(* where block j starts and ends *)
Lemma block_span cs j c :
  nth_error cs j = Some c ->
  nthZ (cum0 cs) (Z.of_nat j) = cum cs j /\ cum cs j + nthZ cs (Z.of_nat j) = cum cs (S j).
Proof.
  intros Hj. assert (j < length cs)%nat as Hlt by (apply nth_error_Some; congruence).
  rewrite cum0_nthZ, Nat2Z.id by lia. split; [reflexivity|].
  rewrite (cum_S cs j c Hj). unfold nthZ. rewrite Nat2Z.id, (nth_error_nth _ _ _ Hj). reflexivity.
Qed.

Theorem blocks_of_nth {A} cs (xs : list A) j c :
  nth_error cs j = Some c ->
  nth_error (blocks_of cs xs) j = Some (sub (cum cs j) (cum cs (S j)) xs).
Proof.
  intros Hj. assert (j < length cs)%nat as Hlt by (apply nth_error_Some; congruence).
  unfold blocks_of. rewrite nth_error_map.
  assert (nth_error (seq 0 (length cs)) j = Some j) as ->.
  { rewrite (nth_error_nth' _ 0%nat) by (rewrite seq_length; exact Hlt). rewrite seq_nth by exact Hlt. reflexivity. }
  cbn [option_map]. unfold block_at. destruct (block_span cs j c Hj) as [-> ->]. reflexivity.
Qed.

(* a new block that is one whole old block is an alias of it — and only then *)
Lemma graph_loop_alias old : forall cw ctr ms ss j i,
  graph_loop old cw ctr = Some (ms, ss) ->
  (nth_error cw j = Some [(i, 0, nthZ old i)] <-> nth_error ms j = Some (MAlias (SrcOld i))).
Proof.
  induction cw as [|ps rest IH]; intros ctr ms ss j i H; cbn [graph_loop] in H.
  - injection H as <- <-. destruct j; split; discriminate.
  - destruct (block_pieces old ps ctr) as [[srcs sp] ctr'] eqn:Eb.
    destruct (merge_of ps srcs) as [m|] eqn:Em; [|discriminate].
    destruct (graph_loop old rest ctr') as [[ms0 ss0]|] eqn:Eg; [|discriminate].
    injection H as <- <-. destruct j as [|j]; cbn [nth_error]; [|exact (IH _ _ _ j i Eg)].
    split; intros H.
    + injection H as ->. cbn [block_pieces] in Eb. rewrite !Z.eqb_refl in Eb. cbn [andb] in Eb.
      injection Eb as <- <- <-. cbn in Em. injection Em as <-. reflexivity.
    + injection H as ->. unfold merge_of in Em. destruct (negb _); [discriminate|].
      destruct srcs as [|s [|s' srcs]]; try discriminate. injection Em as ->.
      destruct (block_pieces_spec old _ _ _ _ _ Eb) as (_ & _ & _ & F).
      inversion F as [|[[i' a] b] ? ? ? Hsrc F']; subst. inversion F'; subst.
      destruct Hsrc as (-> & -> & ->). reflexivity.
Qed.

Theorem whole_block_alias {A} old new (xs : list A) ms ss j i :
  compute_rechunk_1d old new = Some (ms, ss) ->
  (nth_error (firstn (length new) (intersect_1d old new)) j = Some [(i, 0, nthZ old i)]
   <-> nth_error ms j = Some (MAlias (SrcOld i))) /\
  mtask_value old xs ss (MAlias (SrcOld i)) = Some (block_at old xs i).
Proof.
  intros H. split; [|reflexivity]. eapply graph_loop_alias. exact H.
Qed.

Lemma last_cons_default {X} (l : list X) : forall x d d', last (x :: l) d = last (x :: l) d'.
Proof. induction l as [|y l IH]; intros x d d'; [reflexivity|]. exact (IH y d d'). Qed.

Theorem run_plan_1d_blocks {A} : forall steps cur (xs : list A),
  nonneg cur -> cur <> [] -> Z.of_nat (length xs) = zsum cur ->
  Forall (fun s => nonneg s /\ s <> [] /\ zsum s = zsum cur) steps ->
  run_plan_1d cur steps xs = Some (blocks_of (last steps cur) xs).
Proof.
  induction steps as [|s rest IH]; intros cur xs Hc Hne Hl Hs; [reflexivity|].
  inversion Hs as [|? ? (Hs1 & Hs2 & Hs3) Hs']; subst.
  cbn [run_plan_1d]. rewrite rechunk_1d_blocks by (assumption || congruence).
  rewrite blocks_of_concat by (assumption || congruence).
  rewrite IH; try assumption; try congruence.
  - f_equal. f_equal. destruct rest as [|l rest']; [reflexivity|]. change (last (l :: rest') s = last (l :: rest') cur). apply last_cons_default.
  - eapply Forall_impl; [|exact Hs']. cbn. intros a (H1 & H2 & H3). repeat split; try assumption. congruence.
Qed.

(* 2-D: the block matrix assembled from the product of two per-axis tilings *)
Lemma zip_app_map {B X} (f g : X -> list B) (R : list X) :
  zip_app (map f R) (map g R) = map (fun r => f r ++ g r) R.
Proof. induction R as [|r R IH]; [reflexivity|]. cbn [map zip_app]. rewrite IH. reflexivity. Qed.

Lemma fold_zip_app_map {B X P} (f : P -> X -> list B) (R : list X) : forall (t : list P) (g : X -> list B),
  fold_left zip_app (map (fun p => map (f p) R) t) (map g R) =
  map (fun r => g r ++ concat (map (fun p => f p r) t)) R.
Proof.
  induction t as [|p t IH]; intros g; cbn [map fold_left concat].
  - apply map_ext. intros r. rewrite app_nil_r. reflexivity.
  - rewrite zip_app_map, IH. apply map_ext. intros r. rewrite app_assoc. reflexivity.
Qed.

Lemma hcat_map {B X P} (f : P -> X -> list B) (R : list X) (ps : list P) :
  ps <> [] -> hcat (map (fun p => map (f p) R) ps) = map (fun r => concat (map (fun p => f p r) ps)) R.
Proof.
  destruct ps as [|p t]; [congruence|]. intros _. cbn [map hcat]. rewrite fold_zip_app_map. reflexivity.
Qed.

Lemma piece_value2_rows {B} old0 old1 (m : list (list B)) p0 p1 :
  piece_value2 old0 old1 m p0 p1 = map (fun r => piece_value old1 r p1) (piece_value old0 m p0).
Proof.
  destruct p0 as [[i0 a0] b0], p1 as [[i1 a1] b1]. unfold piece_value2, piece_value, block_at2, block_at, sub2.
  rewrite sub_map, map_map. reflexivity.
Qed.

Theorem assemble2_block {B} old0 old1 (m : list (list B)) ps0 ps1 lo0 hi0 lo1 hi1 :
  nonneg old0 -> nonneg old1 -> ps1 <> [] ->
  pieces_tile (cum0 old0) old0 ps0 lo0 hi0 = true ->
  pieces_tile (cum0 old1) old1 ps1 lo1 hi1 = true ->
  assemble2 old0 old1 m ps0 ps1 = sub2 lo0 hi0 lo1 hi1 m.
Proof.
  intros H0 H1 Hne T0 T1. unfold assemble2, sub2.
  rewrite <- (tile_values old0 m H0 ps0 lo0 hi0 T0), concat_map, map_map. f_equal.
  apply map_ext. intros p0.
  rewrite (map_ext _ _ (fun p1 => piece_value2_rows old0 old1 m p0 p1)).
  rewrite (hcat_map (fun p1 r => piece_value old1 r p1)) by exact Hne.
  apply map_ext. intros r. exact (tile_values old1 r H1 ps1 lo1 hi1 T1).
Qed.

(* the 2-D product statement in terms of the computed crosswalks: block (j0, j1) of the rechunked
   matrix, assembled by concatenate3 from the product of the per-axis piece lists, is block (j0, j1)
   of the new layout *)
Theorem rechunk_2d_block {B} old0 old1 new0 new1 (m : list (list B)) j0 j1 ps0 ps1 :
  nonneg old0 -> nonneg new0 -> old0 <> [] -> zsum old0 = zsum new0 ->
  nonneg old1 -> nonneg new1 -> old1 <> [] -> zsum old1 = zsum new1 ->
  nth_error (intersect_1d old0 new0) j0 = Some ps0 ->
  nth_error (intersect_1d old1 new1) j1 = Some ps1 ->
  assemble2 old0 old1 m ps0 ps1 = block_at2 new0 new1 m (Z.of_nat j0) (Z.of_nat j1).
Proof.
  intros Ho0 Hn0 Hne0 Hs0 Ho1 Hn1 Hne1 Hs1 Hj0 Hj1.
  pose proof (intersect_1d_ok_section old0 new0 Ho0 Hn0 Hne0 Hs0) as Hok0.
  pose proof (intersect_1d_ok_section old1 new1 Ho1 Hn1 Hne1 Hs1) as Hok1.
  destruct (proj2 (crosswalk_ok_from_tiles old0 new0 _ 0 Hok0) j0 ps0 Hj0) as (_ & c0 & Hc0 & T0).
  destruct (proj2 (crosswalk_ok_from_tiles old1 new1 _ 0 Hok1) j1 ps1 Hj1) as (Hne & c1 & Hc1 & T1).
  rewrite !Z.add_0_l in T0, T1.
  rewrite (assemble2_block old0 old1 m ps0 ps1 _ _ _ _ Ho0 Ho1 Hne T0 T1).
  unfold block_at2. destruct (block_span new0 j0 c0 Hc0) as [-> ->]. destruct (block_span new1 j1 c1 Hc1) as [-> ->].
  reflexivity.
Qed.

(* packaged forms used by Properties/C14.v *)
Theorem rechunk_1d_values {A} old new (xs : list A) :
  nonneg old -> nonneg new -> old <> [] -> zsum old = zsum new -> Z.of_nat (length xs) = zsum old ->
  exists blocks,
    run_rechunk_1d old new xs = Some blocks /\
    concat blocks = xs /\
    Forall2 (fun b c => Z.of_nat (length b) = c) blocks new.
Proof.
  intros Ho Hn Hne Hs Hl. exists (blocks_of new xs). split; [apply rechunk_1d_blocks; assumption|]. split.
  - apply blocks_of_concat; [assumption|congruence].
  - apply blocks_of_lengths; [assumption|lia].
Qed.

Theorem rechunk_1d_block_content {A} old new (xs : list A) :
  nonneg old -> nonneg new -> old <> [] -> zsum old = zsum new ->
  exists blocks,
    run_rechunk_1d old new xs = Some blocks /\
    forall j c, nth_error new j = Some c ->
      nth_error blocks j = Some (sub (cum new j) (cum new (S j)) xs).
Proof.
  intros Ho Hn Hne Hs. exists (blocks_of new xs). split; [apply rechunk_1d_blocks; assumption|].
  intros j c Hj. exact (blocks_of_nth new xs j c Hj).
Qed.

(* the graph construction itself never fails (no IndexError / missing key) on valid layouts *)
Theorem compute_rechunk_1d_total old new :
  nonneg old -> nonneg new -> old <> [] -> zsum old = zsum new ->
  exists ms ss, compute_rechunk_1d old new = Some (ms, ss) /\ length ms = length new.
Proof.
  intros Ho Hn Hne Hs. destruct (compute_rechunk_1d_spec old new Ho Hn Hne Hs) as (ms & ss & Hc & _ & F).
  exists ms, ss. split; [exact Hc|]. rewrite <- (Forall2_length _ _ _ F).
  apply intersect_1d_spec; assumption.
Qed.

Lemma cart_single {X} (l : list X) : cart [l] = map (fun x => [x]) l.
Proof. induction l as [|x l IH]; [reflexivity|]. cbn [cart flat_map map app] in *. rewrite IH. reflexivity. Qed.

Definition ctr_nd (c : counter) : ndcounter := map (fun kv : Z * Z => ([fst kv], snd kv)) c.

Lemma ndctr_get_single c i : ndctr_get (ctr_nd c) [i] = ctr_get c i.
Proof.
  induction c as [|[k v] c IH]; [reflexivity|]. cbn [ctr_nd map ndctr_get ctr_get fst snd].
  unfold zlist_eqb. cbn [list_eqb]. rewrite andb_true_r. destruct (k =? i); [reflexivity|exact IH].
Qed.

Definition stask_to_nd (t : stask) : ndstask := let '(i, k, a, b) := t in ([i], k, [(a, b)]).

Lemma nd_block_pieces_single o : forall ps ctr,
  nd_block_pieces [o] (map (fun p => [p]) ps) (ctr_nd ctr) =
  let '(srcs, sp, c') := block_pieces o ps ctr in (map src_to_nd srcs, map stask_to_nd sp, ctr_nd c').
Proof.
  induction ps as [|[[i a] b] t IH]; intros ctr; [reflexivity|].
  cbn [map nd_block_pieces block_pieces nd_whole combine forallb nd_index nd_slices fst snd].
  rewrite andb_true_r. destruct ((a =? 0) && (b =? nthZ o i)).
  - rewrite IH. destruct (block_pieces o t ctr) as [[srcs sp] c']. reflexivity.
  - rewrite ndctr_get_single.
    change (([i], ctr_get ctr i + 1) :: ctr_nd ctr) with (ctr_nd (ctr_incr ctr i)).
    rewrite IH. destruct (block_pieces o t (ctr_incr ctr i)) as [[srcs sp] c']. reflexivity.
Qed.

Definition mtask_to_nd (m : mtask) : ndmtask :=
  match m with
  | MAlias s => NAlias (src_to_nd s)
  | MConcat l => NConcat [length l] (map src_to_nd l)
  end.

Lemma block_pieces_length o : forall ps ctr, length (fst (fst (block_pieces o ps ctr))) = length ps.
Proof.
  induction ps as [|[[i a] b] t IH]; intros ctr; [reflexivity|]. cbn [block_pieces].
  destruct ((a =? 0) && (b =? nthZ o i)).
  - specialize (IH ctr). destruct (block_pieces o t ctr) as [[srcs sp] c']. cbn [fst length] in *. congruence.
  - specialize (IH (ctr_incr ctr i)). destruct (block_pieces o t (ctr_incr ctr i)) as [[srcs sp] c']. cbn [fst length] in *. congruence.
Qed.

Lemma nd_merge_of_single ps srcs :
  length srcs = length ps ->
  nd_merge_of 1 (map (fun p => [p]) ps) (map src_to_nd srcs) = option_map mtask_to_nd (merge_of ps srcs).
Proof.
  intros Hl. unfold nd_merge_of, merge_of, nd_subdims. cbn [seq map fold_right].
  rewrite !map_map. cbn [nth]. rewrite Nat.mul_1_r, map_length.
  unfold piece in *.
  destruct (Nat.eqb (count_distinct (map (fun p : Z * Z * Z => fst (fst p)) ps)) (length ps)) eqn:E; cbn [negb]; [|reflexivity].
  apply Nat.eqb_eq in E. rewrite E. cbn [forallb]. rewrite andb_true_r.
  destruct srcs as [|s [|s' srcs]]; cbn [map option_map mtask_to_nd length] in *.
  - reflexivity.
  - rewrite <- Hl. reflexivity.
  - rewrite <- Hl. cbn [Nat.eqb]. reflexivity.
Qed.

Lemma nd_graph_loop_single o : forall cw ctr,
  nd_graph_loop [o] (map (map (fun p => [p])) cw) (ctr_nd ctr) =
  option_map (fun g : list mtask * list stask => (map mtask_to_nd (fst g), map stask_to_nd (snd g))) (graph_loop o cw ctr).
Proof.
  induction cw as [|ps rest IH]; intros ctr; [reflexivity|].
  cbn [map nd_graph_loop graph_loop length]. rewrite nd_block_pieces_single.
  pose proof (block_pieces_length o ps ctr) as Hlen.
  destruct (block_pieces o ps ctr) as [[srcs sp] ctr'] eqn:Eb. cbn [fst] in Hlen.
  rewrite (nd_merge_of_single ps srcs Hlen), IH.
  destruct (merge_of ps srcs) as [m|]; cbn [option_map]; [|reflexivity].
  destruct (graph_loop o rest ctr') as [[ms ss]|]; cbn [option_map fst snd map]; [|reflexivity].
  rewrite map_app. reflexivity.
Qed.

Theorem compute_rechunk_nd_rank1 o n : compute_rechunk_nd [o] [n] = graph1_as_nd (compute_rechunk_1d o n).
Proof.
  unfold compute_rechunk_nd, compute_rechunk_1d, intersect_chunks, old_to_new, number_of_blocks.
  cbn [combine map fst snd zprod fold_right]. rewrite cart_single, map_map.
  assert (Z.to_nat (lenZ' n * 1) = length n) as -> by (unfold lenZ'; lia).
  rewrite (map_ext _ (map (fun p => [p])) (fun ps => cart_single ps)).
  rewrite firstn_map. change (@nil (list Z * Z)) with (ctr_nd []). rewrite nd_graph_loop_single.
  unfold graph1_as_nd. destruct (graph_loop o _ []) as [[ms ss]|]; cbn [option_map fst snd]; [|reflexivity].
  reflexivity.
Qed.

Lemma collect_res_in {X} (l : list (res X)) : forall r, collect_res l = Ok r -> forall y, In y r -> In (Ok y) l.
Proof.
  induction l as [|[a|e] l IH]; intros r H y Hy; cbn [collect_res] in H.
  - injection H as <-. destruct Hy.
  - destruct (collect_res l) as [r0|] eqn:E; [|discriminate]. injection H as <-.
    destruct Hy as [->|Hy]; [left; reflexivity|right; exact (IH r0 eq_refl y Hy)].
  - discriminate.
Qed.

Lemma best_of_in : forall rest best, In (best_of best rest) (best :: rest).
Proof.
  induction rest as [|c t IH]; intros best; cbn [best_of]; [left; reflexivity|].
  destruct (spread c <? spread best).
  - destruct (IH c) as [H|H]; [right; left; exact H|right; right; exact H].
  - destruct (IH best) as [H|H]; [left; exact H|right; right; exact H].
Qed.

Lemma get_chunks_sum n c r : 0 <= n -> 1 <= c -> get_chunks n c = Ok r -> zsum r = n.
Proof.
  intros Hn Hc H. unfold get_chunks in H. destruct (c =? 0) eqn:E; [lia|]. injection H as <-.
  assert (0 <= n / c) as Hq by (apply Z.div_pos; lia).
  pose proof (Z.div_mod n c ltac:(lia)) as Hdm.
  rewrite zsum_app, zsum_repeat, Z2Nat.id by exact Hq.
  destruct (n mod c =? 0) eqn:Em; cbn [zsum]; [apply Z.eqb_eq in Em|]; lia.
Qed.

Lemma get_chunks_pos n c r : 1 <= n -> 1 <= c -> get_chunks n c = Ok r -> r <> [] /\ Forall (fun x => 0 < x) r.
Proof.
  intros Hn Hc H. split.
  - intros ->. apply get_chunks_sum in H; [cbn [zsum] in H|..]; lia.
  - unfold get_chunks in H. destruct (c =? 0); [discriminate|]. injection H as <-.
    apply Forall_app. split.
    + apply Forall_forall. intros x Hx. apply repeat_spec in Hx. lia.
    + pose proof (Z.mod_pos_bound n c ltac:(lia)). destruct (n mod c =? 0) eqn:Em; constructor; [lia|constructor].
Qed.

Lemma balance_inv median chunks r :
  balance_chunksizes median chunks = Ok r ->
  r = chunks \/ (chunks <> [] /\ pymin chunks <> 0 /\ exists c, 1 <= c /\ get_chunks (zsum chunks) c = Ok r).
Proof.
  unfold balance_chunksizes. destruct chunks as [|x t]; [discriminate|]. set (chunks := x :: t).
  destruct (pymin chunks =? 0) eqn:Ez; [intros H; injection H as <-; left; reflexivity|].
  destruct (collect_res _) as [new_chunks|] eqn:Ec; [|discriminate].
  destruct (filter _ new_chunks) as [|p ps] eqn:Ef; intros H; injection H as <-; [left; reflexivity|].
  right. split; [discriminate|]. split; [lia|].
  assert (In (best_of p ps) new_chunks) as Hin.
  { pose proof (best_of_in ps p) as Hb. rewrite <- Ef in Hb. apply filter_In in Hb. tauto. }
  apply (collect_res_in _ _ Ec) in Hin. apply in_map_iff in Hin as (c & Hg & Hc).
  apply zrange_unit_In in Hc. exists c. split; [|exact Hg].
  unfold get_chunks in Hg. destruct (c =? 0) eqn:E0; [discriminate|].
  (* eps = median / 2 rounds down, so the range starts at median - eps >= 0 (it is empty for a
     negative median); with c <> 0 this gives 1 <= c *)
  clear - Hc E0. Z.to_euclidean_division_equations. lia.
Qed.

(* for EVERY value of the median oracle *)
Theorem balance_preserves_sum median chunks r :
  0 <= zsum chunks -> balance_chunksizes median chunks = Ok r -> zsum r = zsum chunks.
Proof.
  intros Hn H. apply balance_inv in H as [->|(_ & _ & c & Hc & Hg)]; [reflexivity|].
  exact (get_chunks_sum _ _ _ Hn Hc Hg).
Qed.

Lemma fold_min_nonneg t : forall d, nonneg t -> 0 <= d -> 0 <= fold_right Z.min d t.
Proof.
  induction t as [|x t IH]; intros d Hn Hd; cbn [fold_right]; [exact Hd|].
  inversion Hn as [|x' t' Hx Ht]; subst x' t'. specialize (IH d Ht Hd). lia.
Qed.

Lemma nonneg_sum0_pymin l : nonneg l -> l <> [] -> zsum l = 0 -> pymin l = 0.
Proof.
  destruct l as [|x t]; [congruence|]. intros Hn _ Hs. inversion Hn as [|? ? Hx Ht]; subst.
  cbn [zsum] in Hs. pose proof (zsum_nonneg t Ht). assert (x = 0) by lia. subst x.
  unfold pymin. cbn [hd fold_right]. pose proof (fold_min_nonneg t 0 Ht). lia.
Qed.

Lemma axis_layout_ok_iff cs n : axis_layout_ok cs n = true <-> axis_ok n cs.
Proof. unfold axis_layout_ok. rewrite <- andb_assoc, andb_comm. apply axis_ok_iff. Qed.

(* balancing keeps a valid layout valid — for every median *)
Theorem balance_layout median chunks n r :
  axis_layout_ok chunks n = true -> balance_chunksizes median chunks = Ok r -> axis_layout_ok r n = true.
Proof.
  intros Hl H. apply axis_layout_ok_iff in Hl as (Hnn & Hs & Hne).
  apply balance_inv in H as [->|(_ & Hmin & c & Hc & Hg)]; [apply axis_layout_ok_iff; repeat split; assumption|].
  pose proof (zsum_nonneg chunks Hnn) as H0.
  assert (1 <= zsum chunks) as H1.
  { destruct (Z.eq_dec (zsum chunks) 0) as [E|E]; [|lia]. exfalso. apply Hmin. apply nonneg_sum0_pymin; assumption. }
  destruct (get_chunks_pos _ _ _ H1 Hc Hg) as [Hr1 Hr2].
  apply axis_layout_ok_iff. split; [|split; [|exact Hr1]].
  - eapply Forall_impl; [|exact Hr2]. cbn. intros. lia.
  - rewrite (get_chunks_sum _ _ _ H0 Hc Hg). exact Hs.
Qed.

Lemma balance_all_layout : forall cs medians shape cs',
  NormChunks.layout_ok cs shape = true -> balance_all medians cs = Ok cs' -> NormChunks.layout_ok cs' shape = true.
Proof.
  unfold NormChunks.layout_ok.
  induction cs as [|c cs IH]; intros medians shape cs' Hl H; cbn [balance_all] in H.
  - injection H as <-. exact Hl.
  - destruct (balance_chunksizes (hd 0 medians) c) as [c'|] eqn:Eb; [|discriminate].
    destruct (balance_all (tl medians) cs) as [r|] eqn:Er; [|discriminate]. injection H as <-.
    destruct shape as [|n shape]; [cbn in Hl; discriminate|].
    cbn [length Nat.eqb combine forallb fst snd] in *.
    apply andb_true_iff in Hl as [Hl1 Hl2]. apply andb_true_iff in Hl2 as [Ha Hf].
    specialize (IH (tl medians) shape r). rewrite Hl1, Hf in IH. specialize (IH eq_refl Er).
    apply andb_true_iff in IH as [I1 I2]. rewrite I1, I2, (balance_layout _ _ _ _ Ha Eb). reflexivity.
Qed.

Lemma sum_opt_known l : sum_opt (map Some l) = Some (zsum l).
Proof. induction l as [|x l IH]; [reflexivity|]. cbn [map sum_opt fold_right] in *. fold (sum_opt (map Some l)). rewrite IH. reflexivity. Qed.

Lemma validate_axes_known : forall old new, length old = length new ->
  (forallb (fun p => validate_axis_ok (fst p) (snd p)) (combine (known old) (known new)) = true
   <-> map zsum old = map zsum new).
Proof.
  unfold known. induction old as [|o old IH]; intros [|n new] Hl; cbn [length] in Hl; try discriminate;
    cbn [map combine forallb fst snd]; [tauto|].
  rewrite andb_true_iff, IH by congruence. unfold validate_axis_ok. rewrite !sum_opt_known, Z.eqb_eq.
  split; [intros [-> ->]; reflexivity|intros H; injection H; auto].
Qed.

Theorem validate_rechunk_known_iff : forall old new,
  validate_rechunk (known old) (known new) = true <-> length old = length new /\ map zsum old = map zsum new.
Proof.
  intros old new. unfold validate_rechunk. rewrite andb_true_iff, Nat.eqb_eq. unfold known at 1 2.
  rewrite !map_length. split; intros [Hl H]; (split; [exact Hl|]); apply (validate_axes_known _ _ Hl); exact H.
Qed.

Lemma oZ_list_eqb_eq a b : list_eqb oZ_eqb a b = true <-> a = b.
Proof. apply list_eqb_eq. apply oZ_eqb_eq. Qed.

(* an axis with an unknown (nan) size is accepted only when its chunks are left untouched *)
Theorem validate_axis_unknown o n : sum_opt o = None -> (validate_axis_ok o n = true <-> n = o).
Proof.
  intros Ho. unfold validate_axis_ok. rewrite Ho. split.
  - destruct (sum_opt n); [discriminate|]. intros H. apply oZ_list_eqb_eq in H. congruence.
  - intros ->. rewrite Ho. apply oZ_list_eqb_eq. reflexivity.
Qed.

Theorem validate_axis_known o n a : sum_opt o = Some a -> (validate_axis_ok o n = true <-> sum_opt n = Some a).
Proof.
  intros Ho. unfold validate_axis_ok. rewrite Ho. destruct (sum_opt n) as [b|]; split; intros H; try discriminate.
  - apply Z.eqb_eq in H. congruence.
  - injection H as ->. apply Z.eqb_refl.
Qed.

(* every accepted specification yields a valid layout of the shape — for ALL values of the
   auto_chunks oracle *)
Theorem normalize_chunks_prev_layout auto_out specs shape cs :
  Forall (fun n => 0 <= n) shape ->
  normalize_chunks_prev auto_out specs shape = Ok cs -> NormChunks.layout_ok cs shape = true.
Proof.
  intros Hsh H. unfold normalize_chunks_prev in H.
  destruct (negb (Nat.eqb (length specs) (length shape))); [discriminate|].
  (* normalize_tail here is RechunkGraph's, the lemma speaks of AutoPrev's: they are convertible *)
  destruct (count_autos _ =? 0).
  - eapply normalize_tail_layout; eassumption.
  - destruct auto_out as [ao|]; [|discriminate]. eapply normalize_tail_layout; eassumption.
Qed.

(* without "auto" axes RechunkGraph's normalize_chunks_prev is NormChunks.normalize_chunks (the oracles
   are not consulted) *)
Theorem normalize_chunks_prev_noauto auto_out sizes specs shape :
  count_autos (subst_all specs shape) = 0 ->
  normalize_chunks_prev auto_out specs shape = normalize_chunks sizes specs shape.
Proof.
  intros H0. rewrite normalize_chunks_tail. unfold normalize_chunks_prev. fold (subst_all specs shape).
  destruct (negb (Nat.eqb (length specs) (length shape))); [reflexivity|].
  rewrite H0, auto_chunks_done by (rewrite H0; reflexivity). reflexivity.
Qed.

Theorem rechunk_chunks_inv auto_out medians old spec limit balance cs :
  rechunk_chunks auto_out medians old spec limit balance = Ok cs ->
  exists m cs0,
    merge_spec spec old = Ok m /\
    normalize_chunks_prev auto_out (map to_aspec (empty_fix m (map zsum old))) (map zsum old) = Ok cs0 /\
    (if balance then balance_all medians cs0 = Ok cs else cs = cs0) /\
    validate_rechunk (known old) (known cs) = true.
Proof.
  unfold rechunk_chunks. intros H.
  destruct (merge_spec spec old) as [m|] eqn:Em; [|discriminate].
  destruct (negb (Nat.eqb _ _)); [discriminate|].
  destruct (resolve_limit limit _); [|discriminate].
  destruct (normalize_chunks_prev _ _ _) as [cs0|] eqn:En; [|discriminate].
  exists m, cs0. split; [reflexivity|]. split; [exact En|].
  destruct balance.
  - destruct (balance_all medians cs0) as [cs'|] eqn:Eb; [|discriminate].
    destruct (validate_rechunk (known old) (known cs')) eqn:Ev; [|discriminate]. injection H as <-. tauto.
  - destruct (validate_rechunk (known old) (known cs0)) eqn:Ev; [|discriminate]. injection H as <-. tauto.
Qed.

(* the chunks of a rechunk are a valid layout of x's shape, whatever the spec, the oracles and
   `balance` — and sum per axis to the old extents *)
Theorem rechunk_chunks_layout auto_out medians old spec limit balance cs :
  Forall nonneg old ->
  rechunk_chunks auto_out medians old spec limit balance = Ok cs ->
  NormChunks.layout_ok cs (map zsum old) = true /\ length cs = length old /\ map zsum cs = map zsum old.
Proof.
  intros Hold H. apply rechunk_chunks_inv in H as (m & cs0 & _ & Hn & Hb & Hv).
  assert (Forall (fun n => 0 <= n) (map zsum old)) as Hsh.
  { apply Forall_forall. intros n Hn'. apply in_map_iff in Hn' as (c & <- & Hc).
    apply zsum_nonneg. rewrite Forall_forall in Hold. exact (Hold c Hc). }
  pose proof (normalize_chunks_prev_layout _ _ _ _ Hsh Hn) as Hl0.
  apply validate_rechunk_known_iff in Hv as [Hlen Hsum].
  split; [|split; [symmetry; exact Hlen|symmetry; exact Hsum]].
  destruct balance; [|subst; exact Hl0]. eapply balance_all_layout; eassumption.
Qed.

(* zip() in Rechunk.chunks drops the entries of a tuple spec beyond x.ndim: they are never looked at *)
Lemma combine_firstn_l {X Y} : forall (l : list X) (r : list Y), combine (firstn (length r) l) r = combine l r.
Proof.
  induction l as [|x l IH]; intros [|y r]; cbn [length firstn combine]; try reflexivity. rewrite IH. reflexivity.
Qed.

Theorem tuple_entries_beyond_ndim_ignored auto_out medians old l limit balance :
  rechunk_chunks auto_out medians old (STuple l) limit balance =
  rechunk_chunks auto_out medians old (STuple (firstn (length old) l)) limit balance.
Proof. unfold rechunk_chunks, merge_spec. rewrite combine_firstn_l. reflexivity. Qed.
