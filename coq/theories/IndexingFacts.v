(* Proofs about the basic-indexing pipeline (model: Indexing.v): replace_ellipsis / normalize_index
   (what is accepted, which error is raised, the meaning is preserved), then slice_with_newaxes /
   ExpandDims (where the None axes land). *)
From DA Require Import PyBase PyBaseFacts Slicing NormalizeFacts Slice1dBase Slice1dFacts Indexing.
Open Scope Z_scope.

Lemma countZ_nil {A} (p : A -> bool) : countZ p [] = 0.
Proof. reflexivity. Qed.

Lemma countZ_cons {A} (p : A -> bool) x l : countZ p (x :: l) = (if p x then 1 else 0) + countZ p l.
Proof. unfold countZ. cbn [filter]. destruct (p x); [rewrite lenZ_cons|]; lia. Qed.

Lemma countZ_app {A} (p : A -> bool) l1 l2 : countZ p (l1 ++ l2) = countZ p l1 + countZ p l2.
Proof. unfold countZ. rewrite filter_app, lenZ_app. reflexivity. Qed.

Lemma countZ_nonneg {A} (p : A -> bool) l : 0 <= countZ p l.
Proof. apply lenZ_nonneg. Qed.

Lemma countZ_repeat {A} (p : A -> bool) x n : countZ p (repeat x n) = if p x then Z.of_nat n else 0.
Proof.
  induction n as [|n IH]; [destruct (p x); reflexivity|].
  cbn [repeat]. rewrite countZ_cons, IH. destruct (p x); lia.
Qed.

Lemma countZ_colons (p : ielem -> bool) k : countZ p (colons k) = if p (ESlice colon) then Z.max 0 k else 0.
Proof. unfold colons. rewrite countZ_repeat. destruct (p (ESlice colon)); lia. Qed.

(* the test inside Indexing.consumed: [consumed] is [countZ is_consuming] by definition *)
Definition is_consuming (e : ielem) : bool := match e with EInt _ | ESlice _ => true | _ => false end.

(* every entry is None, consuming, or an Ellipsis *)
Lemma count_split idx :
  countZ not_none idx = consumed idx + countZ is_ellipsis idx /\
  lenZ idx = countZ is_none idx + countZ not_none idx.
Proof.
  change consumed with (countZ is_consuming). induction idx as [|e t [IH1 IH2]]; [split; reflexivity|].
  rewrite lenZ_cons, !countZ_cons. destruct e; cbn [not_none is_none is_ellipsis is_consuming negb]; lia.
Qed.

Lemma existsb_count idx : existsb is_ellipsis idx = (0 <? countZ is_ellipsis idx).
Proof.
  induction idx as [|e t IH]; [reflexivity|].
  cbn [existsb]. rewrite countZ_cons, IH. pose proof (countZ_nonneg is_ellipsis t).
  destruct (is_ellipsis e); cbn [orb]; lia.
Qed.

(* replace_ellipsis puts full slices in the place of the first Ellipsis, as NumPy's
   expansion does, with its own count of the axes to fill *)
Lemma replace_ellipsis_eq n idx :
  replace_ellipsis n idx = np_expand_at (colons (n - (lenZ idx - countZ is_none idx - 1))) idx.
Proof.
  unfold replace_ellipsis. cbv zeta. generalize (colons (n - (lenZ idx - countZ is_none idx - 1))) as fill.
  intros fill. induction idx as [|e t IH]; [reflexivity|].
  destruct e; cbn [split_first_ellipsis np_expand_at]; try reflexivity;
    rewrite <- IH; destruct (split_first_ellipsis t) as [[a b]|]; reflexivity.
Qed.

Lemma np_expand_at_id fill idx : existsb is_ellipsis idx = false -> np_expand_at fill idx = idx.
Proof.
  induction idx as [|e t IH]; [reflexivity|]. cbn [existsb]. intros H. apply orb_false_iff in H as [He Ht].
  destruct e; try discriminate; cbn [np_expand_at]; rewrite IH by exact Ht; reflexivity.
Qed.

(* what the expansion does to any count of entries: the first Ellipsis goes, the fill comes *)
Lemma countZ_np_expand_at p fill idx :
  countZ p (np_expand_at fill idx) =
  countZ p idx + (if existsb is_ellipsis idx then countZ p fill - (if p EEllipsis then 1 else 0) else 0).
Proof.
  induction idx as [|e t IH]; [reflexivity|].
  destruct e; cbn [np_expand_at existsb is_ellipsis orb].
  4: { (* the first Ellipsis: the fill stands in its place, the rest is kept *)
       rewrite countZ_app, countZ_cons. lia. }
  all: (* any other entry is kept and the expansion goes on behind it *)
    rewrite !countZ_cons, IH; destruct (existsb is_ellipsis t); lia.
Qed.

Theorem expand_is_np_expand rank idx :
  countZ is_ellipsis idx <= 1 -> consumed idx <= rank ->
  pad_index rank (replace_ellipsis rank idx) = np_expand rank idx.
Proof.
  intros He Hc. unfold pad_index, np_expand. rewrite replace_ellipsis_eq.
  pose proof (count_split idx) as [H1 H2]. pose proof (existsb_count idx) as Hx.
  destruct (existsb is_ellipsis idx) eqn:Ex.
  - replace (rank - (lenZ idx - countZ is_none idx - 1)) with (rank - consumed idx) by lia.
    rewrite countZ_np_expand_at, Ex, countZ_colons. cbn [not_none is_none negb].
    replace (rank - (countZ not_none idx + (Z.max 0 (rank - consumed idx) - 1))) with 0 by lia.
    apply app_nil_r.
  - pose proof (countZ_nonneg is_ellipsis idx). rewrite np_expand_at_id by exact Ex. f_equal. f_equal. lia.
Qed.

(* the expanded index has no Ellipsis and consumes every axis *)
Theorem np_expand_shape rank idx :
  countZ is_ellipsis idx <= 1 -> consumed idx <= rank ->
  existsb is_ellipsis (np_expand rank idx) = false /\
  consumed (np_expand rank idx) = rank /\
  countZ is_none (np_expand rank idx) = countZ is_none idx.
Proof.
  intros He Hc. unfold np_expand. rewrite existsb_count. change consumed with (countZ is_consuming) in *.
  pose proof (existsb_count idx) as Hx. pose proof (countZ_nonneg is_ellipsis idx).
  destruct (existsb is_ellipsis idx) eqn:Ex.
  - rewrite !countZ_np_expand_at, Ex, !countZ_colons. cbn [is_ellipsis is_consuming is_none]. lia.
  - rewrite !countZ_app, !countZ_colons. cbn [is_ellipsis is_consuming is_none]. lia.
Qed.

(* np_valid cut in two: the part check_all decides (every integer inside [-n, n) on its axis, no Ellipsis left) ... *)
Fixpoint ints_in_bounds (idx : list ielem) (shape : list Z) : Prop :=
  match idx with
  | [] => True
  | ENone :: t => ints_in_bounds t shape
  | EInt i :: t => match shape with n :: sh => - n <= i < n /\ ints_in_bounds t sh | [] => False end
  | ESlice _ :: t => match shape with _ :: sh => ints_in_bounds t sh | [] => False end
  | EEllipsis :: t => False
  end.

(* ... and the part has_zero_step decides *)
Fixpoint steps_nonzero (idx : list ielem) : Prop :=
  match idx with
  | [] => True
  | ESlice s :: t => step_of s <> 0 /\ steps_nonzero t
  | _ :: t => steps_nonzero t
  end.

Lemma np_valid_split idx : forall shape,
  np_valid idx shape <-> ints_in_bounds idx shape /\ steps_nonzero idx.
Proof.
  induction idx as [|e t IH]; intros shape; [cbn; tauto|].
  destruct e, shape as [|n sh]; cbn [np_valid ints_in_bounds steps_nonzero]; rewrite ?IH; tauto.
Qed.

Lemma check_int_spec n i : check_int n i = true <-> - n <= i < n.
Proof. unfold check_int. lia. Qed.

(* On an index that fits the shape the loop passes exactly when every integer is inside
   [-n, n) and no Ellipsis is left; an integer out of bounds raises IndexError, a
   leftover Ellipsis (a second one) TypeError, whichever comes first. *)
Lemma check_all_spec idx : forall shape,
  countZ not_none idx <= lenZ shape ->
  match check_all idx shape with
  | None => ints_in_bounds idx shape
  | Some e => ~ ints_in_bounds idx shape /\
              (e = NIndexError \/ e = NTypeError /\ existsb is_ellipsis idx = true)
  end.
Proof.
  induction idx as [|e t IH]; intros shape Hc; [exact I|].
  rewrite countZ_cons in Hc. pose proof (countZ_nonneg not_none t) as Hnn.
  destruct (is_none e) eqn:En.
  - destruct e; try discriminate. apply IH. cbn [not_none is_none negb] in Hc. lia.
  - replace (not_none e) with true in Hc by (unfold not_none; rewrite En; reflexivity).
    destruct shape as [|n sh]; [change (lenZ (@nil Z)) with 0 in Hc; lia|].
    rewrite lenZ_cons in Hc. specialize (IH sh ltac:(lia)).
    destruct e; try discriminate; cbn [check_all ints_in_bounds existsb is_ellipsis orb].
    + destruct (check_int n i) eqn:Ei.
      * apply check_int_spec in Ei. destruct (check_all t sh); tauto.
      * split; [|left; reflexivity]. intros [H _]. apply check_int_spec in H. congruence.
    + exact IH.
    + split; [exact (fun H => H) | right; split; reflexivity].
Qed.

Lemma ints_in_bounds_no_ellipsis idx : forall shape,
  ints_in_bounds idx shape -> existsb is_ellipsis idx = false.
Proof.
  induction idx as [|e t IH]; intros shape H; [reflexivity|].
  destruct e as [i|s| |]; cbn [ints_in_bounds] in H; cbn [existsb is_ellipsis orb].
  - destruct shape as [|n sh]; [contradiction|]. exact (IH sh (proj2 H)).
  - destruct shape as [|n sh]; [contradiction|]. exact (IH sh H).
  - exact (IH shape H).
  - contradiction.
Qed.

Lemma zero_step_test s : match s_step s with Some 0 => true | _ => false end = false <-> step_of s <> 0.
Proof.
  unfold step_of. destruct (s_step s) as [[|p|p]|]; [|split; [intros _; discriminate | reflexivity]..].
  split; [discriminate | intros H; exfalso; apply H; reflexivity].
Qed.

Lemma has_zero_step_spec idx : has_zero_step idx = false <-> steps_nonzero idx.
Proof.
  induction idx as [|e t IH]; [cbn; tauto|].
  destruct e; cbn [has_zero_step steps_nonzero]; try exact IH.
  rewrite orb_false_iff, IH, zero_step_test. reflexivity.
Qed.

Definition accepted (idx : list ielem) (shape : list Z) : Prop :=
  countZ is_ellipsis idx <= 1 /\ consumed idx <= lenZ shape /\
  np_valid (np_expand (lenZ shape) idx) shape.

Lemma replace_keeps_second_ellipsis rank idx :
  2 <= countZ is_ellipsis idx -> existsb is_ellipsis (pad_index rank (replace_ellipsis rank idx)) = true.
Proof.
  intros H. unfold pad_index.
  rewrite existsb_count, replace_ellipsis_eq, countZ_app, countZ_np_expand_at, existsb_count, !countZ_colons.
  replace (0 <? countZ is_ellipsis idx) with true by lia. cbn [is_ellipsis]. lia.
Qed.

Lemma replace_count_ge rank idx :
  consumed idx <= countZ not_none (pad_index rank (replace_ellipsis rank idx)).
Proof.
  unfold pad_index. rewrite replace_ellipsis_eq, countZ_app, countZ_np_expand_at, existsb_count.
  cbn [not_none is_none negb]. pose proof (count_split idx) as [H1 _]. pose proof (countZ_nonneg is_ellipsis idx).
  pose proof (countZ_nonneg not_none (colons (rank - (lenZ idx - countZ is_none idx - 1)))).
  match goal with |- _ <= _ + countZ not_none ?l => pose proof (countZ_nonneg not_none l) end.
  destruct (0 <? countZ is_ellipsis idx) eqn:E; lia.
Qed.

(* with at most one Ellipsis and no more entries than axes, normalize_index checks
   and normalizes NumPy's expansion of the index *)
Lemma normalize_index_expanded idx shape :
  countZ is_ellipsis idx <= 1 -> consumed idx <= lenZ shape ->
  let idx1 := np_expand (lenZ shape) idx in
  countZ not_none idx1 <= lenZ shape /\ existsb is_ellipsis idx1 = false /\
  normalize_index idx shape =
    match check_all idx1 shape with
    | Some err => err
    | None => if has_zero_step idx1 then NValueError else NOk (norm_entries idx1 shape)
    end.
Proof.
  intros He Hc idx1. unfold normalize_index. rewrite (expand_is_np_expand _ idx He Hc). fold idx1.
  destruct (np_expand_shape _ idx He Hc) as (Hx & Hcons & _). fold idx1 in Hx, Hcons.
  pose proof (count_split idx1) as [H1 _]. pose proof (countZ_nonneg is_ellipsis idx1) as H0.
  rewrite existsb_count in Hx.
  replace (countZ not_none idx1 >? lenZ shape) with false by lia.
  split; [lia|]. split; [rewrite existsb_count; exact Hx | reflexivity].
Qed.

Theorem normalize_index_ok idx shape idx' :
  normalize_index idx shape = NOk idx' ->
  accepted idx shape /\ idx' = norm_entries (np_expand (lenZ shape) idx) shape.
Proof.
  intros H.
  assert (countZ is_ellipsis idx <= 1 /\ consumed idx <= lenZ shape) as [He Hc].
  { revert H. unfold normalize_index. set (rank := lenZ shape).
    pose proof (replace_count_ge rank idx) as Hg.
    set (idx1 := pad_index rank (replace_ellipsis rank idx)) in *.
    destruct (countZ not_none idx1 >? rank) eqn:Hmany; [discriminate|]. intros H.
    split; [|lia]. destruct (Z_le_gt_dec (countZ is_ellipsis idx) 1) as [Hle|Hgt]; [exact Hle|].
    (* a second Ellipsis is still there when the loop runs *)
    pose proof (replace_keeps_second_ellipsis rank idx ltac:(lia)) as Hx. fold idx1 in Hx.
    pose proof (check_all_spec idx1 shape ltac:(lia)) as Hs.
    destruct (check_all idx1 shape) as [e|].
    - destruct Hs as [_ [-> | [-> _]]]; discriminate.
    - apply ints_in_bounds_no_ellipsis in Hs. congruence. }
  destruct (normalize_index_expanded idx shape He Hc) as (Hn & Hx & Heq). rewrite Heq in H.
  pose proof (check_all_spec _ shape Hn) as Hs.
  destruct (check_all (np_expand (lenZ shape) idx) shape) as [e|].
  { destruct Hs as [_ [-> | [-> _]]]; discriminate. }
  destruct (has_zero_step (np_expand (lenZ shape) idx)) eqn:Hz; [discriminate|].
  injection H as <-. split; [|reflexivity].
  split; [exact He|]. split; [exact Hc|].
  apply np_valid_split. split; [exact Hs|]. apply has_zero_step_spec. exact Hz.
Qed.

Theorem normalize_index_accepts idx shape :
  accepted idx shape ->
  normalize_index idx shape = NOk (norm_entries (np_expand (lenZ shape) idx) shape).
Proof.
  intros (He & Hc & Hv). apply np_valid_split in Hv as [Hb Hs].
  destruct (normalize_index_expanded idx shape He Hc) as (Hn & _ & ->).
  pose proof (check_all_spec _ shape Hn) as Hca.
  destruct (check_all (np_expand (lenZ shape) idx) shape); [destruct Hca; contradiction|].
  apply has_zero_step_spec in Hs. rewrite Hs. reflexivity.
Qed.

Theorem normalize_index_accepts_iff idx shape :
  (exists idx', normalize_index idx shape = NOk idx') <-> accepted idx shape.
Proof.
  split.
  - intros [idx' H]. exact (proj1 (normalize_index_ok _ _ _ H)).
  - intros H. eexists. apply normalize_index_accepts. exact H.
Qed.

(* more index entries than axes: IndexError, whatever else the index contains *)
Theorem too_many_indices_raise idx shape :
  lenZ shape < consumed idx -> normalize_index idx shape = NIndexError.
Proof.
  intros H. unfold normalize_index.
  pose proof (replace_count_ge (lenZ shape) idx) as Hg.
  assert (countZ not_none (pad_index (lenZ shape) (replace_ellipsis (lenZ shape) idx)) >? lenZ shape = true) as -> by lia.
  reflexivity.
Qed.

(* two or more Ellipsis: never accepted (IndexError for too many entries, else TypeError
   from comparing the leftover Ellipsis with an int, or IndexError from an earlier integer) *)
Theorem multiple_ellipsis_raise idx shape :
  2 <= countZ is_ellipsis idx -> forall idx', normalize_index idx shape <> NOk idx'.
Proof.
  intros H idx' Hn. apply normalize_index_ok in Hn as [(He & _) _]. lia.
Qed.

(* an integer outside [-n, n) on its axis: IndexError (never wrapped) *)
Theorem out_of_bounds_raises idx shape :
  countZ is_ellipsis idx <= 1 -> consumed idx <= lenZ shape ->
  ~ ints_in_bounds (np_expand (lenZ shape) idx) shape ->
  normalize_index idx shape = NIndexError.
Proof.
  intros He Hc Hb.
  destruct (normalize_index_expanded idx shape He Hc) as (Hn & Hx & ->).
  pose proof (check_all_spec _ shape Hn) as Hca.
  destruct (check_all (np_expand (lenZ shape) idx) shape); [|contradiction].
  destruct Hca as [_ [-> | [_ Hy]]]; [reflexivity | congruence].
Qed.

Corollary out_of_bounds_int_1d n i : ~ (- n <= i < n) -> normalize_index [EInt i] [n] = NIndexError.
Proof.
  intros H. apply out_of_bounds_raises.
  - rewrite countZ_cons, countZ_nil. cbn. lia.
  - change consumed with (countZ is_consuming). rewrite countZ_cons, countZ_nil. cbn. lia.
  - change (lenZ [n]) with 1. unfold np_expand. cbn [existsb is_ellipsis orb].
    change consumed with (countZ is_consuming). rewrite countZ_cons, countZ_nil. cbn [is_consuming]. change (colons (1 - (1 + 0))) with (@nil ielem).
    cbn [app ints_in_bounds]. tauto.
Qed.

Lemma posify_in_range n i : - n <= i < n -> 0 <= posify_int n i < n /\ posify_int n i = np_int_pos n i.
Proof. unfold posify_int, np_int_pos. intros H. destruct (i <? 0) eqn:E; lia. Qed.

Lemma np_int_pos_nonneg n p : 0 <= p -> np_int_pos n p = p.
Proof. unfold np_int_pos. intros H. destruct (p <? 0) eqn:E; lia. Qed.

Lemma norm_entries_meaning idx : forall shape,
  Forall (fun n => 0 <= n) shape -> np_valid idx shape ->
  np_meaning (norm_entries idx shape) shape = np_meaning idx shape.
Proof.
  induction idx as [|e t IH]; intros shape Hs Hv; [reflexivity|].
  destruct e; cbn [np_valid] in Hv.
  - destruct shape as [|n sh]; [contradiction|]. destruct Hv as [Hi Hv].
    inversion Hs as [|? ? Hn Hs']; subst.
    cbn [norm_entries np_meaning]. rewrite IH by assumption.
    destruct (posify_in_range n i Hi) as [Hr He]. rewrite np_int_pos_nonneg by lia. rewrite He. reflexivity.
  - destruct shape as [|n sh]; [contradiction|]. destruct Hv as [Hk Hv].
    inversion Hs as [|? ? Hn Hs']; subst.
    cbn [norm_entries np_meaning]. rewrite IH by assumption.
    rewrite normalize_slice_sel by assumption. reflexivity.
  - cbn [norm_entries np_meaning]. rewrite IH by assumption. reflexivity.
  - contradiction.
Qed.

Theorem normalize_index_meaning idx shape idx' :
  Forall (fun n => 0 <= n) shape ->
  normalize_index idx shape = NOk idx' ->
  np_meaning idx' shape = np_meaning (np_expand (lenZ shape) idx) shape.
Proof.
  intros Hs H. apply normalize_index_ok in H as [(He & Hc & Hv) ->].
  apply norm_entries_meaning; assumption.
Qed.

(* normal form: integers in [0, n), slices `normalized`, no Ellipsis, every axis consumed *)
Fixpoint index_normalized (idx : list ielem) (shape : list Z) : Prop :=
  match idx with
  | [] => shape = []
  | ENone :: t => index_normalized t shape
  | EInt i :: t => match shape with n :: sh => 0 <= i < n /\ index_normalized t sh | [] => False end
  | ESlice s :: t => match shape with n :: sh => normalized s n /\ index_normalized t sh | [] => False end
  | EEllipsis :: t => False
  end.

Lemma norm_entries_normalized idx : forall shape,
  Forall (fun n => 0 <= n) shape -> np_valid idx shape -> consumed idx = lenZ shape ->
  index_normalized (norm_entries idx shape) shape.
Proof.
  induction idx as [|e t IH]; intros shape Hs Hv Hc.
  - destruct shape as [|n sh]; [reflexivity|]. rewrite lenZ_cons in Hc. pose proof (lenZ_nonneg sh).
    change consumed with (countZ is_consuming) in Hc. rewrite countZ_nil in Hc. lia.
  - change consumed with (countZ is_consuming) in *. rewrite countZ_cons in Hc.
    destruct e; cbn [np_valid] in Hv; cbn [is_consuming] in Hc.
    + destruct shape as [|n sh]; [contradiction|]. destruct Hv as [Hi Hv].
      inversion Hs as [|? ? Hn Hs']; subst. rewrite lenZ_cons in Hc.
      cbn [norm_entries index_normalized]. split; [apply posify_in_range; exact Hi|].
      apply IH; [assumption | assumption | lia].
    + destruct shape as [|n sh]; [contradiction|]. destruct Hv as [Hk Hv].
      inversion Hs as [|? ? Hn Hs']; subst. rewrite lenZ_cons in Hc.
      cbn [norm_entries index_normalized]. split; [apply normalize_slice_normalized; assumption|].
      apply IH; [assumption | assumption | lia].
    + cbn [norm_entries index_normalized]. apply IH; [assumption | assumption | lia].
    + contradiction.
Qed.

Theorem normalize_index_normalized idx shape idx' :
  Forall (fun n => 0 <= n) shape ->
  normalize_index idx shape = NOk idx' -> index_normalized idx' shape.
Proof.
  intros Hs H. apply normalize_index_ok in H as [(He & Hc & Hv) ->].
  apply norm_entries_normalized; [assumption | assumption|].
  apply np_expand_shape; assumption.
Qed.

Definition takes_value (e : ielem) : bool := negb (is_none e) && negb (is_int e).

Lemma py_insert_at_end {A} (done rest : list A) v :
  py_insert (done ++ rest) (lenZ done) v = (done ++ [v]) ++ rest.
Proof.
  unfold py_insert. rewrite firstnZ_lenZ_app, skipnZ_lenZ_app, <- app_assoc. reflexivity.
Qed.

Lemma insert_axes_kept_view {A} (v : A) idx : forall pos nints (done vals : list A),
  lenZ done = pos - nints -> lenZ vals = countZ takes_value idx ->
  fold_left (fun acc ax => py_insert acc ax v) (where_none_from pos nints idx) (done ++ vals) =
  done ++ kept_view vals v idx.
Proof.
  induction idx as [|e t IH]; intros pos nints done vals Hd Hv.
  - rewrite countZ_nil in Hv. destruct vals as [|x vals]; [reflexivity|].
    rewrite lenZ_cons in Hv. pose proof (lenZ_nonneg vals). lia.
  - rewrite countZ_cons in Hv. pose proof (countZ_nonneg takes_value t) as Ht.
    destruct (takes_value e) eqn:Ee.
    + (* a slice (or leftover Ellipsis) takes the next value, which moves to [done] *)
      destruct vals as [|x vals]; [change (lenZ (@nil A)) with 0 in Hv; lia|].
      rewrite lenZ_cons in Hv.
      assert (where_none_from pos nints (e :: t) = where_none_from (pos + 1) nints t /\
              kept_view (x :: vals) v (e :: t) = x :: kept_view vals v t) as [-> ->]
        by (destruct e; try discriminate; split; reflexivity).
      replace (done ++ x :: vals) with ((done ++ [x]) ++ vals) by (rewrite <- app_assoc; reflexivity).
      rewrite IH; [rewrite <- app_assoc; reflexivity | rewrite lenZ_app; change (lenZ [x]) with 1; lia | lia].
    + destruct e; try discriminate; cbn [where_none_from kept_view fold_left].
      * apply IH; lia.
      * rewrite <- Hd, py_insert_at_end.
        rewrite IH; [rewrite <- app_assoc; reflexivity | rewrite lenZ_app; change (lenZ [v]) with 1; lia | lia].
Qed.

(* the axes recorded by slice_with_newaxes, applied by ExpandDims, put one new entry
   exactly where the index has a None (relative to the axes the slicing node keeps) *)
Theorem where_none_layout {A} (v : A) idx vals :
  lenZ vals = countZ takes_value idx ->
  insert_axes (where_none idx) vals v = kept_view vals v idx.
Proof.
  intros H. unfold insert_axes, where_none.
  exact (insert_axes_kept_view v idx 0 0 [] vals eq_refl H).
Qed.

Definition is_new (a : axis_act) : bool := match a with ANew => true | _ => false end.

(* stripping the None entries does not touch what is selected *)
Theorem strip_nones_meaning idx : forall shape,
  np_meaning (strip_nones idx) shape = filter (fun a => negb (is_new a)) (np_meaning idx shape).
Proof.
  induction idx as [|e t IH]; intros shape; [reflexivity|].
  destruct e; cbn [strip_nones filter not_none is_none negb np_meaning]; fold (strip_nones t).
  - destruct shape as [|n sh]; [reflexivity|]. cbn [filter is_new negb]. rewrite IH. reflexivity.
  - destruct shape as [|n sh]; [reflexivity|]. cbn [filter is_new negb]. rewrite IH. reflexivity.
  - cbn [filter is_new negb]. apply IH.
  - reflexivity.
Qed.

Lemma kept_view_map {A B} (f : A -> B) v idx : forall vals,
  map f (kept_view vals v idx) = kept_view (map f vals) (f v) idx.
Proof.
  induction idx as [|e t IH]; intros vals; [reflexivity|].
  destruct e; cbn [kept_view map]; try (rewrite IH; reflexivity);
    destruct vals as [|x vals]; cbn [map]; try rewrite IH; reflexivity.
Qed.

(* result shape: NumPy's shape = shape of the slicing node with 1 at every None *)
Lemma out_shape_kept_view idx : forall shape,
  index_normalized idx shape ->
  out_shape (np_meaning idx shape) = kept_view (out_shape (np_meaning (strip_nones idx) shape)) 1 idx.
Proof.
  induction idx as [|e t IH]; intros shape H; [reflexivity|].
  destruct e; cbn [index_normalized] in H.
  - destruct shape as [|n sh]; [contradiction|]. destruct H as [_ H].
    cbn [strip_nones filter not_none is_none negb np_meaning out_shape kept_view]. fold (strip_nones t). apply IH. exact H.
  - destruct shape as [|n sh]; [contradiction|]. destruct H as [_ H].
    cbn [strip_nones filter not_none is_none negb np_meaning out_shape kept_view]. fold (strip_nones t).
    rewrite IH by exact H. reflexivity.
  - cbn [strip_nones filter not_none is_none negb np_meaning out_shape kept_view]. fold (strip_nones t).
    rewrite IH by exact H. reflexivity.
  - contradiction.
Qed.
