(* Every step of a plan returned by plan_rechunk is a chunking of the
   array's shape, and the plan ends in the requested chunking. *)
From DA Require Import PyBase PyBaseFacts Rechunk RechunkBase.
Open Scope Z_scope.

Notation nonneg := (Forall (fun c : Z => 0 <= c)).

(* one axis: non-negative sizes, summing to n, at least one chunk *)
Definition axis_ok (n : Z) (cs : list Z) : Prop := nonneg cs /\ zsum cs = n /\ cs <> [].
Definition layout (shape : list Z) (cs : chunksN) : Prop := Forall2 axis_ok shape cs.

Lemma axis_ok_iff n cs :
  valid_chunks_b cs n && negb (match cs with [] => true | _ => false end) = true <-> axis_ok n cs.
Proof.
  unfold valid_chunks_b, axis_ok. rewrite !andb_true_iff, all_nonneg_iff, Z.eqb_eq.
  destruct cs; cbn [negb]; split; intros H; try tauto; try (intuition congruence).
Qed.

Lemma layout_ok_iff shape : forall cs, layout_ok shape cs = true <-> layout shape cs.
Proof.
  unfold layout_ok, layout.
  induction shape as [|n shape IH]; intros [|c cs]; cbn [length Nat.eqb combine forallb fst snd].
  - split; [constructor|reflexivity].
  - split; [discriminate|intros H; inversion H].
  - split; [discriminate|intros H; inversion H].
  - specialize (IH cs). rewrite andb_true_iff in IH.
    rewrite 2 andb_true_iff, axis_ok_iff. split.
    + intros (Hl & Ha & Hf). constructor; [exact Ha|]. apply IH. tauto.
    + intros H. inversion H as [|? ? ? ? Ha Hf]; subst. apply IH in Hf. tauto.
Qed.

Lemma layout_nthL shape : forall cs d,
  layout shape cs -> (d < length shape)%nat -> axis_ok (nth d shape 0) (nthL cs d).
Proof.
  unfold layout, nthL. induction shape as [|n shape IH]; intros cs d H Hd; [cbn in Hd; lia|].
  inversion H as [|? c ? cs' Ha Hf]; subst. destruct d as [|d]; cbn [nth]; [exact Ha|].
  apply IH; [exact Hf|cbn in Hd; lia].
Qed.

Lemma layout_set_nthL shape : forall cs d v,
  layout shape cs -> ((d < length shape)%nat -> axis_ok (nth d shape 0) v) ->
  layout shape (set_nthL cs d v).
Proof.
  unfold layout. induction shape as [|n shape IH]; intros cs d v H Hv.
  - inversion H; subst. cbn. constructor.
  - inversion H as [|? c ? cs' Ha Hf]; subst. destruct d as [|d]; cbn [set_nthL].
    + constructor; [|exact Hf]. apply Hv. cbn. lia.
    + constructor; [exact Ha|]. apply IH; [exact Hf|]. intros Hd. apply Hv. cbn. lia.
Qed.

Lemma nonneg_repeat x n : 0 <= x -> nonneg (repeat x n).
Proof. intros Hx. induction n; cbn [repeat]; constructor; assumption. Qed.

Lemma all_equal_repeat cs : all_equal cs = true -> cs = repeat (hd 0 cs) (length cs).
Proof.
  destruct cs as [|x t]; [reflexivity|]. cbn [all_equal hd length repeat]. intros H. f_equal.
  induction t as [|y t IH]; [reflexivity|]. cbn [forallb] in H. apply andb_true_iff in H.
  destruct H as [H1 H2]. apply Z.eqb_eq in H1. subst y. cbn [length repeat]. f_equal. exact (IH H2).
Qed.

Lemma zsum_zero_all_equal cs : nonneg cs -> zsum cs = 0 -> all_equal cs = true.
Proof.
  intros Hn Hs.
  assert (Forall (fun c => c = 0) cs) as Hz.
  { induction Hn as [|x t Hx Ht IH]; [constructor|]. cbn [zsum] in Hs.
    pose proof (zsum_nonneg t Ht). constructor; [lia|]. apply IH. lia. }
  destruct cs as [|x t]; [reflexivity|]. cbn [all_equal].
  inversion Hz as [|? ? Hx Ht]; subst. apply forallb_forall. intros y Hy.
  rewrite Forall_forall in Ht. specialize (Ht y Hy). lia.
Qed.

Lemma nonneg_filter (f : Z -> bool) l : nonneg l -> nonneg (filter f l).
Proof.
  intros H. rewrite Forall_forall in *. intros x Hx. apply filter_In in Hx. apply H. tauto.
Qed.

Lemma zmax_nonzero_sum_pos l : nonneg l -> zmax_list l <> 0 -> 0 < zsum l.
Proof.
  intros Hn. induction Hn as [|x t Hx Ht IH]; cbn [zmax_list fold_right zsum]; [lia|].
  fold (zmax_list t). intros H. pose proof (zsum_nonneg t Ht). pose proof (fold_max_nonneg t : 0 <= zmax_list t). lia.
Qed.

Lemma divide_one_sum nb : forall i c, zsum (divide_one c nb i) = match i with O => 0 | S _ => c end.
Proof.
  induction i as [|i IH]; intros c; [reflexivity|]. cbn [divide_one zsum]. rewrite IH.
  destruct i as [|i]; [|lia]. change (Z.of_nat 1) with 1. rewrite Z.div_1_r. lia.
Qed.

Lemma divide_one_nonneg nb : forall i c, 0 <= c -> nonneg (divide_one c nb i).
Proof.
  induction i as [|i IH]; intros c Hc; [constructor|]. cbn [divide_one].
  assert (0 < Z.of_nat (S i)) as Hi by lia.
  constructor; [apply Z.div_pos; lia|]. apply IH.
  pose proof (Z.div_le_upper_bound c (Z.of_nat (S i)) c Hi). nia.
Qed.

Lemma ceil_divZ_pos c w : 0 < w -> 0 < c -> 0 < ceil_divZ c w.
Proof.
  intros Hw Hc. unfold ceil_divZ. assert (- c / w < 0) by (apply Z.div_lt_upper_bound; lia). lia.
Qed.

Lemma divide_to_width_ok cs w r :
  divide_to_width cs w = Some r -> nonneg cs -> nonneg r /\ zsum r = zsum cs.
Proof.
  unfold divide_to_width. destruct (w <=? 0) eqn:Ew; [discriminate|]. intros H Hn.
  injection H as <-. induction Hn as [|c t Hc Ht IH]; [split; [constructor|reflexivity]|].
  cbn [map concat zsum]. destruct IH as [IH1 IH2]. split.
  - apply Forall_app. split; [apply divide_one_nonneg; exact Hc | exact IH1].
  - rewrite zsum_app, IH2, divide_one_sum. f_equal.
    destruct (Z.to_nat (ceil_divZ c w)) eqn:En; [|reflexivity].
    destruct (Z.eq_dec c 0) as [->|Hc0]; [reflexivity|]. pose proof (ceil_divZ_pos c w). lia.
Qed.

Lemma set_nth_length : forall l i v, length (set_nth l i v) = length l.
Proof. induction l as [|x t IH]; intros [|i] v; cbn [set_nth length]; auto. Qed.

Lemma zsum_set_nth : forall l i v, (i < length l)%nat -> zsum (set_nth l i v) = zsum l - nth i l 0 + v.
Proof.
  induction l as [|x t IH]; intros [|i] v Hi; cbn [length] in Hi; try lia; cbn [set_nth zsum nth]; [lia|].
  rewrite IH by lia. lia.
Qed.

Lemma nth_set_nth_other : forall l i j v, i <> j -> nth j (set_nth l i v) 0 = nth j l 0.
Proof.
  induction l as [|x t IH]; intros [|i] [|j] v Hij; cbn [set_nth nth]; try reflexivity; try congruence.
  apply IH. congruence.
Qed.

Lemma nonneg_set_nth : forall l i v, nonneg l -> 0 <= v -> nonneg (set_nth l i v).
Proof.
  induction l as [|x t IH]; intros [|i] v Hl Hv; cbn [set_nth]; try assumption;
    inversion Hl; subst; constructor; auto.
Qed.

Lemma nth_nonzero_lt l i : nth i l 0 <> 0 -> (i < length l)%nat.
Proof.
  intros H. destruct (Nat.lt_ge_cases i (length l)) as [Hi|Hi]; [exact Hi|].
  rewrite nth_overflow in H by exact Hi. congruence.
Qed.

(* heap entries of _merge_to_number are (width, i, j) with i < j *)
Definition entry_ok (e : heap_entry) : Prop := let '(_, i, j) := e in (i < j)%nat.

Lemma pop_min_forall (P : heap_entry -> Prop) : forall h e h',
  pop_min h = Some (e, h') -> Forall P h -> P e /\ Forall P h'.
Proof.
  induction h as [|x t IH]; intros e h' H Hf; cbn [pop_min] in H; [discriminate|].
  inversion Hf as [|? ? Hx Ht]; subst.
  destruct (pop_min t) as [[m rest]|] eqn:Ep.
  - destruct (IH _ _ eq_refl Ht) as [Hm Hrest].
    destruct (entry_lt m x); injection H as <- <-; split; auto.
  - injection H as <- <-. split; auto.
Qed.

Lemma next_nonzero_ge l : forall fuel j j', next_nonzero l j fuel = Some j' -> (j <= j')%nat.
Proof.
  induction fuel as [|f IH]; intros j j' H; cbn [next_nonzero] in H; [discriminate|].
  destruct (nth_error l j) as [v|]; [|discriminate].
  destruct (v =? 0).
  - apply IH in H. lia.
  - injection H as <-. lia.
Qed.

Lemma init_heap_ok : forall l i, Forall entry_ok (init_heap i l).
Proof.
  induction l as [|a t IH]; intros i; [constructor|].
  destruct t as [|b t']; [constructor|].
  change (init_heap i (a :: b :: t')) with ((a + b, i, S i) :: init_heap (S i) (b :: t')).
  constructor; [cbn; lia | apply IH].
Qed.

Lemma merge_loop_inv : forall fuel chunks heap nm r,
  nonneg chunks -> Forall entry_ok heap ->
  merge_loop fuel chunks heap nm = Some r -> nonneg r /\ zsum r = zsum chunks.
Proof.
  induction fuel as [|fuel IH]; intros chunks heap nm r Hn Hh H; cbn [merge_loop] in H.
  { destruct (nm <=? 0); [|discriminate]. injection H as <-. split; [exact Hn|reflexivity]. }
  destruct (nm <=? 0).
  { injection H as <-. split; [exact Hn|reflexivity]. }
  destruct (pop_min heap) as [[[[width i] j] heap']|] eqn:Ep; [|discriminate].
  destruct (pop_min_forall entry_ok _ _ _ Ep Hh) as [Hij Hh']. cbn in Hij.
  destruct (nth j chunks 0 =? 0) eqn:Ecj.
  { destruct (next_nonzero chunks (S j) (length chunks)) as [j'|] eqn:En; [|discriminate].
    apply next_nonzero_ge in En.
    eapply IH; [exact Hn| |exact H]. constructor; [cbn; lia|exact Hh']. }
  destruct (negb (nth i chunks 0 + nth j chunks 0 =? width)) eqn:Ew.
  { eapply IH; [exact Hn| |exact H]. constructor; [cbn; lia|exact Hh']. }
  destruct (nth i chunks 0 =? 0) eqn:Eci; [discriminate|].
  (* chunk i is emptied into chunk j; they differ as i < j in every heap entry *)
  apply IH in H.
  - destruct H as [H1 H2]. split; [exact H1|]. rewrite H2.
    rewrite zsum_set_nth by (rewrite set_nth_length; apply nth_nonzero_lt; lia).
    rewrite nth_set_nth_other by lia.
    rewrite zsum_set_nth by (apply nth_nonzero_lt; lia). lia.
  - pose proof (nth_nonneg chunks i Hn). pose proof (nth_nonneg chunks j Hn).
    apply nonneg_set_nth; [apply nonneg_set_nth; [exact Hn|lia]|lia].
  - exact Hh'.
Qed.

(* the arithmetic of the uniform fast path: n blocks of width w into k blocks *)
Lemma uniform_merge_arith n w k :
  0 < w -> 0 < k -> k < n ->
  let width := w * (n * w / k / w) in
  let adjust := (n * w - k * width) / w in
  0 <= adjust <= k /\ 0 <= width /\
  (width + w) * adjust + width * (k - adjust) = n * w.
Proof.
  intros Hw Hk Hn. cbv zeta.
  rewrite Z.div_div by lia.
  rewrite (Z.div_mul_cancel_r n k w) by lia.
  replace (n * w - k * (w * (n / k))) with ((n - k * (n / k)) * w) by ring.
  rewrite Z.div_mul by lia.
  pose proof (Z.div_mod n k ltac:(lia)) as Hdm.
  pose proof (Z.mod_pos_bound n k Hk) as Hmb.
  assert (0 <= n / k) by (apply Z.div_pos; lia).
  repeat split; nia.
Qed.

(* adjust blocks of width + w followed by k - adjust blocks of width *)
Lemma two_widths_ok width w adjust k :
  0 <= width -> 0 <= w -> 0 <= adjust <= k ->
  let r := repeat (width + w) (Z.to_nat adjust) ++ repeat width (Z.to_nat (k - adjust)) in
  nonneg r /\ zsum r = (width + w) * adjust + width * (k - adjust) /\ (0 < k -> r <> []).
Proof.
  intros Hwd Hw Ha r. unfold r. split; [|split].
  - apply Forall_app. split; apply nonneg_repeat; lia.
  - rewrite zsum_app, !zsum_repeat, !Z2Nat.id by lia. ring.
  - intros Hk Hnil. apply (f_equal (@length Z)) in Hnil.
    rewrite app_length, !repeat_length in Hnil. cbn [length] in Hnil. lia.
Qed.

Lemma merge_to_number_ok cs k r :
  merge_to_number cs k = Some r -> nonneg cs -> 0 <= k ->
  nonneg r /\ zsum r = zsum cs /\ (cs <> [] -> r <> []).
Proof.
  unfold merge_to_number, lenZ'. intros H Hn Hk0.
  destruct (Z.of_nat (length cs) <=? k) eqn:Elen.
  { (* already few enough *) injection H as <-. auto. }
  destruct (all_equal cs) eqn:Eeq.
  - (* uniform fast path *)
    destruct ((k =? 0) || (hd 0 cs =? 0)) eqn:Ez; [discriminate|].
    injection H as <-.
    assert (0 <= hd 0 cs) as Hw0 by (destruct Hn; [reflexivity|assumption]).
    destruct (uniform_merge_arith (Z.of_nat (length cs)) (hd 0 cs) k) as (Ha & Hwd & Hsum); [lia..|].
    destruct (two_widths_ok _ _ _ _ Hwd Hw0 Ha) as (Hr1 & Hr2 & Hr3).
    split; [exact Hr1|]. split; [|intros _; apply Hr3; lia].
    pose proof (f_equal zsum (all_equal_repeat cs Eeq)) as Hz. rewrite zsum_repeat in Hz.
    rewrite Hr2, Hsum, Hz. reflexivity.
  - (* heap merge *)
    destruct (k =? 0); [discriminate|].
    destruct (merge_loop _ cs _ _) as [r0|] eqn:Em; [|discriminate].
    injection H as <-.
    apply merge_loop_inv in Em; [|exact Hn|apply init_heap_ok]. destruct Em as [Hr0 Hs].
    split; [apply nonneg_filter; exact Hr0|]. split; [rewrite zsum_filter_nonzero; exact Hs|].
    intros _ Hnil.
    assert (zsum cs = 0) as Hz.
    { rewrite <- Hs, <- (zsum_filter_nonzero r0), Hnil. reflexivity. }
    rewrite (zsum_zero_all_equal cs Hn Hz) in Eeq. discriminate.
Qed.

Lemma merge_to_number_axis n cs k r :
  axis_ok n cs -> 0 <= k -> merge_to_number cs k = Some r -> axis_ok n r.
Proof.
  intros (Hnn & Hs & Hne) Hk Hm. destruct (merge_to_number_ok _ _ _ Hm Hnn Hk) as (Hr1 & Hr2 & Hr3).
  split; [exact Hr1|]. split; [congruence|exact (Hr3 Hne)].
Qed.

Lemma fm_loop_layout shape old new lnum lden :
  layout shape old -> layout shape new ->
  forall order chunks largest hit c l h, layout shape chunks ->
  fm_loop order old new chunks lnum lden largest hit = Some (c, l, h) -> layout shape c.
Proof.
  intros Ho Hn. induction order as [|dim rest IH]; intros chunks largest hit c l h Hc H; cbn [fm_loop] in H.
  { injection H as <- _ _. exact Hc. }
  destruct (_ <=? lnum).
  { eapply IH; [|exact H]. apply layout_set_nthL; [exact Hc|]. intros Hd. apply layout_nthL; assumption. }
  destruct (largest =? 0); [discriminate|].
  destruct (divide_to_width (nthL new dim) _) as [c'|] eqn:Ed; [|discriminate].
  destruct (lenZ' c' <=? lenZ' (nthL old dim)); [|eapply IH; eassumption].
  destruct (zmax_list (nthL old dim) =? 0) eqn:Eow; [discriminate|].
  eapply IH; [|exact H]. apply layout_set_nthL; [exact Hc|]. intros Hd.
  destruct (layout_nthL shape old dim Ho Hd) as (Ho1 & Ho2 & _).
  destruct (layout_nthL shape new dim Hn Hd) as (Hn1 & Hn2 & _).
  destruct (divide_to_width_ok _ _ _ Ed Hn1) as [Hc1 Hc2].
  pose proof (zmax_nonzero_sum_pos _ Ho1 ltac:(lia)) as Hpos.
  split; [exact Hc1|]. split; [lia|]. intros ->. cbn [zsum] in Hc2. lia.
Qed.

Lemma find_merge_layout shape order old new lnum lden chunks hit :
  layout shape old -> layout shape new ->
  find_merge_rechunk order old new lnum lden = Some (chunks, hit) -> layout shape chunks.
Proof.
  unfold find_merge_rechunk. intros Ho Hn H.
  destruct (negb _); [discriminate|].
  destruct (fm_loop _ _ _ _ _ _ _ _) as [[[c l] h]|] eqn:Ef; [|discriminate].
  destruct (_ && _); [|discriminate]. injection H as <- _.
  eapply fm_loop_layout; [exact Ho|exact Hn|exact Ho|exact Ef].
Qed.

Lemma fs_loop_layout shape old new limit :
  layout shape old -> layout shape new ->
  forall dims chunks r, layout shape chunks ->
  fs_loop dims old new chunks limit = Some r -> layout shape r.
Proof.
  intros Ho Hn. induction dims as [|dim rest IH]; intros chunks r Hc H; cbn [fs_loop] in H.
  { injection H as <-. exact Hc. }
  destruct (_ >? limit).
  { injection H as <-. exact Hc. }
  destruct (lenZ' (nthL old dim) >? lenZ' (nthL new dim)); [eapply IH; eassumption|].
  destruct (merge_to_number (nthL new dim) _) as [c|] eqn:Em; [|discriminate].
  destruct (lenZ' c >? _) eqn:Emax; [discriminate|].
  destruct ((lenZ' c >=? lenZ' (nthL old dim)) && _) eqn:Eacc; [|eapply IH; eassumption].
  eapply IH; [|exact H]. apply layout_set_nthL; [exact Hc|]. intros Hd.
  apply (merge_to_number_axis _ _ _ _ (layout_nthL shape new dim Hn Hd)) in Em; [exact Em|].
  unfold lenZ' in *. lia.
Qed.

Lemma find_split_layout shape old new limit r :
  layout shape old -> layout shape new ->
  find_split_rechunk old new limit = Some r -> layout shape r.
Proof. unfold find_split_rechunk. intros Ho Hn H. eapply fs_loop_layout; [exact Ho|exact Hn|exact Ho|exact H]. Qed.

Lemma bd_intermediate_layout : forall shape old new counts r rest,
  layout shape old -> layout shape new ->
  bd_intermediate old new counts = Some (r, rest) -> layout shape r.
Proof.
  unfold layout.
  induction shape as [|n shape IH]; intros old new counts r rest Ho Hn H.
  { inversion Ho; subst. cbn [bd_intermediate] in H. injection H as <- _. constructor. }
  inversion Ho as [|? oc ? old' Hoa Hof]; subst.
  inversion Hn as [|? nc ? new' Hna Hnf]; subst.
  cbn [bd_intermediate] in H.
  destruct (lenZ' oc =? lenZ' nc).
  - destruct (bd_intermediate old' new' counts) as [[r' cs']|] eqn:Eb; [|discriminate].
    injection H as <- _. constructor; [exact Hna|]. exact (IH _ _ _ _ _ Hof Hnf Eb).
  - destruct counts as [|count counts']; [discriminate|].
    destruct (merge_to_number _ _) as [m|] eqn:Em; [|discriminate].
    destruct (bd_intermediate old' new' counts') as [[r' cs']|] eqn:Eb; [|discriminate].
    injection H as <- _. constructor; [|exact (IH _ _ _ _ _ Hof Hnf Eb)].
    assert (0 <= Z.min (Z.max count (Z.min (lenZ' oc) (lenZ' nc))) (Z.max (lenZ' oc) (lenZ' nc))) as Hk
        by (unfold lenZ'; lia).
    destruct (lenZ' oc >? lenZ' nc); eapply merge_to_number_axis in Em; eassumption.
Qed.

Lemma plan_valid_iff shape new plan :
  plan_valid shape new plan = true <-> last_opt plan = Some new /\ forallb (layout_ok shape) plan = true.
Proof.
  unfold plan_valid. destruct (last_opt plan) as [l|]; [|split; [discriminate|intros [H _]; discriminate]].
  rewrite andb_true_iff, chunksN_eqb_eq. split; intros [H1 H2]; (split; [congruence|exact H2]).
Qed.

Theorem plan_valid_thm :
  forall orders oracle old new itemsize threshold bsl degree_limit plan shape,
    layout_ok shape old = true -> layout_ok shape new = true ->
    plan_rechunk orders oracle old new itemsize threshold bsl degree_limit = Some plan ->
    plan_valid shape new plan = true.
Proof.
  intros orders oracle old new itemsize threshold bsl degree_limit plan shape Ho Hn H.
  apply layout_ok_iff in Ho. apply layout_ok_iff in Hn.
  apply (plan_rechunk_forall (layout shape) (layout shape)) in H as [Hall [p' ->]]; try assumption.
  - apply plan_valid_iff. split; [apply last_opt_snoc|].
    apply forallb_forall. intros x Hx. apply layout_ok_iff. rewrite Forall_forall in Hall. exact (Hall x Hx).
  - intros cur limit c0 Hc. apply find_split_layout; assumption.
  - intros order c0 chunks hit Hc Hm. apply (find_merge_layout shape) in Hm; auto.
  - intros a b inter cs cs' Ha Hb Hi _. exact (bd_intermediate_layout _ _ _ _ _ _ Ha Hb Hi).
Qed.

(* FINDING (not reachable from plan_rechunk, whose callers clamp / assert
   max_number >= 1): for a negative max_number the uniform fast path of
   merge_to_number returns the empty layout, whose sum is wrong.  This is why
   merge_to_number_ok carries the hypothesis 0 <= k. *)
Example merge_to_number_negative_k : merge_to_number [1;1] (-1) = Some [].
Proof. vm_compute. reflexivity. Qed.

(* The hypotheses of plan_valid_thm are satisfiable on plans with >= 2 steps. *)
Example plan_valid_hyps_sat :
  let old := [[1;1;1;1;1;1;1;1];[8]] in
  let new := [[8];[1;1;1;1;1;1;1;1]] in
  let orders := [[0%nat];[0%nat];[0%nat];[0%nat]] in
  layout_ok [8;8] old = true /\ layout_ok [8;8] new = true /\
  plan_rechunk orders [] old new 1 1 16 100 = Some [[[2;2;2;2];[8]]; new] /\
  plan_rechunk orders [3;4;2;2;4;3;2;2;1;1] old new 1 1 16 2
  = Some [[[2;2;2;2];[8]]; [[2;2;2;2];[4;4]]; [[4;4];[2;2;2;2]]; new].
Proof. vm_compute. repeat split. Qed.
