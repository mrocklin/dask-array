(* Records.v — the generic Frisky RECORDS TRANSLATION (definitions only; stdlib + Graph.v).

   Python modelled:
     /repo/dask_array/_frisky/graph_records.py : _norm_key, _Flattener.resolve, _records,
                                                 GraphRecordsLayer.to_task_records
     /repo/dask_array/_frisky/collect.py       : _walk_records, _check_complete, collect_task_records

   A small compiler: the SOURCE language is dask's `_task_spec` node language (Alias / DataNode /
   Task / NestedContainer, nesting freely), the TARGET language is Frisky's flat records
   `(key, func, args, kwargs, deps)` whose args hold only `TaskRef`s, plain containers and
   literals.  `flatten` is the translation; RecordsFacts.v proves it correct.

   Abstractions (all of them checked or made explicit by harness/c21.py):
   * keys.  The implementation identifies a key with the STRING `str(_norm_key(key))`; the
     harness numbers the distinct strings, so a source key is a `positive` (Graph.key).
     A lifted sub-task key `f"{parent}-sub{N}"` is the pair `KSub parent N`.  That such a string
     never equals the string of a graph key is an ASSUMPTION (the harness reports a collision as
     a correspondence break).
   * functions, literal leaves, kwarg names and dict keys are opaque `tag`s (`positive`);
     `toolz.identity` is `ident_fn`.
   * `sorted(deps)` orders key STRINGS; the string order is an ORACLE `kle` (the harness passes the
     order of the real strings); every theorem holds for all `kle`.
   * raw Python containers.  `_Flattener.resolve` recurses into raw list / tuple / dict arguments;
     dask hands them over verbatim.  Both source semantics are defined (`aeval`, `aeval_dask`); they
     agree on `raw_ok` graphs, which the harness checks on every layer that takes the generic path.
   * frisky `Future`s cannot exist in the sandbox (`from frisky import Future` fails), so the
     Future branches of `_records` are not modelled.  The last branch of `_records` (a bare non-node
     value) is unreachable from `to_task_records` because `convert_legacy_graph` wraps every such
     value in a DataNode; it emits the same record as the DataNode branch. *)
From Coq Require Import List Bool Arith PArith.
From DA Require Import Graph.
Import ListNotations.

Definition tag := positive.
Definition ident_fn : tag := 1%positive.             (* toolz.identity *)

(* ------------------------------------------------------------------------- *)
(** * Target language: flat records *)

(* a record key: the string of a graph key, or "<parent>-sub<N>" *)
Inductive rkey := KG (k : key) | KSub (p : key) (n : nat).

Definition rkey_eqb (a b : rkey) : bool :=
  match a, b with
  | KG k, KG l => Pos.eqb k l
  | KSub p n, KSub q m => Pos.eqb p q && Nat.eqb n m
  | _, _ => false
  end.

Definition rkey_eq_dec : forall a b : rkey, {a = b} + {a <> b}.
Proof. decide equality; [apply Pos.eq_dec | apply Nat.eq_dec | apply Pos.eq_dec]. Defined.

Fixpoint rmem (k : rkey) (l : list rkey) : bool :=
  match l with [] => false | x :: t => rkey_eqb k x || rmem k t end.

(* what a record argument may be: a TaskRef, an opaque literal, a plain list / tuple / dict *)
Inductive targ :=
| TRef (k : rkey)
| TLit (t : tag)
| TList (l : list targ)
| TTuple (l : list targ)
| TDict (l : list (tag * targ)).

Record rec := mkrec {
  r_key : rkey; r_fn : tag; r_args : list targ; r_kwargs : list (tag * targ); r_deps : list rkey }.

(* the TaskRefs embedded in an argument, in traversal order (dict VALUES only, like
   Frisky's lower_dep_refs) *)
Fixpoint trefs (t : targ) : list rkey :=
  match t with
  | TRef k => [k]
  | TLit _ => []
  | TList l | TTuple l => (fix go (l : list targ) := match l with [] => [] | x :: r => trefs x ++ go r end) l
  | TDict l => (fix go (l : list (tag * targ)) :=
                  match l with [] => [] | (_, x) :: r => trefs x ++ go r end) l
  end.
Fixpoint trefs_list (l : list targ) : list rkey :=
  match l with [] => [] | x :: r => trefs x ++ trefs_list r end.
Fixpoint trefs_kw (l : list (tag * targ)) : list rkey :=
  match l with [] => [] | (_, x) :: r => trefs x ++ trefs_kw r end.

Definition rec_refs (r : rec) : list rkey := trefs_list (r_args r) ++ trefs_kw (r_kwargs r).

(* structural equality (specification-side checkers used by the harness) *)
Fixpoint glist_eqb2 {A} (eqb : A -> A -> bool) (a b : list A) : bool :=
  match a, b with
  | [], [] => true
  | x :: a', y :: b' => eqb x y && glist_eqb2 eqb a' b'
  | _, _ => false
  end.

Fixpoint targ_eqb (a b : targ) {struct a} : bool :=
  match a, b with
  | TRef k, TRef l => rkey_eqb k l
  | TLit s, TLit t => Pos.eqb s t
  | TList x, TList y | TTuple x, TTuple y =>
    (fix go (x y : list targ) {struct x} : bool :=
       match x, y with
       | [], [] => true
       | u :: x', v :: y' => targ_eqb u v && go x' y'
       | _, _ => false
       end) x y
  | TDict x, TDict y =>
    (fix go (x y : list (tag * targ)) {struct x} : bool :=
       match x, y with
       | [], [] => true
       | (j, u) :: x', (k, v) :: y' => Pos.eqb j k && targ_eqb u v && go x' y'
       | _, _ => false
       end) x y
  | _, _ => false
  end.

Definition rec_eqb (a b : rec) : bool :=
  rkey_eqb (r_key a) (r_key b) && Pos.eqb (r_fn a) (r_fn b) &&
  glist_eqb2 targ_eqb (r_args a) (r_args b) &&
  glist_eqb2 (fun x y => Pos.eqb (fst x) (fst y) && targ_eqb (snd x) (snd y)) (r_kwargs a) (r_kwargs b) &&
  glist_eqb2 rkey_eqb (r_deps a) (r_deps b).

Definition recs_eqb (a b : list rec) : bool := glist_eqb2 rec_eqb a b.

(* ------------------------------------------------------------------------- *)
(** * Source language: `_task_spec` nodes *)

(* the four ways a sequence can sit inside a node: NestedContainer with klass list / tuple
   (`List(...)`, `Tuple(...)`), or a raw Python list / tuple *)
Inductive seqkind := ContList | ContTuple | RawList | RawTuple.
Definition seq_is_list (s : seqkind) : bool :=
  match s with ContList | RawList => true | _ => false end.

(* anything that can occur as an argument of a Task, in the order `_Flattener.resolve` tests *)
Inductive arg :=
| ARef (k : key)                         (* TaskRef(key) *)
| AAlias (k : key)                       (* inline Alias(target) *)
| AData (v : targ)                       (* inline DataNode(value): the value, verbatim *)
| ASeq (s : seqkind) (items : list arg)  (* List/Tuple NestedContainer, raw list, raw tuple *)
| ATask (f : tag) (args : list arg) (kwargs : list (tag * arg))
                                         (* inline Task, incl. Dict/Set NestedContainers
                                            (func = to_container, kwargs = {constructor}) *)
| AOther                                 (* any other inline GraphNode: NotImplementedError *)
| ADict (items : list (tag * arg))       (* raw dict *)
| ALit (t : tag).                        (* anything else: passed through *)

(* what a graph key can be bound to *)
Inductive node :=
| NAlias (target : key)
| NData (v : targ)
| NCont (is_list : bool) (items : list arg)     (* NestedContainer, klass list / tuple *)
| NTask (f : tag) (args : list arg) (kwargs : list (tag * arg))
| NOther.                                       (* unhandled GraphNode: NotImplementedError *)

Definition sgraph := list (key * node).         (* the dict `dsk`, in insertion order *)

(* keys referenced anywhere inside (TaskRefs and Alias targets, also inside inline tasks) *)
Fixpoint arefs (a : arg) : list key :=
  match a with
  | ARef k | AAlias k => [k]
  | AData _ | AOther | ALit _ => []
  | ASeq _ items => (fix go (l : list arg) := match l with [] => [] | x :: r => arefs x ++ go r end) items
  | ATask _ args kwargs =>
    (fix go (l : list arg) := match l with [] => [] | x :: r => arefs x ++ go r end) args ++
    (fix go (l : list (tag * arg)) := match l with [] => [] | (_, x) :: r => arefs x ++ go r end) kwargs
  | ADict items =>
    (fix go (l : list (tag * arg)) := match l with [] => [] | (_, x) :: r => arefs x ++ go r end) items
  end.
Fixpoint arefs_list (l : list arg) : list key :=
  match l with [] => [] | x :: r => arefs x ++ arefs_list r end.
Fixpoint arefs_kw (l : list (tag * arg)) : list key :=
  match l with [] => [] | (_, x) :: r => arefs x ++ arefs_kw r end.

Definition nrefs (nd : node) : list key :=
  match nd with
  | NAlias t => [t]
  | NData _ | NOther => []
  | NCont _ items => arefs_list items
  | NTask _ args kwargs => arefs_list args ++ arefs_kw kwargs
  end.

(* the dependency graph of the source, in the vocabulary of Graph.v *)
Definition src_graph (g : sgraph) : graph := map (fun kn => (fst kn, nrefs (snd kn))) g.

(* no unhandled GraphNode anywhere (else the translation raises NotImplementedError) *)
Fixpoint supported_arg (a : arg) : bool :=
  match a with
  | ARef _ | AAlias _ | AData _ | ALit _ => true
  | AOther => false
  | ASeq _ items => (fix go (l : list arg) := match l with [] => true | x :: r => supported_arg x && go r end) items
  | ATask _ args kwargs =>
    (fix go (l : list arg) := match l with [] => true | x :: r => supported_arg x && go r end) args &&
    (fix go (l : list (tag * arg)) := match l with [] => true | (_, x) :: r => supported_arg x && go r end) kwargs
  | ADict items =>
    (fix go (l : list (tag * arg)) := match l with [] => true | (_, x) :: r => supported_arg x && go r end) items
  end.
Fixpoint supported_list (l : list arg) : bool :=
  match l with [] => true | x :: r => supported_arg x && supported_list r end.
Fixpoint supported_kw (l : list (tag * arg)) : bool :=
  match l with [] => true | (_, x) :: r => supported_arg x && supported_kw r end.
Definition supported_node (nd : node) : bool :=
  match nd with
  | NAlias _ | NData _ => true
  | NCont _ items => supported_list items
  | NTask _ args kwargs => supported_list args && supported_kw kwargs
  | NOther => false
  end.
Definition supported (g : sgraph) : bool := forallb (fun kn => supported_node (snd kn)) g.

(* DataNode values are DATA: they embed no TaskRef (dask hands the value over verbatim, while a
   records executor resolves every embedded TaskRef; the two readings agree only on ref-free
   data).  Checked by the harness on every real DataNode. *)
Definition tref_free (v : targ) : bool := match trefs v with [] => true | _ => false end.
Fixpoint data_ok_arg (a : arg) : bool :=
  match a with
  | ARef _ | AAlias _ | ALit _ | AOther => true
  | AData v => tref_free v
  | ASeq _ items => (fix go (l : list arg) := match l with [] => true | x :: r => data_ok_arg x && go r end) items
  | ATask _ args kwargs =>
    (fix go (l : list arg) := match l with [] => true | x :: r => data_ok_arg x && go r end) args &&
    (fix go (l : list (tag * arg)) := match l with [] => true | (_, x) :: r => data_ok_arg x && go r end) kwargs
  | ADict items =>
    (fix go (l : list (tag * arg)) := match l with [] => true | (_, x) :: r => data_ok_arg x && go r end) items
  end.
Fixpoint data_ok_list (l : list arg) : bool :=
  match l with [] => true | x :: r => data_ok_arg x && data_ok_list r end.
Fixpoint data_ok_kw (l : list (tag * arg)) : bool :=
  match l with [] => true | (_, x) :: r => data_ok_arg x && data_ok_kw r end.
Definition data_ok_node (nd : node) : bool :=
  match nd with
  | NAlias _ | NOther => true
  | NData v => tref_free v
  | NCont _ items => data_ok_list items
  | NTask _ args kwargs => data_ok_list args && data_ok_kw kwargs
  end.
Definition data_ok (g : sgraph) : bool := forallb (fun kn => data_ok_node (snd kn)) g.

(* RAW Python containers (list / tuple / dict that are NOT NestedContainers) are DATA for dask:
   `Task.__call__` hands them over verbatim, a GraphNode or TaskRef inside stays an object, whereas
   `_Flattener.resolve` (and Frisky's lower_dep_refs) recurse into them.  The two readings agree
   when raw containers hold only literals and raw containers: *)
Definition seq_is_raw (s : seqkind) : bool := match s with RawList | RawTuple => true | _ => false end.
Fixpoint raw_lit (a : arg) : bool :=
  match a with
  | ALit _ => true
  | ASeq s items =>
    seq_is_raw s && (fix go (l : list arg) := match l with [] => true | x :: r => raw_lit x && go r end) items
  | ADict items => (fix go (l : list (tag * arg)) := match l with [] => true | (_, x) :: r => raw_lit x && go r end) items
  | _ => false
  end.
Fixpoint raw_lit_list (l : list arg) : bool :=
  match l with [] => true | x :: r => raw_lit x && raw_lit_list r end.
Fixpoint raw_lit_kw (l : list (tag * arg)) : bool :=
  match l with [] => true | (_, x) :: r => raw_lit x && raw_lit_kw r end.
Fixpoint raw_ok_arg (a : arg) : bool :=
  match a with
  | ARef _ | AAlias _ | AData _ | AOther | ALit _ => true
  | ASeq s items =>
    if seq_is_raw s then raw_lit_list items
    else (fix go (l : list arg) := match l with [] => true | x :: r => raw_ok_arg x && go r end) items
  | ATask _ args kwargs =>
    (fix go (l : list arg) := match l with [] => true | x :: r => raw_ok_arg x && go r end) args &&
    (fix go (l : list (tag * arg)) := match l with [] => true | (_, x) :: r => raw_ok_arg x && go r end) kwargs
  | ADict items => raw_lit_kw items
  end.
Fixpoint raw_ok_list (l : list arg) : bool :=
  match l with [] => true | x :: r => raw_ok_arg x && raw_ok_list r end.
Fixpoint raw_ok_kw (l : list (tag * arg)) : bool :=
  match l with [] => true | (_, x) :: r => raw_ok_arg x && raw_ok_kw r end.
Definition raw_ok_node (nd : node) : bool :=
  match nd with
  | NAlias _ | NData _ | NOther => true
  | NCont _ items => raw_ok_list items
  | NTask _ args kwargs => raw_ok_list args && raw_ok_kw kwargs
  end.
Definition raw_ok (g : sgraph) : bool := forallb (fun kn => raw_ok_node (snd kn)) g.

(* ------------------------------------------------------------------------- *)
(** * The translation *)

Section Flatten.
  (* ORACLE: the order of the key strings (`sorted(deps)` sorts `str`s) *)
  Variable kle : rkey -> rkey -> bool.

  Fixpoint insert_key (x : rkey) (l : list rkey) : list rkey :=
    match l with
    | [] => [x]
    | y :: t => if kle x y then x :: l else y :: insert_key x t
    end.
  Definition sort_keys (l : list rkey) : list rkey := fold_right insert_key [] l.

  (* `sorted(deps)` for the SET `deps` into which the list `ds` was added *)
  Definition sorted_deps (ds : list rkey) : list rkey := sort_keys (nodup rkey_eq_dec ds).

  (* _Flattener.resolve(arg, deps) for the flattener of parent key p.
     State threaded: n = self._n, the records appended to self.extra (returned in append order).
     Result: (resolved argument, keys added to `deps` in order, new self._n, appended records). *)
  Fixpoint resolve (p : key) (a : arg) (n : nat) {struct a} : targ * list rkey * nat * list rec :=
    let rlist :=
      fix rlist (l : list arg) (n : nat) {struct l} : list targ * list rkey * nat * list rec :=
        match l with
        | [] => ([], [], n, [])
        | x :: t =>
          let '(tx, dx, n1, e1) := resolve p x n in
          let '(tr, dt, n2, e2) := rlist t n1 in
          (tx :: tr, dx ++ dt, n2, e1 ++ e2)
        end in
    let rkw :=
      fix rkw (l : list (tag * arg)) (n : nat) {struct l} : list (tag * targ) * list rkey * nat * list rec :=
        match l with
        | [] => ([], [], n, [])
        | (k, x) :: t =>
          let '(tx, dx, n1, e1) := resolve p x n in
          let '(tr, dt, n2, e2) := rkw t n1 in
          ((k, tx) :: tr, dx ++ dt, n2, e1 ++ e2)
        end in
    match a with
    | ARef k => (TRef (KG k), [KG k], n, [])                 (* deps.add(str(k)); TaskRef(k) *)
    | AAlias k => (TRef (KG k), [KG k], n, [])               (* same for an inline Alias *)
    | AData v => (v, [], n, [])                              (* arg.value *)
    | ASeq s items =>                                        (* klass(resolve(a) for a in arg.args) / raw list, tuple *)
      let '(ts, ds, n1, e1) := rlist items n in
      ((if seq_is_list s then TList ts else TTuple ts), ds, n1, e1)
    | ATask f args kwargs =>
      let n0 := S n in                                       (* self._n += 1 *)
      let sub := KSub p n0 in                                (* f"{parent_key}-sub{self._n}" *)
      let '(ta, d1, n1, e1) := rlist args n0 in              (* sub_args, into the fresh sub_deps *)
      let '(tk, d2, n2, e2) := rkw kwargs n1 in              (* sub_kwargs *)
      (TRef sub, [sub], n2,                                  (* deps.add(sub_key); TaskRef(sub_key) *)
       e1 ++ e2 ++ [mkrec sub f ta tk (sorted_deps (d1 ++ d2))])   (* self.extra.append(...) AFTER the sub-arguments *)
    | AOther => (TLit 1%positive, [], n, [])                 (* raises; see flatten_opt *)
    | ADict items =>
      let '(tk, ds, n1, e1) := rkw items n in (TDict tk, ds, n1, e1)
    | ALit t => (TLit t, [], n, [])
    end.

  Definition resolve_list (p : key) :=
    fix rlist (l : list arg) (n : nat) {struct l} : list targ * list rkey * nat * list rec :=
      match l with
      | [] => ([], [], n, [])
      | x :: t =>
        let '(tx, dx, n1, e1) := resolve p x n in
        let '(tr, dt, n2, e2) := rlist t n1 in
        (tx :: tr, dx ++ dt, n2, e1 ++ e2)
      end.
  Definition resolve_kw (p : key) :=
    fix rkw (l : list (tag * arg)) (n : nat) {struct l} : list (tag * targ) * list rkey * nat * list rec :=
      match l with
      | [] => ([], [], n, [])
      | (k, x) :: t =>
        let '(tx, dx, n1, e1) := resolve p x n in
        let '(tr, dt, n2, e2) := rkw t n1 in
        ((k, tx) :: tr, dx ++ dt, n2, e1 ++ e2)
      end.

  (* _records(key, node) *)
  Definition records (k : key) (nd : node) : list rec :=
    match nd with
    | NAlias t =>
      if Pos.eqb t k then []                                  (* self-alias: no record *)
      else [mkrec (KG k) ident_fn [TRef (KG t)] [] [KG t]]
    | NData v => [mkrec (KG k) ident_fn [v] [] []]
    | NCont b items =>
      let '(t, ds, _, ex) := resolve k (ASeq (if b then ContList else ContTuple) items) 0 in
      mkrec (KG k) ident_fn [t] [] (sorted_deps ds) :: ex
    | NTask f args kwargs =>
      let '(ta, d1, n1, e1) := resolve_list k args 0 in
      let '(tk, d2, _, e2) := resolve_kw k kwargs n1 in
      mkrec (KG k) f ta tk (sorted_deps (d1 ++ d2)) :: e1 ++ e2
    | NOther => []                                            (* raises; see flatten_opt *)
    end.

  (* GraphRecordsLayer.to_task_records, after convert_legacy_graph:
       [rec for key, node in dsk.items() for rec in _records(key, node)] *)
  Definition flatten (g : sgraph) : list rec := flat_map (fun kn => records (fst kn) (snd kn)) g.

  (* ... or NotImplementedError *)
  Definition flatten_opt (g : sgraph) : option (list rec) :=
    if supported g then Some (flatten g) else None.

  (* ----------------------------------------------------------------------- *)
  (** * _check_complete *)

  Definition produced (rs : list rec) : list rkey := map r_key rs.
  Definition dangling (rs : list rec) : list rkey :=
    filter (fun d => negb (rmem d (produced rs))) (flat_map r_deps rs).
  Definition check_complete (rs : list rec) : bool :=
    match dangling rs with [] => true | _ :: _ => false end.

  (* ----------------------------------------------------------------------- *)
  (** * _walk_records / collect_task_records over a DAG of expression nodes *)

  (* one lowered expression node: its `_name`, its (converted) `_layer()` graph and the
     `_name`s of `dependencies()` *)
  Record lnode := mklnode { ln_name : positive; ln_graph : sgraph; ln_deps : list positive }.
  Definition dag := list lnode.

  Fixpoint find_layer (d : dag) (nm : positive) : option lnode :=
    match d with
    | [] => None
    | ln :: t => if Pos.eqb (ln_name ln) nm then Some ln else find_layer t nm
    end.
  Definition deps_of (d : dag) (nm : positive) : list positive :=
    match find_layer d nm with Some ln => ln_deps ln | None => [] end.
  Definition graph_of (d : dag) (nm : positive) : sgraph :=
    match find_layer d nm with Some ln => ln_graph ln | None => [] end.

  (* the `while stack:` loop of _walk_records.  The stack is kept with its TOP FIRST
     (`stack.pop()` = head; `stack.extend(ds)` = `rev ds ++ stack`).  Returns the final `seen`
     and the names whose records were appended, in order.  None = fuel exhausted. *)
  Fixpoint walk_loop (fuel : nat) (d : dag) (stack seen emitted : list positive)
    : option (list positive * list positive) :=
    match stack with
    | [] => Some (seen, emitted)
    | e :: rest =>
      match fuel with
      | O => None
      | S f =>
        if mem_b e seen then walk_loop f d rest seen emitted
        else walk_loop f d (rev (deps_of d e) ++ rest) (e :: seen) (emitted ++ [e])
      end
    end.

  Definition total_deps (d : dag) : nat := fold_right (fun ln acc => length (ln_deps ln) + acc) 0 d.
  Definition walk_fuel (d : dag) (stack : list positive) : nat := S (length stack + total_deps d).

  (* _walk_records(roots, seen, records): stack = list(roots) *)
  Definition walk (d : dag) (roots seen : list positive) : option (list positive * list positive) :=
    walk_loop (walk_fuel d (rev roots)) d (rev roots) seen [].

  (* the records appended for the emitted names; None when a layer declines *)
  Definition layer_records (d : dag) (nm : positive) : list rec := flatten (graph_of d nm).
  Definition emitted_records (d : dag) (emitted : list positive) : option (list rec) :=
    if forallb (fun nm => supported (graph_of d nm)) emitted
    then Some (flat_map (layer_records d) emitted) else None.

  (* collect_task_records(collection, seen): seen = None -> fresh set + completeness check;
     a shared set -> only this collection's contribution, no check.
     Result: (the updated seen set, the records) or None = NotImplementedError *)
  Definition collect (d : dag) (root : positive) (seen : option (list positive))
    : option (list positive * list rec) :=
    let shared := match seen with Some _ => true | None => false end in
    let seen0 := match seen with Some s => s | None => [] end in
    match walk d [root] seen0 with
    | None => None
    | Some (seen1, emitted) =>
      match emitted_records d emitted with
      | None => None
      | Some rs => if shared || check_complete rs then Some (seen1, rs) else None
      end
    end.

  (* several collections walked with one shared `seen` (dask.compute(x, y, ...)) *)
  Fixpoint collect_shared (d : dag) (roots : list positive) (seen : list positive)
    : option (list positive * list rec) :=
    match roots with
    | [] => Some (seen, [])
    | r :: t =>
      match collect d r (Some seen) with
      | None => None
      | Some (seen1, rs1) =>
        match collect_shared d t seen1 with
        | None => None
        | Some (seen2, rs2) => Some (seen2, rs1 ++ rs2)
        end
      end
    end.
End Flatten.

(* ------------------------------------------------------------------------- *)
(** * Semantics *)

Section Sem.
  Variable V : Type.                                             (* block values, abstract *)
  Variable apply : tag -> list V -> list (tag * V) -> V.         (* the call  func args kwargs *)
  Variable vlit : tag -> V.                                      (* the value of a literal *)
  Variable vlist vtuple : list V -> V.                           (* list(...) / tuple(...) of values *)
  Variable vdict : list (tag * V) -> V.

  (* value of a record argument once every TaskRef is replaced by the value in the store *)
  Fixpoint teval (s : rkey -> option V) (t : targ) {struct t} : option V :=
    let tl := fix tl (l : list targ) : option (list V) :=
      match l with
      | [] => Some []
      | x :: r => match teval s x, tl r with Some v, Some vs => Some (v :: vs) | _, _ => None end
      end in
    match t with
    | TRef k => s k
    | TLit t => Some (vlit t)
    | TList l => option_map vlist (tl l)
    | TTuple l => option_map vtuple (tl l)
    | TDict l =>
      option_map vdict
        ((fix tk (l : list (tag * targ)) : option (list (tag * V)) :=
            match l with
            | [] => Some []
            | (k, x) :: r => match teval s x, tk r with Some v, Some vs => Some ((k, v) :: vs) | _, _ => None end
            end) l)
    end.
  Fixpoint teval_list (s : rkey -> option V) (l : list targ) : option (list V) :=
    match l with
    | [] => Some []
    | x :: r => match teval s x, teval_list s r with Some v, Some vs => Some (v :: vs) | _, _ => None end
    end.
  Fixpoint teval_kw (s : rkey -> option V) (l : list (tag * targ)) : option (list (tag * V)) :=
    match l with
    | [] => Some []
    | (k, x) :: r => match teval s x, teval_kw s r with Some v, Some vs => Some ((k, v) :: vs) | _, _ => None end
    end.

  (* what a records executor computes for one record (None: a referenced key has no value) *)
  Definition rec_eval (s : rkey -> option V) (r : rec) : option V :=
    match teval_list s (r_args r), teval_kw s (r_kwargs r) with
    | Some vs, Some kvs => Some (apply (r_fn r) vs kvs)
    | _, _ => None
    end.

  Definition no_refs : rkey -> option V := fun _ => None.

  (* SOURCE semantics: inline nodes are evaluated recursively (dask's Task.__call__).  This version
     also looks INTO raw containers (as the translation does); `aeval_dask` below does not, and the
     two agree on `raw_ok` graphs (RecordsFacts.aeval_dask_eq). *)
  Fixpoint aeval (s : key -> option V) (a : arg) {struct a} : option V :=
    let al := fix al (l : list arg) : option (list V) :=
      match l with
      | [] => Some []
      | x :: r => match aeval s x, al r with Some v, Some vs => Some (v :: vs) | _, _ => None end
      end in
    let ak := fix ak (l : list (tag * arg)) : option (list (tag * V)) :=
      match l with
      | [] => Some []
      | (k, x) :: r => match aeval s x, ak r with Some v, Some vs => Some ((k, v) :: vs) | _, _ => None end
      end in
    match a with
    | ARef k | AAlias k => s k
    | AData v => teval no_refs v
    | ASeq sk items => option_map (if seq_is_list sk then vlist else vtuple) (al items)
    | ATask f args kwargs =>
      match al args, ak kwargs with Some vs, Some kvs => Some (apply f vs kvs) | _, _ => None end
    | AOther => None
    | ADict items => option_map vdict (ak items)
    | ALit t => Some (vlit t)
    end.
  Fixpoint aeval_list (s : key -> option V) (l : list arg) : option (list V) :=
    match l with
    | [] => Some []
    | x :: r => match aeval s x, aeval_list s r with Some v, Some vs => Some (v :: vs) | _, _ => None end
    end.
  Fixpoint aeval_kw (s : key -> option V) (l : list (tag * arg)) : option (list (tag * V)) :=
    match l with
    | [] => Some []
    | (k, x) :: r => match aeval s x, aeval_kw s r with Some v, Some vs => Some ((k, v) :: vs) | _, _ => None end
    end.

  Definition neval (s : key -> option V) (nd : node) : option V :=
    match nd with
    | NAlias t => s t
    | NData v => teval no_refs v
    | NCont b items => option_map (if b then vlist else vtuple) (aeval_list s items)
    | NTask f args kwargs =>
      match aeval_list s args, aeval_kw s kwargs with Some vs, Some kvs => Some (apply f vs kvs) | _, _ => None end
    | NOther => None
    end.

  (* DASK's reading of raw containers: data, handed over verbatim; a GraphNode / TaskRef object
     inside is just an object, whose value as data is `vquote` of it *)
  Variable vquote : arg -> V.
  Fixpoint rawval (a : arg) {struct a} : V :=
    match a with
    | ALit t => vlit t
    | ASeq s items =>
      if seq_is_raw s
      then (if seq_is_list s then vlist else vtuple)
             ((fix go (l : list arg) : list V := match l with [] => [] | x :: r => rawval x :: go r end) items)
      else vquote a
    | ADict items =>
      vdict ((fix go (l : list (tag * arg)) : list (tag * V) :=
                match l with [] => [] | (k, x) :: r => (k, rawval x) :: go r end) items)
    | _ => vquote a
    end.
  Fixpoint aeval_dask (s : key -> option V) (a : arg) {struct a} : option V :=
    let al := fix al (l : list arg) : option (list V) :=
      match l with
      | [] => Some []
      | x :: r => match aeval_dask s x, al r with Some v, Some vs => Some (v :: vs) | _, _ => None end
      end in
    let ak := fix ak (l : list (tag * arg)) : option (list (tag * V)) :=
      match l with
      | [] => Some []
      | (k, x) :: r => match aeval_dask s x, ak r with Some v, Some vs => Some ((k, v) :: vs) | _, _ => None end
      end in
    match a with
    | ARef k | AAlias k => s k
    | AData v => teval no_refs v
    | ASeq sk items =>
      if seq_is_raw sk then Some (rawval a)
      else option_map (if seq_is_list sk then vlist else vtuple) (al items)
    | ATask f args kwargs =>
      match al args, ak kwargs with Some vs, Some kvs => Some (apply f vs kvs) | _, _ => None end
    | AOther => None
    | ADict items => Some (rawval a)
    | ALit t => Some (vlit t)
    end.
  Fixpoint aeval_dask_list (s : key -> option V) (l : list arg) : option (list V) :=
    match l with
    | [] => Some []
    | x :: r => match aeval_dask s x, aeval_dask_list s r with Some v, Some vs => Some (v :: vs) | _, _ => None end
    end.
  Fixpoint aeval_dask_kw (s : key -> option V) (l : list (tag * arg)) : option (list (tag * V)) :=
    match l with
    | [] => Some []
    | (k, x) :: r => match aeval_dask s x, aeval_dask_kw s r with Some v, Some vs => Some ((k, v) :: vs) | _, _ => None end
    end.
  Definition neval_dask (s : key -> option V) (nd : node) : option V :=
    match nd with
    | NAlias t => s t
    | NData v => teval no_refs v
    | NCont b items => option_map (if b then vlist else vtuple) (aeval_dask_list s items)
    | NTask f args kwargs =>
      match aeval_dask_list s args, aeval_dask_kw s kwargs with
      | Some vs, Some kvs => Some (apply f vs kvs) | _, _ => None end
    | NOther => None
    end.

  (* running a graph: the keys of `order` one after the other, each from the store so far *)
  Definition supd {A} (eqb : A -> A -> bool) (s : A -> option V) (k : A) (v : option V) : A -> option V :=
    fun k' => if eqb k' k then v else s k'.

  Fixpoint find_node (g : sgraph) (k : key) : option node :=
    match g with [] => None | (k', nd) :: t => if Pos.eqb k' k then Some nd else find_node t k end.
  Definition src_step (g : sgraph) (s : key -> option V) (k : key) : key -> option V :=
    match find_node g k with Some nd => supd Pos.eqb s k (neval s nd) | None => s end.
  Definition src_run (g : sgraph) (order : list key) : key -> option V :=
    fold_left (src_step g) order (fun _ => None).

  Definition src_step_dask (g : sgraph) (s : key -> option V) (k : key) : key -> option V :=
    match find_node g k with Some nd => supd Pos.eqb s k (neval_dask s nd) | None => s end.
  Definition src_run_dask (g : sgraph) (order : list key) : key -> option V :=
    fold_left (src_step_dask g) order (fun _ => None).

  Fixpoint find_rec (rs : list rec) (k : rkey) : option rec :=
    match rs with [] => None | r :: t => if rkey_eqb (r_key r) k then Some r else find_rec t k end.
  Definition rec_step (rs : list rec) (s : rkey -> option V) (k : rkey) : rkey -> option V :=
    match find_rec rs k with Some r => supd rkey_eqb s k (rec_eval s r) | None => s end.
  Definition rec_run (rs : list rec) (order : list rkey) : rkey -> option V :=
    fold_left (rec_step rs) order (fun _ => None).
End Sem.

(* the DECLARED dependency graph of a list of records, and its topological orders
   (same shape as Graph.topological, over record keys) *)
Definition rec_graph (rs : list rec) : list (rkey * list rkey) := map (fun r => (r_key r, r_deps r)) rs.
Definition rtopological (dg : list (rkey * list rkey)) (order : list rkey) : Prop :=
  NoDup order /\
  (forall k, In k order <-> In k (map fst dg)) /\
  (forall pre k post ds, order = pre ++ k :: post -> In (k, ds) dg -> incl ds pre).

(* a topological order of the records built from one of the source: the lifted sub-tasks of a
   key (in the order they were appended) right before the key itself *)
Definition flat_order (kle : rkey -> rkey -> bool) (g : sgraph) (order : list key) : list rkey :=
  flat_map (fun k => match find_node g k with
                     | Some nd => match records kle k nd with
                                  | [] => []
                                  | m :: ex => map r_key ex ++ [r_key m]
                                  end
                     | None => []
                     end) order.

Definition no_self_alias (g : sgraph) : Prop := forall k, ~ In (k, NAlias k) g.
Definition no_self_alias_b (g : sgraph) : bool :=
  forallb (fun kn => match snd kn with NAlias t => negb (Pos.eqb t (fst kn)) | _ => true end) g.
