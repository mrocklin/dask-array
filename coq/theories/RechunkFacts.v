(* The planner and crosswalk theorems about Rechunk.v put together: the end-to-end corollaries, and
   the assumptions of every main theorem. *)
From DA Require Export PyBase PyBaseFacts Rechunk RechunkBase RechunkBudget RechunkValid
                       CrosswalkFacts IntersectFacts.
Open Scope Z_scope.

(* crosswalk_sound of the computed crosswalk: intersect_1d in terms of positions *)
Theorem intersect_1d_spec old new :
  nonneg old -> nonneg new -> old <> [] -> zsum old = zsum new ->
  length (intersect_1d old new) = length new /\
  forall j pieces, nth_error (intersect_1d old new) j = Some pieces ->
    pieces <> [] /\
    Forall (piece_in_bounds old) pieces /\
    concat (map (piece_positions old) pieces) = seqZ (cum new j) (cum new (S j)).
Proof.
  intros Ho Hn Hne Hs. apply crosswalk_sound. apply intersect_1d_ok_section; assumption.
Qed.

(* old_to_new on two chunkings of the same shape: every axis passes the checker *)
Theorem old_to_new_ok shape : forall old new,
  layout_ok shape old = true -> layout_ok shape new = true ->
  Forall2 (fun on cw => crosswalk_ok (fst on) (snd on) cw = true) (combine old new) (old_to_new old new).
Proof.
  intros old new Ho Hn. apply layout_ok_iff in Ho. apply layout_ok_iff in Hn.
  unfold layout, old_to_new in *. revert new Hn.
  induction Ho as [|n oc shape' old' Hoa Hof IH]; intros new Hn; inversion Hn as [|? nc ? new' Hna Hnf]; subst;
    cbn [combine map]; constructor.
  - cbn [fst snd]. destruct Hoa as (Ho1 & Ho2 & Ho3). destruct Hna as (Hn1 & Hn2 & Hn3).
    apply intersect_1d_ok_section; [assumption|assumption|assumption|congruence].
  - apply IH. exact Hnf.
Qed.

(* the statement of intersect_1d_ok_section as a boolean over an explicit finite
   family: all pairs of non-empty chunkings with at most maxlen chunks
   (zero-size chunks included) and equal sum <= maxsum *)
Fixpoint lists_sum (len : nat) (s : nat) : list (list Z) :=
  match len with
  | O => match s with O => [[]] | _ => [] end
  | S len' => flat_map (fun k => map (cons (Z.of_nat k)) (lists_sum len' (s - k))) (seq 0 (S s))
  end.
Definition lists_upto (maxlen s : nat) : list (list Z) := flat_map (fun l => lists_sum l s) (seq 1 maxlen).
Definition check_all (maxlen maxsum : nat) : bool :=
  forallb (fun s => let ls := lists_upto maxlen s in
     forallb (fun o => forallb (fun n => crosswalk_ok o n (intersect_1d o n)) ls) ls) (seq 0 (S maxsum)).

Lemma lists_sum_spec : forall len s l,
  In l (lists_sum len s) -> nonneg l /\ zsum l = Z.of_nat s /\ length l = len.
Proof.
  induction len as [|len IH]; intros s l H; cbn [lists_sum] in H.
  - destruct s; [|contradiction]. destruct H as [<-|[]]. repeat split. constructor.
  - apply in_flat_map in H. destruct H as (k & Hk & H). apply in_seq in Hk.
    apply in_map_iff in H. destruct H as (t & <- & Ht).
    destruct (IH _ _ Ht) as (Hnn & Hz & Hl). cbn [zsum length]. repeat split.
    + constructor; [lia|exact Hnn].
    + lia.
    + congruence.
Qed.

Lemma lists_upto_spec maxlen s l :
  In l (lists_upto maxlen s) -> nonneg l /\ zsum l = Z.of_nat s /\ l <> [].
Proof.
  intros H. apply in_flat_map in H. destruct H as (len & Hlen & H). apply in_seq in Hlen.
  destruct (lists_sum_spec _ _ _ H) as (Hnn & Hz & Hl). repeat split; [exact Hnn|exact Hz|].
  intros ->. cbn [length] in Hl. lia.
Qed.

Lemma check_all_true maxlen maxsum : check_all maxlen maxsum = true.
Proof.
  unfold check_all. apply forallb_forall. intros s _.
  apply forallb_forall. intros o Ho. apply forallb_forall. intros n Hn.
  destruct (lists_upto_spec _ _ _ Ho) as (Ho1 & Ho2 & Ho3).
  destruct (lists_upto_spec _ _ _ Hn) as (Hn1 & Hn2 & _).
  apply intersect_1d_ok_section; [exact Ho1|exact Hn1|exact Ho3|congruence].
Qed.

Example intersect_1d_ok_bounded_sum6_len5 : check_all 5 6 = true.
Proof. exact (check_all_true 5 6). Qed.

Print Assumptions plan_budget.
Print Assumptions plan_budget_any_rank.
Print Assumptions plan_budget_rank_le1.
Print Assumptions plan_valid_thm.
Print Assumptions merge_to_number_ok.
Print Assumptions divide_to_width_ok.
Print Assumptions crosswalk_sound.
Print Assumptions crosswalk_piece_inside.
Print Assumptions intersect_1d_ok.
Print Assumptions intersect_1d_spec.
Print Assumptions old_to_new_ok.
Print Assumptions intersect_1d_ok_bounded_sum6_len5.
