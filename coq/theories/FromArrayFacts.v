(* Proofs about the FromArray model (FromArrayModel.v): region pushdown is exact,
   the per-block read requests tile the region and stay in bounds, the read
   layouts chosen by _accept_rechunk are storage aligned. *)
From DA Require Import PyBase PyBaseFacts Slicing NormalizeFacts FuseFacts Slice1dBase Slice1dFacts FromArrayModel.
Open Scope Z_scope.

Lemma zrange_unit_app a b c : a <= b <= c -> zrange a b 1 ++ zrange b c 1 = zrange a c 1.
Proof.
  intros H. rewrite (zrange_split_stop a c b 1), range_len_unit by lia. do 2 f_equal. lia.
Qed.

Lemma zrange_unit_single i : zrange i (i + 1) 1 = [i].
Proof.
  unfold zrange. rewrite range_len_unit.
  replace (Z.to_nat (Z.max (i + 1 - i) 0)) with 1%nat by lia.
  cbn [seq map]. f_equal. lia.
Qed.

Lemma pick_map_inrange (f : Z -> Z) l js :
  Forall (fun j => 0 <= j < lenZ l) js -> pick_pos (map f l) js = map f (pick_pos l js).
Proof.
  intros H. unfold pick_pos. rewrite map_map. apply map_ext_in. intros j Hj.
  rewrite Forall_forall in H. specialize (H j Hj). unfold lenZ in H.
  rewrite (nth_indep _ 0 (f 0)) by (rewrite map_length; lia).
  apply map_nth.
Qed.

Lemma unit_step_of s : unit_step s -> step_of s = 1.
Proof. unfold step_of. intros [-> | ->]; reflexivity. Qed.

Lemma sel_unit s n :
  0 <= n -> unit_step s ->
  exists A B, indices s n = (A, B, 1) /\ 0 <= A <= n /\ 0 <= B <= n /\
              sel s n = zrange A B 1 /\ slice_len s n = Z.max (B - A) 0.
Proof.
  intros Hn Hs. destruct (indices_unit s n Hn Hs) as (A & B & Hi & HA & HB).
  exists A, B. unfold sel, slice_len. rewrite Hi, range_len_unit. auto.
Qed.

Lemma region_sel_length dim r : 0 <= dim -> lenZ (region_sel dim r) = eff_len dim r.
Proof.
  intros Hd. destruct r as [r|]; cbn [region_sel eff_len]; [apply sel_length|].
  unfold lenZ. rewrite zrange_length, range_len_unit. lia.
Qed.

Lemma axis_positions_length a : 0 <= a_dim a -> lenZ (axis_positions a) = a_eff a.
Proof. intros H. unfold axis_positions, a_eff. rewrite lenZ_map. apply region_sel_length, H. Qed.

Lemma unit_step_b_iff s : unit_step_b s = true <-> unit_step s.
Proof.
  unfold unit_step_b, unit_step. destruct (s_step s) as [k|]; split; intros H; auto.
  - right. f_equal. lia.
  - destruct H as [H|H]; [discriminate|]. injection H as ->. reflexivity.
Qed.

Lemma unit_ri_of n e : idx_ok n e -> unit_step (ri_of e).
Proof. destruct e as [i|s|]; cbn [idx_ok ri_of]; intros H; [left; reflexivity | exact H | contradiction]. Qed.

Lemma compose_unit_shape outer inner n :
  0 <= n -> unit_step outer -> unit_step inner ->
  exists a b, compose_slices outer inner n = mkslice (Some a) (Some b) None.
Proof.
  intros Hn Ho Hi. unfold compose_slices.
  destruct (indices_unit outer n Hn Ho) as (A & B & -> & _ & _).
  destruct (indices_unit inner _ (range_len_nonneg A B 1) Hi) as (C & D & -> & _ & _).
  cbn [negb Z.eqb Pos.eqb orb]. eauto.
Qed.

Lemma int_region_singleton i n : 0 <= i < n -> sel (ri_of (IInt i)) n = [i].
Proof.
  intros H. cbn [ri_of]. unfold sel. rewrite indices_inbounds by lia. apply zrange_unit_single.
Qed.

Lemma np_index_int pos i : 0 <= i < lenZ pos -> np_index pos (IInt i) = [nth (Z.to_nat i) pos 0].
Proof. intros H. unfold np_index. rewrite int_region_singleton by exact H. reflexivity. Qed.

(* the part of [lo, hi) inside the window [A, B) has the length of the difference of its end points clamped into the
   window, so the overlaps of consecutive chunks telescope.  (max and min are resolved by hand in each phase of the
   loop: lia pays dearly for five of them at once) *)
Lemma overlap_chunks_sum cs : forall pos A B,
  A < B -> Forall (fun c => 0 <= c) cs ->
  Forall (fun c => 0 <= c) (overlap_chunks pos cs A B) /\
  zsum (overlap_chunks pos cs A B) = Z.max A (Z.min (pos + zsum cs) B) - Z.max A (Z.min pos B).
Proof.
  induction cs as [|c t IH]; intros pos A B HAB Hnn; cbn [overlap_chunks zsum].
  - split; [constructor|]. rewrite Z.add_0_r. symmetry. apply Z.sub_diag.
  - inversion Hnn as [|c' t' Hc Ht]; subst. pose proof (zsum_nonneg t Ht) as Hz.
    destruct (IH (pos + c) A B HAB Ht) as [H1 H2]. rewrite Z.add_assoc.
    destruct (pos + c <=? A) eqn:E1.
    + split; [exact H1|]. rewrite H2.
      rewrite (Z.max_l A (Z.min (pos + c) B)), (Z.max_l A (Z.min pos B)) by lia. reflexivity.
    + destruct (pos >=? B) eqn:E2.
      * split; [constructor|]. rewrite !Z.min_r by lia. symmetry. apply Z.sub_diag.
      * cbn [zsum]. rewrite H2.
        rewrite (Z.max_r A (Z.min (pos + c) B)), (Z.min_l pos B), (Z.max_comm A pos) by lia.
        split; [constructor; [lia|exact H1]|ring].
Qed.

Theorem compute_sliced_chunks_valid cs s n :
  valid_chunks cs n -> cs <> [] -> unit_step s ->
  valid_chunks (compute_sliced_chunks cs s n) (slice_len s n) /\ compute_sliced_chunks cs s n <> [].
Proof.
  intros [Hnn Hsum] Hne Hs.
  assert (0 <= n) as Hn by (rewrite <- Hsum; apply zsum_nonneg, Hnn).
  unfold compute_sliced_chunks.
  destruct (pslice_eqb s colon) eqn:Ec.
  - apply pslice_eqb_eq in Ec. subst s. destruct (sel_colon n Hn) as [_ ->].
    split; [split; assumption | exact Hne].
  - destruct (sel_unit s n Hn Hs) as (A & B & Hi & HA & HB & _ & Hlen).
    rewrite Hi, Hlen. cbn [Z.eqb Pos.eqb negb].
    destruct (A >=? B) eqn:E.
    + split; [|discriminate]. split; [constructor; [lia | constructor] | cbn [zsum]; lia].
    + assert (A < B) as HAB by lia.
      destruct (overlap_chunks_sum cs 0 A B HAB Hnn) as [H1 H2].
      rewrite Z.add_0_l, Hsum, (Z.min_r n B), (Z.min_l 0 B), (Z.max_r A B), (Z.max_l A 0) in H2 by lia.
      destruct (overlap_chunks 0 cs A B) as [|x r] eqn:Eo.
      * cbn [zsum] in H2. lia.
      * split; [|discriminate]. split; [exact H1|]. rewrite H2. lia.
Qed.

Lemma region_sel_compose dim old ri :
  0 <= dim -> region_unit old -> unit_step ri ->
  region_sel dim (Some (match old with Some o => compose_slices o ri dim | None => ri end))
  = pick_pos (region_sel dim old) (sel ri (eff_len dim old)).
Proof.
  intros Hd Ho Hr. destruct old as [o|]; cbn [region_sel eff_len region_unit] in *.
  (* pick_pos is FuseFacts.pick (same body), so the lemmas about pick apply by conversion *)
  - apply compose_slices_unit_exact; assumption.
  - destruct (sel_unit ri dim Hd Hr) as (A & B & _ & HA & HB & -> & _).
    symmetry. apply pick_zrange.
    + reflexivity.
    + intros i Hi. rewrite !range_len_unit in *. lia.
    + intros _. lia.
    + reflexivity.
Qed.

Theorem accept_axis_exact a e :
  axis_wf a -> idx_ok (a_eff a) e ->
  axis_wf (accept_axis a e) /\
  axis_positions (accept_axis a e) = np_index (axis_positions a) e /\
  a_eff (accept_axis a e) = slice_len (ri_of e) (a_eff a).
Proof.
  intros (Hd & Hru & Hv & Hne) He.
  pose proof (unit_ri_of _ _ He) as Hri.
  pose proof (region_sel_compose (a_dim a) (a_region a) (ri_of e) Hd Hru Hri) as Hsel.
  assert (0 <= a_eff a) as Heff by (unfold a_eff; rewrite <- region_sel_length by exact Hd; apply lenZ_nonneg).
  assert (a_eff (accept_axis a e) = slice_len (ri_of e) (a_eff a)) as Hlen.
  { unfold a_eff at 1. cbn [accept_axis a_dim a_region]. rewrite <- region_sel_length by exact Hd.
    rewrite Hsel. unfold lenZ, pick_pos. rewrite map_length. apply sel_length. }
  split; [|split; [|exact Hlen]].
  - unfold axis_wf. rewrite Hlen. cbn [accept_axis a_dim a_region a_chunks].
    destruct (compute_sliced_chunks_valid (a_chunks a) (ri_of e) (a_eff a) Hv Hne Hri) as [H1 H2].
    split; [exact Hd|]. split; [|split; [exact H1 | exact H2]].
    cbn [region_unit]. destruct (a_region a) as [o|]; [|exact Hri].
    destruct (compose_unit_shape o (ri_of e) (a_dim a) Hd Hru Hri) as (x & y & ->). left. reflexivity.
  - unfold axis_positions, np_index. cbn [accept_axis a_base a_dim a_region]. rewrite Hsel.
    rewrite lenZ_map, region_sel_length by exact Hd.
    symmetry. apply pick_map_inrange.
    rewrite region_sel_length by exact Hd. apply Forall_forall. intros j.
    apply sel_in_range; [exact Heff | rewrite (unit_step_of _ Hri); discriminate].
Qed.

Theorem region_chain_exact es : forall a,
  axis_wf a -> chain_ok (a_eff a) es ->
  axis_wf (axis_chain a es) /\
  axis_positions (axis_chain a es) = chain_sel (axis_positions a) es /\
  a_dim (axis_chain a es) = a_dim a /\ a_base (axis_chain a es) = a_base a.
Proof.
  induction es as [|e t IH]; intros a Hwf Hok; cbn [axis_chain fold_left chain_sel].
  - split; [exact Hwf|]. split; [reflexivity|]. split; reflexivity.
  - destruct Hok as [He Ht].
    destruct (accept_axis_exact a e Hwf He) as (Hwf' & Hpos & Hlen).
    rewrite <- Hlen in Ht. destruct (IH _ Hwf' Ht) as (Hwft & Hpost & Hdim & Hbase).
    fold (axis_chain (accept_axis a e) t). rewrite Hpos in Hpost.
    (* accept_axis keeps a_dim and a_base *)
    split; [exact Hwft|]. split; [exact Hpost|]. split; [exact Hdim | exact Hbase].
Qed.

Lemma fresh_axis_wf dim cs : valid_chunks cs dim -> cs <> [] -> axis_wf (fresh_axis dim cs).
Proof.
  intros Hv Hne. unfold axis_wf, fresh_axis, a_eff. cbn [a_dim a_region a_chunks eff_len region_unit].
  destruct Hv as [Hnn Hs]. pose proof (zsum_nonneg cs Hnn). repeat split; try assumption. lia.
Qed.

Lemma fresh_axis_positions dim cs : axis_positions (fresh_axis dim cs) = zrange 0 dim 1.
Proof.
  unfold axis_positions, fresh_axis. cbn [a_base a_dim a_region region_sel].
  rewrite zrange_shift. reflexivity.
Qed.

Corollary region_chain_fresh dim cs es :
  valid_chunks cs dim -> cs <> [] -> chain_ok dim es ->
  let a := axis_chain (fresh_axis dim cs) es in
  axis_wf a /\
  map (fun p => a_base a + p) (region_sel (a_dim a) (a_region a)) = chain_sel (zrange 0 dim 1) es /\
  valid_chunks (a_chunks a) (lenZ (chain_sel (zrange 0 dim 1) es)) /\ a_chunks a <> [].
Proof.
  intros Hv Hne Hok.
  destruct (region_chain_exact es _ (fresh_axis_wf dim cs Hv Hne) Hok) as (Hwf & Hpos & _ & _). cbv zeta.
  rewrite fresh_axis_positions in Hpos.
  split; [exact Hwf|]. split; [exact Hpos|].
  destruct Hwf as (Hd' & _ & Hv' & Hne'). rewrite <- Hpos, axis_positions_length by exact Hd'.
  split; [exact Hv' | exact Hne'].
Qed.

Lemma contiguous_le rq : forall lo hi, contiguous_from lo rq hi -> lo <= hi.
Proof.
  induction rq as [|q t IH]; intros lo hi H; cbn [contiguous_from] in H; [lia|].
  destruct H as (H1 & H2 & H3). apply IH in H3. lia.
Qed.

Lemma contiguous_lower rq : forall lo hi p,
  contiguous_from lo rq hi -> In p rq -> lo <= fst p /\ fst p <= snd p /\ snd p <= hi.
Proof.
  induction rq as [|q t IH]; intros lo hi p Hc Hin; [contradiction|].
  destruct Hc as (H1 & H2 & H3). pose proof (contiguous_le _ _ _ H3).
  destruct Hin as [->|Hin]; [lia|]. specialize (IH _ _ _ H3 Hin). lia.
Qed.

Theorem contiguous_disjoint rq : forall lo hi,
  contiguous_from lo rq hi ->
  forall i j, (i < j < length rq)%nat -> snd (nth i rq (0, 0)) <= fst (nth j rq (0, 0)).
Proof.
  induction rq as [|q t IH]; intros lo hi Hc i j Hij; cbn [length] in Hij; [lia|].
  destruct Hc as (H1 & H2 & H3).
  destruct j as [|j]; [lia|]. cbn [nth].
  destruct i as [|i]; [|apply (IH _ _ H3); lia].
  apply (contiguous_lower t _ _ _ H3), nth_In. lia.
Qed.

Theorem contiguous_cover rq : forall lo hi x,
  contiguous_from lo rq hi ->
  (lo <= x < hi <-> exists p, In p rq /\ fst p <= x < snd p).
Proof.
  induction rq as [|q t IH]; intros lo hi x Hc.
  - cbn [contiguous_from] in Hc. split; [lia | intros (p & [] & _)].
  - split.
    + intros Hx. destruct Hc as (H1 & H2 & H3). destruct (Z_lt_le_dec x (snd q)) as [Hl|Hl].
      * exists q. split; [left; reflexivity | lia].
      * destruct (proj1 (IH _ _ x H3) ltac:(lia)) as (p & Hp & Hpx).
        exists p. split; [right; exact Hp | exact Hpx].
    + intros (p & Hp & Hpx). destruct (contiguous_lower _ _ _ _ Hc Hp). lia.
Qed.

Theorem contiguous_unique rq : forall lo hi x p q,
  contiguous_from lo rq hi -> In p rq -> In q rq ->
  fst p <= x < snd p -> fst q <= x < snd q -> p = q.
Proof.
  induction rq as [|r t IH]; intros lo hi x p q Hc Hp Hq Hpx Hqx; [contradiction|].
  cbn [contiguous_from] in Hc. destruct Hc as (H1 & H2 & H3).
  destruct Hp as [<-|Hp], Hq as [<-|Hq].
  - reflexivity.
  - destruct (contiguous_lower t _ _ _ H3 Hq). lia.
  - destruct (contiguous_lower t _ _ _ H3 Hp). lia.
  - apply (IH _ _ x p q H3); assumption.
Qed.

Lemma contiguous_positions rq : forall lo hi, contiguous_from lo rq hi -> request_positions rq = zrange lo hi 1.
Proof.
  unfold request_positions. induction rq as [|p t IH]; intros lo hi H; cbn [contiguous_from map concat] in *.
  - symmetry. apply zrange_nil_pos; lia.
  - destruct H as (<- & H2 & H3). rewrite (IH _ _ H3). apply zrange_unit_app.
    pose proof (contiguous_le _ _ _ H3). lia.
Qed.

Lemma slices_from_contiguous cs : forall pos,
  Forall (fun c => 0 <= c) cs -> contiguous_from pos (slices_from pos cs) (pos + zsum cs).
Proof.
  induction cs as [|c t IH]; intros pos Hnn; cbn [slices_from zsum contiguous_from fst snd]; [lia|].
  inversion Hnn as [|c' t' Hc Ht]; subst. split; [reflexivity|]. split; [lia|].
  rewrite Z.add_assoc. apply IH, Ht.
Qed.

Lemma slices_from_shift off cs : forall pos,
  map (fun p => (fst p + off, snd p + off)) (slices_from pos cs) = slices_from (pos + off) cs.
Proof.
  induction cs as [|c t IH]; intros pos; cbn [slices_from map fst snd]; [reflexivity|].
  rewrite IH. replace (pos + c + off) with (pos + off + c) by lia. reflexivity.
Qed.

Lemma axis_requests_eq a : axis_requests a = slices_from (region_start (a_dim a) (a_region a)) (a_chunks a).
Proof. exact (slices_from_shift _ _ 0). Qed.

Lemma region_bounds dim r :
  0 <= dim -> region_unit r ->
  0 <= region_start dim r /\ region_start dim r + eff_len dim r <= dim /\ 0 <= eff_len dim r /\
  region_sel dim r = zrange (region_start dim r) (region_start dim r + eff_len dim r) 1.
Proof.
  intros Hd Hr. destruct r as [r|]; cbn [region_start eff_len region_sel region_unit] in *.
  - destruct (sel_unit r dim Hd Hr) as (A & B & Hi & HA & HB & Hsel & Hlen).
    rewrite Hi, Hsel, Hlen. repeat split; try lia.
    apply zrange_ext. rewrite !range_len_unit. lia.
  - repeat split; try lia.
Qed.

Theorem reads_partition a :
  axis_wf a ->
  request_positions (axis_requests a) = region_sel (a_dim a) (a_region a) /\
  contiguous_from (region_start (a_dim a) (a_region a)) (axis_requests a)
                  (region_start (a_dim a) (a_region a) + a_eff a).
Proof.
  intros (Hd & Hru & [Hnn Hsum] & Hne).
  destruct (region_bounds _ _ Hd Hru) as (_ & _ & _ & Hsel).
  pose proof (slices_from_contiguous (a_chunks a) (region_start (a_dim a) (a_region a)) Hnn) as Hc.
  rewrite Hsum, <- axis_requests_eq in Hc.
  split; [|exact Hc]. rewrite Hsel. apply contiguous_positions, Hc.
Qed.

Theorem reads_in_bounds a : axis_wf a -> Forall (in_bounds (a_dim a)) (axis_requests a).
Proof.
  intros Hwf. destruct (reads_partition a Hwf) as [_ Hc]. destruct Hwf as (Hd & Hru & _).
  destruct (region_bounds _ _ Hd Hru) as (H0 & Hhi & _ & _).
  apply Forall_forall. intros p Hp. apply (contiguous_lower _ _ _ _ Hc) in Hp. unfold in_bounds, a_eff in *. lia.
Qed.

Theorem reads_cover a x :
  axis_wf a ->
  (In x (region_sel (a_dim a) (a_region a)) <-> exists r, In r (axis_requests a) /\ fst r <= x < snd r).
Proof.
  intros Ha. destruct (reads_partition a Ha) as [_ Hc]. destruct Ha as (Hd & Hru & _).
  destruct (region_bounds _ _ Hd Hru) as (_ & _ & _ & ->). rewrite zrange_unit_In. apply contiguous_cover, Hc.
Qed.

(* headline, one axis: after any admissible chain pushed into a fresh from_array,
   the blocks' requests read exactly the elements NumPy's x[e1]...[ek] selects, in
   order, and never leave the source *)
Theorem chain_reads_exact dim cs es :
  valid_chunks cs dim -> cs <> [] -> chain_ok dim es ->
  let a := axis_chain (fresh_axis dim cs) es in
  request_positions (axis_requests a) = chain_sel (zrange 0 dim 1) es /\
  Forall (in_bounds dim) (axis_requests a).
Proof.
  intros Hv Hne Hok.
  destruct (region_chain_exact es _ (fresh_axis_wf dim cs Hv Hne) Hok) as (Hwf & Hpos & Hdim & Hbase). cbv zeta.
  rewrite fresh_axis_positions in Hpos.
  destruct (reads_partition _ Hwf) as [Hp _]. pose proof (reads_in_bounds _ Hwf) as Hb.
  rewrite Hdim in Hb. cbn [fresh_axis a_dim] in Hb. split; [|exact Hb].
  rewrite Hp, <- Hpos. unfold axis_positions. rewrite Hbase. cbn [fresh_axis a_base].
  rewrite <- (map_id (region_sel _ _)) at 1. apply map_ext. intros p. lia.
Qed.

Lemma in_cart_iff {A} (ls : list (list A)) (x : list A) : In x (cart ls) <-> Forall2 (fun e l => In e l) x ls.
Proof.
  revert x. induction ls as [|l rest IH]; intros x; cbn [cart].
  - split.
    + intros [<-|[]]. constructor.
    + intros H. inversion H. left. reflexivity.
  - rewrite in_flat_map. split.
    + intros (e & He & Hx). apply in_map_iff in Hx. destruct Hx as (y & <- & Hy).
      constructor; [exact He | apply IH, Hy].
    + intros H. inversion H as [|e l' y rest' He Hy]; subst.
      exists e. split; [exact He|]. apply in_map_iff. exists y. split; [reflexivity | apply IH, Hy].
Qed.

Theorem layer_requests_in_bounds f :
  Forall axis_wf f ->
  Forall (fun req => Forall2 (fun p a => in_bounds (a_dim a) p) req f) (layer_requests f).
Proof.
  intros Hwf. apply Forall_forall. intros req Hin.
  unfold layer_requests in Hin. apply in_cart_iff in Hin.
  revert req Hin. induction Hwf as [|a f Ha Hf IH]; intros req Hin; cbn [map] in Hin.
  - inversion Hin. constructor.
  - inversion Hin as [|p l y rest Hp Hy]; subst. constructor; [|apply IH, Hy].
    pose proof (reads_in_bounds a Ha) as Hb. rewrite Forall_forall in Hb. apply Hb, Hp.
Qed.

(* every point of the region box lies in exactly one request box, and no request
   box contains a point outside the region box *)
Theorem layer_requests_cover f p :
  Forall axis_wf f ->
  (Forall2 (fun x a => In x (region_sel (a_dim a) (a_region a))) p f <->
   exists req, In req (layer_requests f) /\ point_in req p).
Proof.
  intros Hwf. revert p. induction Hwf as [|a f Ha Hf IH]; intros p.
  - unfold layer_requests. cbn [map cart]. split.
    + intros H. inversion H. exists []. split; [left; reflexivity | constructor].
    + intros (req & [<-|[]] & Hp). inversion Hp. constructor.
  - unfold layer_requests in *. cbn [map]. split.
    + intros H. inversion H as [|x a' p' f' Hx Hp']; subst.
      apply (reads_cover a x Ha) in Hx. destruct Hx as (r & Hr & Hrx).
      apply IH in Hp'. destruct Hp' as (req & Hreq & Hpt).
      exists (r :: req). split.
      * apply in_cart_iff. constructor; [exact Hr | apply in_cart_iff, Hreq].
      * constructor; assumption.
    + intros (req & Hreq & Hpt). apply in_cart_iff in Hreq.
      inversion Hreq as [|r l req' rest Hr Hreq']; subst.
      inversion Hpt as [|r' x req'' p' Hrx Hpt']; subst.
      constructor.
      * apply (reads_cover a x Ha). exists r. auto.
      * apply IH. exists req'. split; [apply in_cart_iff, Hreq' | exact Hpt'].
Qed.

Theorem layer_requests_unique f p r1 r2 :
  Forall axis_wf f ->
  In r1 (layer_requests f) -> In r2 (layer_requests f) -> point_in r1 p -> point_in r2 p -> r1 = r2.
Proof.
  intros Hwf. revert p r1 r2. unfold layer_requests.
  induction Hwf as [|a f Ha Hf IH]; intros p r1 r2 H1 H2 P1 P2; cbn [map] in *.
  - apply in_cart_iff in H1, H2. inversion H1. inversion H2. reflexivity.
  - apply in_cart_iff in H1, H2.
    inversion H1 as [|q1 l1 t1 rest1 Hq1 Ht1]; subst.
    inversion H2 as [|q2 l2 t2 rest2 Hq2 Ht2]; subst.
    inversion P1 as [|q1' x t1' p' Hx1 Pt1]; subst.
    inversion P2 as [|q2' x' t2' p'' Hx2 Pt2]; subst.
    destruct (reads_partition a Ha) as [_ Hc].
    f_equal.
    + apply (contiguous_unique _ _ _ x q1 q2 Hc); assumption.
    + apply (IH p'); try assumption; apply in_cart_iff; assumption.
Qed.

Lemma Forall2_combine_map {A B C} (P : A -> B -> Prop) (Q : A * B -> C -> Prop) (g : A * B -> C) l1 l2 :
  Forall2 P l1 l2 -> (forall a b, P a b -> Q (a, b) (g (a, b))) ->
  Forall2 Q (combine l1 l2) (map g (combine l1 l2)).
Proof.
  intros H HQ. induction H as [|a b l1 l2 Hab H IH]; cbn [combine map]; constructor; auto.
Qed.

Theorem accept_slice_declines f index :
  accept_slice f index = None <-> exists e, In e index /\ slice_pushable e = false.
Proof.
  unfold accept_slice. destruct (forallb slice_pushable index) eqn:E; cbn [negb]; split.
  - discriminate.
  - intros (e & He & Hp). rewrite forallb_forall in E. rewrite (E e He) in Hp. discriminate.
  - intros _. clear f. induction index as [|e t IH]; [discriminate|].
    cbn [forallb] in E. destruct (slice_pushable e) eqn:Ee.
    + cbn [andb] in E. destruct (IH E) as (x & Hx & Hp). exists x. split; [right; exact Hx | exact Hp].
    + exists e. split; [left; reflexivity | exact Ee].
  - reflexivity.
Qed.

Theorem accept_slice_nd f index f' ext :
  let full := pad_index index (length f) in
  Forall axis_wf f ->
  Forall2 (fun a e => idx_ok (a_eff a) e) f full ->
  accept_slice f index = Some (f', ext) ->
  Forall2 (fun ae a' => axis_wf a' /\
                        axis_positions a' = np_index (axis_positions (fst ae)) (snd ae) /\
                        a_dim a' = a_dim (fst ae) /\ a_base a' = a_base (fst ae))
          (combine f full) f' /\
  ext = (if existsb is_int full then Some (map extract_of full) else None).
Proof.
  intros full Hwf Hok H. unfold accept_slice in H.
  destruct (negb (forallb slice_pushable index)); [discriminate|].
  fold full in H. injection H as <- <-. split; [|reflexivity].
  apply (Forall2_combine_map (fun a e => axis_wf a /\ idx_ok (a_eff a) e)).
  - clear -Hwf Hok. induction Hok as [|a e l1 l2 Hae H IH]; constructor.
    + inversion Hwf; subst. auto.
    + apply IH. inversion Hwf; subst. assumption.
  - intros a e [Ha He]. cbn [fst snd].
    destruct (accept_axis_exact a e Ha He) as (H1 & H2 & _). auto.
Qed.

(* the NumPy branch: dropping a full region / copying a small one keeps the
   denoted positions (in the coordinates of the original data) *)
Lemma drop_region_exact a :
  axis_wf a -> a_eff a = a_dim a ->
  axis_wf (drop_region a) /\ axis_positions (drop_region a) = axis_positions a /\
  a_chunks (drop_region a) = a_chunks a.
Proof.
  intros (Hd & Hru & Hv & Hne) Hfull.
  destruct (region_bounds _ _ Hd Hru) as (H0 & Hhi & _ & Hsel). fold (a_eff a) in *.
  split; [|split; [|reflexivity]].
  - unfold axis_wf, drop_region, a_eff. cbn [a_dim a_region a_chunks eff_len region_unit].
    rewrite <- Hfull. split; [lia|]. split; [exact I|]. split; assumption.
  - unfold axis_positions, drop_region. cbn [a_base a_dim a_region region_sel].
    rewrite Hsel. f_equal. f_equal; lia.
Qed.

Lemma copy_region_exact a :
  axis_wf a ->
  axis_wf (copy_region a) /\ axis_positions (copy_region a) = axis_positions a /\
  a_chunks (copy_region a) = a_chunks a.
Proof.
  intros (Hd & Hru & Hv & Hne).
  destruct (region_bounds _ _ Hd Hru) as (H0 & Hhi & Heff & Hsel). fold (a_eff a) in *.
  split; [|split; [|reflexivity]].
  - unfold axis_wf, copy_region. unfold a_eff at 2. cbn [a_dim a_region a_chunks eff_len region_unit]. auto.
  - unfold axis_positions, copy_region. cbn [a_base a_dim a_region region_sel].
    rewrite Hsel, !zrange_shift. f_equal; lia.
Qed.

Theorem np_adjust_exact itemsize limit f :
  Forall axis_wf f ->
  Forall2 (fun a a' => axis_wf a' /\ axis_positions a' = axis_positions a /\ a_chunks a' = a_chunks a)
          f (np_adjust itemsize limit f).
Proof.
  intros Hwf. unfold np_adjust, np_decide.
  destruct (zlist_eqb (eff_shape f) (map a_dim f)) eqn:E.
  - apply zlist_eqb_eq in E. unfold eff_shape in E.
    induction Hwf as [|a f Ha Hf IH]; cbn [map] in *; constructor.
    + injection E as E1 E2. apply drop_region_exact; assumption.
    + injection E as E1 E2. apply IH, E2.
  - destruct (zprod (eff_shape f) * itemsize <=? limit).
    + clear E. induction Hwf as [|a f Ha Hf IH]; cbn [map]; constructor; [apply copy_region_exact, Ha | exact IH].
    + clear E. induction Hwf as [|a f Ha Hf IH]; constructor; auto.
Qed.

Lemma ordered_b_iff s n : ordered_b s n = true <-> ordered s n.
Proof. unfold ordered_b, ordered. destruct (indices s n) as [[a b] k]. lia. Qed.

Lemma int_ordered i n : 0 <= i < n -> ordered (ri_of (IInt i)) n.
Proof. intros H. unfold ordered. cbn [ri_of]. rewrite indices_inbounds by lia. lia. Qed.

(* the positive-step case of Slice1dFacts.normalized (what normalize_slice returns), spelled out, with a unit step *)
Lemma unit_nonneg_ordered s n :
  0 <= n -> unit_step s ->
  (forall a, s_start s = Some a -> 0 <= a <= n) -> (forall b, s_stop s = Some b -> 0 <= b <= n) ->
  (forall a b, s_start s = Some a -> s_stop s = Some b -> a <= b) -> ordered s n.
Proof.
  intros Hn Hu Ha Hb Hab. unfold ordered.
  assert (0 < step_of s) as Hk by (rewrite (unit_step_of s Hu); lia).
  destruct (indices_normalized_pos s n Hn Hk Ha Hb) as (-> & Hsa & Hsb).
  exact (start_le_stop s n Hsa Hsb Hab).
Qed.

Theorem accept_axis_ordered a e :
  axis_wf a -> idx_ok (a_eff a) e -> idx_ordered (a_eff a) e ->
  region_ordered (a_dim a) (a_region (accept_axis a e)).
Proof.
  intros (Hd & Hru & Hv & Hne) He Ho.
  pose proof (unit_ri_of _ _ He) as Hri.
  assert (ordered (ri_of e) (a_eff a)) as Hord.
  { destruct e as [i|s|]; cbn [idx_ok idx_ordered ri_of] in *; [apply int_ordered, He | exact Ho | contradiction]. }
  cbn [accept_axis a_region region_ordered]. unfold a_eff in *.
  destruct (a_region a) as [o|]; cbn [eff_len region_unit] in *; [|exact Hord].
  unfold compose_slices, ordered in *. unfold slice_len in Hord.
  destruct (indices_unit o (a_dim a) Hd Hru) as (A & B & Hi & HA & HB). rewrite Hi in *.
  destruct (indices_unit (ri_of e) _ (range_len_nonneg A B 1) Hri) as (C & D & Hi2 & HC & HD).
  rewrite Hi2 in *. cbn [negb Z.eqb Pos.eqb orb]. rewrite range_len_unit in *.
  rewrite indices_inbounds by lia. lia.
Qed.

Theorem region_chain_ordered es : forall a,
  axis_wf a -> region_ordered (a_dim a) (a_region a) ->
  chain_ok (a_eff a) es ->
  chain_ordered (a_eff a) es ->
  region_ordered (a_dim (axis_chain a es)) (a_region (axis_chain a es)).
Proof.
  induction es as [|e t IH]; intros a Hwf Hro Hok Hord; cbn [axis_chain fold_left]; [exact Hro|].
  destruct Hok as [He Ht]. cbn [chain_ordered] in Hord. destruct Hord as [Ho Hot].
  destruct (accept_axis_exact a e Hwf He) as (Hwf' & _ & Hlen).
  pose proof (accept_axis_ordered a e Hwf He Ho) as Hro'.
  rewrite <- Hlen in Ht, Hot.
  apply (IH (accept_axis a e) Hwf'); try assumption.
Qed.

Lemma pytrue_false z : pytrue z = false <-> z = 0.
Proof. unfold pytrue. destruct (z =? 0) eqn:E; cbn [negb]; split; intros H; try discriminate; lia. Qed.

(* a layout starting on the grid whose chunks, but for the last, are multiples of the grid has its interior
   boundaries on the grid *)
Lemma interior_aligned st s dc :
  0 < st -> (st | s) -> Forall (fun c => (st | c)) (removelast dc) ->
  Forall (fun b => (s + b) mod st = 0) (interior dc).
Proof.
  intros Hst Hs Hl. unfold interior, cumsum.
  enough (forall acc, (st | s + acc) -> Forall (fun b => (s + b) mod st = 0) (cumsum_from acc (removelast dc))) as H
    by (apply H; rewrite Z.add_0_r; exact Hs).
  induction Hl as [|c t Hc Ht IH]; intros acc Hacc; cbn [cumsum_from]; [constructor|].
  assert (st | s + (acc + c)) as H by (rewrite Z.add_assoc; apply Z.divide_add_r; assumption).
  constructor; [apply mod0_divide; assumption | apply IH, H].
Qed.

Fixpoint diffs_from (prev : Z) (l : list Z) : list Z :=
  match l with [] => [] | x :: t => (x - prev) :: diffs_from x t end.

Lemma diffs_cons x0 rest : diffs (x0 :: rest) = diffs_from x0 rest.
Proof.
  unfold diffs. cbn [tl]. revert x0. induction rest as [|x t IH]; intros x0; [reflexivity|].
  cbn [combine map diffs_from fst snd]. f_equal. apply IH.
Qed.

Lemma diffs_from_length prev l : length (diffs_from prev l) = length l.
Proof. revert prev. induction l as [|x t IH]; intros prev; cbn [diffs_from length]; [reflexivity | rewrite IH; reflexivity]. Qed.

Lemma zsum_diffs_snoc l : forall prev hi, zsum (diffs_from prev (l ++ [hi])) = hi - prev.
Proof. induction l as [|x t IH]; intros prev hi; cbn [app diffs_from zsum]; [lia | rewrite IH; lia]. Qed.

Lemma removelast_diffs_snoc l : forall prev hi, removelast (diffs_from prev (l ++ [hi])) = diffs_from prev l.
Proof.
  induction l as [|x t IH]; intros prev hi; [reflexivity|].
  cbn [app diffs_from]. rewrite <- (IH x hi). destruct t; reflexivity.
Qed.

Lemma cumsum_diffs_from l : forall prev acc,
  cumsum_from acc (diffs_from prev l) = map (fun y => acc + y - prev) l.
Proof.
  induction l as [|x t IH]; intros prev acc; [reflexivity|].
  cbn [diffs_from cumsum_from map]. f_equal; [lia|]. rewrite IH. apply map_ext. intros y. lia.
Qed.

(* lo <= x1 <= x2 <= ... <= xk <= hi *)
Fixpoint chain_le (lo : Z) (l : list Z) (hi : Z) : Prop :=
  match l with [] => lo <= hi | x :: t => lo <= x /\ chain_le x t hi end.

Lemma chain_le_weaken l : forall lo lo' hi, lo' <= lo -> chain_le lo l hi -> chain_le lo' l hi.
Proof. destruct l as [|x t]; intros lo lo' hi H Hc; cbn [chain_le] in *; [lia|]. destruct Hc. split; [lia | assumption]. Qed.

Lemma chain_le_filter f l : forall lo hi, chain_le lo l hi -> chain_le lo (filter f l) hi.
Proof.
  induction l as [|x t IH]; intros lo hi Hc; cbn [filter]; [exact Hc|].
  cbn [chain_le] in Hc. destruct Hc as [H1 H2]. destruct (f x); cbn [chain_le].
  - split; [exact H1 | apply IH, H2].
  - apply (chain_le_weaken _ x); [exact H1 | apply IH, H2].
Qed.

Lemma chain_le_shift c l : forall lo hi, chain_le lo l hi -> chain_le (lo - c) (map (fun b => b - c) l) (hi - c).
Proof.
  induction l as [|x t IH]; intros lo hi Hc; cbn [map chain_le] in *; [lia|].
  destruct Hc as [H1 H2]. split; [lia | apply IH, H2].
Qed.

Lemma chain_le_diffs l : forall lo hi, chain_le lo l hi -> Forall (fun c => 0 <= c) (diffs_from lo (l ++ [hi])).
Proof.
  induction l as [|x t IH]; intros lo hi Hc; cbn [app diffs_from chain_le] in *.
  - constructor; [lia | constructor].
  - destruct Hc as [H1 H2]. constructor; [lia | apply IH, H2].
Qed.

Lemma chain_le_seq g st hi n : forall s lo,
  0 < st -> lo <= hi -> lo <= g + Z.of_nat s * st ->
  ((0 < n)%nat -> g + Z.of_nat (s + n - 1) * st <= hi) ->
  chain_le lo (map (fun i => g + Z.of_nat i * st) (seq s n)) hi.
Proof.
  induction n as [|n IH]; intros s lo Hst Hlh Hlo Hlast; cbn [seq map chain_le]; [exact Hlh|].
  split; [exact Hlo|].
  apply IH; try assumption.
  - specialize (Hlast ltac:(lia)). nia.
  - nia.
  - intros Hn. specialize (Hlast ltac:(lia)). replace (S s + n - 1)%nat with (s + S n - 1)%nat by lia. exact Hlast.
Qed.

Lemma chain_le_zrange lo g hi st : 0 < st -> lo <= g -> lo <= hi -> chain_le lo (zrange g hi st) hi.
Proof.
  intros Hst Hg Hlh. unfold zrange. apply chain_le_seq; try assumption; [lia|].
  intros Hn.
  assert (0 < range_len g hi st) as Hpos by lia.
  pose proof (proj1 (range_len_pos_lt g hi st (range_len g hi st - 1) Hst ltac:(lia)) ltac:(lia)) as Hlast.
  replace (Z.of_nat (0 + Z.to_nat (range_len g hi st) - 1)) with (range_len g hi st - 1) by lia. lia.
Qed.

Lemma zrange_aligned q g hi st : g = q * st -> Forall (fun b => (st | b)) (zrange g hi st).
Proof.
  intros ->. apply Forall_forall. intros b Hb. unfold zrange in Hb. apply in_map_iff in Hb.
  destruct Hb as (i & <- & _). exists (q + Z.of_nat i). lia.
Qed.

Lemma interior_diffs_snoc mids hi : interior (diffs_from 0 (mids ++ [hi])) = mids.
Proof.
  unfold interior. rewrite removelast_diffs_snoc. unfold cumsum. rewrite cumsum_diffs_from.
  rewrite <- (map_id mids) at 2. apply map_ext. intros y. lia.
Qed.

Lemma round_up_ge x st : 0 < st -> x <= (x + st - 1) / st * st.
Proof.
  intros Hst. pose proof (Z.div_mod (x + st - 1) st ltac:(lia)). pose proof (Z.mod_pos_bound (x + st - 1) st Hst). lia.
Qed.

(* region case, one axis: the layout cut at the grid points inside the region [A, B) *)
Lemma region_boundaries_ok A B st :
  0 < st -> A <= B ->
  let rd := diffs (region_boundaries A B st) in
  valid_chunks rd (B - A) /\ rd <> [] /\ Forall (fun b => (A + b) mod st = 0) (interior rd).
Proof.
  intros Hst HAB. unfold region_boundaries. cbv zeta. rewrite diffs_cons.
  set (first := (A + st - 1) / st * st).
  set (mids := map (fun b => b - A) (filter (fun b => b >? A) (zrange first B st))).
  assert (chain_le 0 mids (B - A)) as Hchain.
  { replace 0 with (A - A) by lia. apply chain_le_shift, chain_le_filter, chain_le_zrange; try lia.
    apply round_up_ge, Hst. }
  split; [split|split].
  - apply chain_le_diffs, Hchain.
  - rewrite zsum_diffs_snoc. lia.
  - intros Hnil. apply (f_equal (@length Z)) in Hnil. rewrite diffs_from_length, app_length in Hnil. cbn in Hnil. lia.
  - rewrite interior_diffs_snoc. unfold mids.
    apply Forall_forall. intros m Hm. apply in_map_iff in Hm. destruct Hm as (b & <- & Hb).
    apply filter_In in Hb. destruct Hb as [Hb _].
    pose proof (zrange_aligned ((A + st - 1) / st) first B st eq_refl) as Hal.
    rewrite Forall_forall in Hal. specialize (Hal b Hb).
    apply mod0_divide; [exact Hst|]. replace (A + (b - A)) with b by lia. exact Hal.
Qed.

Theorem region_read_axis_ok a r dc st rd :
  axis_wf a -> a_region a = Some r -> ordered r (a_dim a) -> 0 < st ->
  valid_chunks dc (a_eff a) -> dc <> [] ->
  region_read_axis dc st r (a_dim a) = Some rd -> read_ok a st rd.
Proof.
  intros (Hd & Hru & _ & _) Hr Hord Hst Hv Hne H.
  unfold read_ok, a_eff in *. rewrite Hr in *. cbn [region_unit eff_len region_start] in *.
  unfold region_read_axis, ordered in *.
  destruct (sel_unit r (a_dim a) Hd Hru) as (A & B & Hi & HA & HB & _ & Hlen).
  rewrite Hi in *. rewrite Hlen in *.
  destruct (splits_storage A st dc) eqn:Es; cbn [negb Z.eqb Pos.eqb] in H; injection H as <-.
  - replace (Z.max (B - A) 0) with (B - A) by lia. apply region_boundaries_ok; assumption.
  - split; [exact Hv|]. split; [exact Hne|].
    unfold splits_storage in Es. apply orb_false_iff in Es. destruct Es as [Es _].
    apply orb_false_iff in Es. destruct Es as [E1 E2].
    apply interior_aligned; [exact Hst | apply mod0_divide, pytrue_false, E1; exact Hst |].
    eapply Forall_impl; [|apply existsb_false_Forall, E2].
    intros c Hc. apply mod0_divide, pytrue_false, Hc; exact Hst.
Qed.

(* plain case, chunks already on the grid *)
Theorem respects_axis_ok a dc st :
  a_region a = None -> 0 < st -> valid_chunks dc (a_eff a) -> dc <> [] ->
  respects_storage_axis dc st = true -> read_ok a st dc.
Proof.
  intros Hr Hst Hv Hne H. unfold read_ok. rewrite Hr. cbn [region_start].
  split; [exact Hv|]. split; [exact Hne|].
  unfold respects_storage_axis in H. rewrite forallb_forall in H.
  apply Forall_forall. intros b Hb. specialize (H b Hb). cbn [Z.add]. lia.
Qed.

(* plain case, read at a multiple of the storage chunk *)
Lemma plain_read_size_pos dc st : 0 < st -> 0 < plain_read_size dc st /\ (st | plain_read_size dc st).
Proof.
  intros Hst. unfold plain_read_size. split; [|apply Z.divide_factor_r].
  pose proof (round_up_ge (Z.max (zmax_list dc) st) st Hst). lia.
Qed.

Lemma uniform_chunks_ok d R :
  0 <= d -> 0 < R ->
  valid_chunks (uniform_chunks d R) d /\ uniform_chunks d R <> [] /\
  Forall (fun c => c = R) (removelast (uniform_chunks d R)).
Proof.
  intros Hd HR. unfold uniform_chunks. destruct (d =? 0) eqn:E0.
  - assert (d = 0) by lia. subst. split; [split; [constructor; [lia|constructor] | reflexivity]|].
    split; [discriminate | constructor].
  - pose proof (Z.div_mod d R ltac:(lia)) as Hdm. pose proof (Z.mod_pos_bound d R HR) as Hr.
    pose proof (Z.div_pos d R Hd HR) as Hq.
    generalize dependent (d / R). generalize dependent (d mod R). intros r Hr q Hdm Hq.
    assert (Forall (fun c => c = R) (repeat R (Z.to_nat q))) as Hrep
      by (apply Forall_forall; intros x Hx; apply repeat_spec in Hx; exact Hx).
    assert (zsum (repeat R (Z.to_nat q)) = R * q) as Hs by (rewrite zsum_repeat; lia).
    destruct (r =? 0) eqn:Er.
    + rewrite app_nil_r. split; [split|split].
      * eapply Forall_impl; [|exact Hrep]. cbv beta. intros c ->. lia.
      * lia.
      * destruct (Z.to_nat q) eqn:Eq; [nia|discriminate].
      * apply Forall_removelast, Hrep.
    + split; [split|split].
      * apply Forall_app. split; [eapply Forall_impl; [|exact Hrep]; cbv beta; intros c ->; lia|].
        constructor; [lia|constructor].
      * rewrite zsum_app, Hs. cbn [zsum]. lia.
      * intros Hnil. apply app_eq_nil in Hnil. destruct Hnil as [_ Hnil]. discriminate.
      * rewrite removelast_last. exact Hrep.
Qed.

Theorem plain_axis_ok a dc st :
  axis_wf a -> a_region a = None -> 0 < st ->
  read_ok a st (uniform_chunks (a_eff a) (plain_read_size dc st)).
Proof.
  intros (Hd & _ & _ & _) Hr Hst. unfold read_ok, a_eff. rewrite Hr. cbn [eff_len region_start].
  destruct (plain_read_size_pos dc st Hst) as [HR Hdiv].
  destruct (uniform_chunks_ok (a_dim a) _ Hd HR) as (H1 & H2 & H3).
  split; [exact H1|]. split; [exact H2|].
  apply interior_aligned; [exact Hst | apply Z.divide_0_r |].
  eapply Forall_impl; [|exact H3]. intros c ->. exact Hdiv.
Qed.

Lemma storage_grid_inv raw n st :
  storage_grid raw n = Some st -> raw = Some st /\ length st = n /\ Forall (fun c => 0 < c) st.
Proof.
  unfold storage_grid. destruct raw as [l|]; [|discriminate].
  destruct (negb (Nat.eqb (length l) n) || existsb (fun c => c <=? 0) l) eqn:E; [discriminate|].
  intros H. injection H as <-. apply orb_false_iff in E. destruct E as [E1 E2].
  split; [reflexivity|]. split.
  - apply Nat.eqb_eq. destruct (Nat.eqb (length l) n); [reflexivity | discriminate].
  - apply existsb_false_Forall in E2. eapply Forall_impl; [|exact E2]. cbv beta. intros c Hc. lia.
Qed.

Lemma region_read_ok chunks f : Forall2 target_ok chunks f -> forall st read,
  length st = length f -> Forall (fun c => 0 < c) st ->
  Forall axis_wf f -> Forall (fun a => region_ordered (a_dim a) (a_region a)) f ->
  region_read chunks st f = Some read ->
  Forall2 (fun r p => read_ok (fst p) (snd p) r) read (combine f st).
Proof.
  induction 1 as [|dc a chunks f [Hv Hne] Hrest IH]; intros st read Hlen Hpos Hwf Hord H.
  - cbn [region_read] in H. injection H as <-. constructor.
  - destruct st as [|s st]; [discriminate|]. cbn [region_read] in H. injection Hlen as Hlen.
    apply Forall_cons_iff in Hpos as [Hs Hpos]. apply Forall_cons_iff in Hwf as [Ha Hwf].
    apply Forall_cons_iff in Hord as [Hoa Hord].
    destruct (a_region a) as [r|] eqn:Hr; [|discriminate].
    destruct (region_read_axis dc s r (a_dim a)) as [rd|] eqn:E1; [|discriminate].
    destruct (region_read chunks st f) as [rest|] eqn:E2; [|discriminate].
    injection H as <-. cbn [combine]. constructor.
    + exact (region_read_axis_ok a r dc s rd Ha Hr Hoa Hs Hv Hne E1).
    + exact (IH st rest Hlen Hpos Hwf Hord E2).
Qed.

Lemma respects_ok chunks f : Forall2 target_ok chunks f -> forall st,
  length st = length f -> Forall (fun c => 0 < c) st ->
  Forall (fun a => a_region a = None) f ->
  respects_storage chunks st = true ->
  Forall2 (fun r p => read_ok (fst p) (snd p) r) chunks (combine f st).
Proof.
  induction 1 as [|dc a chunks f [Hv Hne] Hrest IH]; intros st Hlen Hpos Hnone H.
  - constructor.
  - destruct st as [|s st]; [discriminate|]. cbn [respects_storage] in H.
    apply andb_true_iff in H as [H1 H2]. injection Hlen as Hlen.
    apply Forall_cons_iff in Hpos as [Hs Hpos]. apply Forall_cons_iff in Hnone as [Hr Hnone].
    cbn [combine]. constructor.
    + exact (respects_axis_ok a dc s Hr Hs Hv Hne H1).
    + exact (IH st Hlen Hpos Hnone H2).
Qed.

Lemma plain_read_ok chunks f : Forall2 target_ok chunks f -> forall st,
  length st = length f -> Forall (fun c => 0 < c) st ->
  Forall axis_wf f -> Forall (fun a => a_region a = None) f ->
  Forall2 (fun r p => read_ok (fst p) (snd p) r) (plain_read chunks st (eff_shape f)) (combine f st).
Proof.
  induction 1 as [|dc a chunks f _ Hrest IH]; intros st Hlen Hpos Hwf Hnone.
  - destruct st; constructor.
  - destruct st as [|s st]; [discriminate|]. cbn [eff_shape map plain_read combine].
    injection Hlen as Hlen. apply Forall_cons_iff in Hpos as [Hs Hpos].
    apply Forall_cons_iff in Hwf as [Ha Hwf]. apply Forall_cons_iff in Hnone as [Hr Hnone]. constructor.
    + exact (plain_axis_ok a dc s Ha Hr Hs).
    + exact (IH st Hlen Hpos Hwf Hnone).
Qed.

Theorem accept_rechunk_read_ok f raw chunks st rd :
  Forall axis_wf f -> Forall (fun a => region_ordered (a_dim a) (a_region a)) f ->
  regions_uniform f -> Forall2 target_ok chunks f ->
  storage_grid raw (length f) = Some st ->
  accept_rechunk f raw chunks = PushAll rd \/ accept_rechunk f raw chunks = ReadThenRechunk rd ->
  Forall2 (fun r p => read_ok (fst p) (snd p) r) rd (combine f st).
Proof.
  intros Hwf Hord Huni Htgt Hgrid H.
  unfold accept_rechunk in H. unfold eff_shape in H. rewrite map_length, Hgrid in H.
  destruct (storage_grid_inv _ _ _ Hgrid) as (_ & Hlen & Hpos).
  unfold regions_uniform in Huni.
  destruct (has_region f) eqn:Ehr.
  - destruct (region_read chunks st f) as [read|] eqn:Er; [|destruct H; discriminate].
    pose proof (region_read_ok chunks f Htgt st read Hlen Hpos Hwf Hord Er) as Hok.
    destruct (zlist2_eqb read chunks) eqn:E1.
    + apply zlist2_eqb_eq in E1. subst read. destruct H as [H|H]; [injection H as <-; exact Hok | discriminate].
    + destruct (zlist2_eqb read (map a_chunks f)); destruct H as [H|H]; try discriminate.
      injection H as <-. exact Hok.
  - assert (Forall (fun a => a_region a = None) f) as Hnone.
    { eapply Forall_impl; [|exact Huni]. cbv beta. intros a Ha. destruct (a_region a); [discriminate | reflexivity]. }
    destruct (respects_storage chunks st) eqn:Ers.
    + destruct H as [H|H]; [|discriminate]. injection H as <-. apply respects_ok; assumption.
    + destruct (zlist2_eqb (plain_read chunks st (map a_eff f)) (map a_chunks f)); destruct H as [H|H]; try discriminate.
      injection H as <-. apply plain_read_ok; assumption.
Qed.

Theorem accept_rechunk_pushall f raw chunks c :
  accept_rechunk f raw chunks = PushAll c -> c = chunks.
Proof.
  unfold accept_rechunk. destruct (storage_grid raw (length (eff_shape f))) as [st|].
  - destruct (has_region f).
    + destruct (region_read chunks st f) as [read|]; [|discriminate].
      destruct (zlist2_eqb read chunks); [intros H; injection H as <-; reflexivity|].
      destruct (zlist2_eqb read (map a_chunks f)); discriminate.
    + destruct (respects_storage chunks st); [intros H; injection H as <-; reflexivity|].
      destruct (zlist2_eqb _ (map a_chunks f)); discriminate.
  - intros H. injection H as <-. reflexivity.
Qed.

Theorem accept_rechunk_nogrid f raw chunks :
  storage_grid raw (length f) = None -> accept_rechunk f raw chunks = PushAll chunks.
Proof. intros H. unfold accept_rechunk, eff_shape. rewrite map_length, H. reflexivity. Qed.

(* Without start <= stop the boundary list of the region case is not a layout *)
Theorem region_read_unordered_refuted :
  exists a r dc st rd,
    axis_wf a /\ a_region a = Some r /\ 0 < st /\ valid_chunks dc (a_eff a) /\ dc <> [] /\
    region_read_axis dc st r (a_dim a) = Some rd /\ ~ read_ok a st rd.
Proof.
  exists (mkaxis 0 10 (Some (mkslice (Some 8) (Some 3) None)) [0]), (mkslice (Some 8) (Some 3) None), [0], 5, [-5].
  assert (valid_chunks [0] 0) as Hv by (split; [constructor; [lia | constructor] | reflexivity]).
  split.
  { unfold axis_wf. cbn [a_dim a_region a_chunks region_unit]. split; [lia|]. split; [left; reflexivity|].
    split; [exact Hv | discriminate]. }
  split; [reflexivity|]. split; [lia|]. split; [exact Hv|]. split; [discriminate|].
  split; [vm_compute; reflexivity|].
  (* the first chunk of the read layout, -5, is negative *)
  intros ((Hnn & _) & _). inversion Hnn as [|c l Hc _]. lia.
Qed.

(* Integers must have been made non-negative (normalize_index) before _accept_slice *)
Theorem accept_axis_negative_int_refuted :
  exists a e, axis_wf a /\ e = IInt (-1) /\
    axis_positions (accept_axis a e) = [] /\ nth 2 (axis_positions a) 0 = 2 /\ lenZ (axis_positions a) = 3.
Proof.
  exists (fresh_axis 3 [3]), (IInt (-1)). split; [|vm_compute; auto].
  unfold axis_wf, fresh_axis. cbn [a_dim a_region a_chunks region_unit].
  split; [lia|]. split; [exact I|]. split; [|discriminate].
  split; [constructor; [lia | constructor] | reflexivity].
Qed.

Theorem axis_wf_b_sound a : axis_wf_b a = true -> axis_wf a.
Proof.
  unfold axis_wf_b, axis_wf. rewrite !andb_true_iff. intros [[[H1 H2] H3] H4].
  split; [lia|]. split; [|split].
  - destruct (a_region a) as [r|]; cbn [region_unit]; [apply unit_step_b_iff, H2 | exact I].
  - apply valid_chunks_b_iff, H3.
  - destruct (a_chunks a); [discriminate H4 | discriminate].
Qed.

Theorem contiguous_from_b_sound rq : forall lo hi, contiguous_from_b lo rq hi = true -> contiguous_from lo rq hi.
Proof.
  induction rq as [|p t IH]; intros lo hi H; cbn [contiguous_from_b contiguous_from] in *; [lia|].
  rewrite !andb_true_iff in H. destruct H as [[H1 H2] H3]. split; [lia|]. split; [lia | apply IH, H3].
Qed.

Theorem in_bounds_b_sound dim p : in_bounds_b dim p = true -> in_bounds dim p.
Proof. unfold in_bounds_b, in_bounds. lia. Qed.

Theorem read_ok_b_sound a st rd : read_ok_b a st rd = true -> read_ok a st rd.
Proof.
  unfold read_ok_b, read_ok. rewrite !andb_true_iff. intros [[H1 H2] H3].
  split; [apply valid_chunks_b_iff, H1|]. split; [destruct rd; [discriminate H2 | discriminate]|].
  rewrite forallb_forall in H3. apply Forall_forall. intros b Hb. specialize (H3 b Hb). lia.
Qed.
