From DA Require Import PyBase PyBaseFacts Slicing NormalizeFacts FuseFacts FromArrayFacts SetitemPlan.
Import ListNotations.
Open Scope Z_scope.

(* ceil_divmod d k is the ceiling of d / k *)
Lemma ceil_divmod_bounds d k : 0 < k -> d <= ceil_divmod d k * k < d + k.
Proof.
  intros Hk. unfold ceil_divmod.
  pose proof (Z.div_mod d k) as E. pose proof (Z.mod_pos_bound d k Hk) as B.
  destruct (d mod k =? 0) eqn:Em; lia.
Qed.

Lemma ceil_divmod_unique d k c : 0 < k -> d <= c * k < d + k -> ceil_divmod d k = c.
Proof. intros Hk Hc. pose proof (ceil_divmod_bounds d k Hk). generalize dependent (ceil_divmod d k). intros; nia. Qed.

Lemma ceil_divmod_mul d k : 0 < k -> 0 <= d -> d <= ceil_divmod d k * k < d + k.
Proof. intros Hk _. apply ceil_divmod_bounds, Hk. Qed.

Lemma ceil_divmod_range s t k : 0 < k -> s < t -> ceil_divmod (t - s) k = range_len s t k.
Proof.
  intros Hk Hst. apply ceil_divmod_unique; [exact Hk|].
  pose proof (range_len_pos_last s t k Hk Hst). pose proof (range_len_pos_next s t k Hk Hst). lia.
Qed.

(* a parsed slice (a, b, k), k > 0, addresses the progression a, a + k, a + 2k, ... below b *)
Lemma in_sl_member a b k p : 0 < k -> (in_sl a b k p <-> exists m, 0 <= m /\ p = a + m * k /\ p < b).
Proof.
  intros Hk. unfold in_sl. rewrite Z.mod_divide by lia. split.
  - intros [Hr [m Hm]]. exists m. nia.
  - intros (m & Hm & -> & Hb). split; [nia|]. exists m. lia.
Qed.

(* pre = ceil((loc0 - a) / k), at least 0, is the index of the first member at or after loc0 *)
Lemma first_member a k loc0 : 0 < k ->
  let pre := ceil_divmod (loc0 - Z.min a loc0) k in
  0 <= pre /\ loc0 <= a + pre * k /\ forall m, 0 <= m -> loc0 <= a + m * k -> pre <= m.
Proof.
  intros Hk pre. pose proof (ceil_divmod_bounds (loc0 - Z.min a loc0) k Hk) as B. fold pre in B. clearbody pre.
  split; [nia|]. split; [lia|]. intros m Hm Hl. nia.
Qed.

(* ... and the kernel's local start is that member *)
Lemma local_start a k loc0 : 0 < k ->
  (if a - loc0 <? 0 then (a - loc0) mod k else a - loc0) = a + ceil_divmod (loc0 - Z.min a loc0) k * k - loc0.
Proof.
  intros Hk. pose proof (ceil_divmod_bounds (loc0 - Z.min a loc0) k Hk) as B.
  generalize dependent (ceil_divmod (loc0 - Z.min a loc0) k). intros pre B.
  destruct (a - loc0 <? 0) eqn:E.
  - symmetry. apply (Z.mod_unique_pos _ _ (- pre)); lia.
  - assert (pre = 0) by nia. lia.
Qed.

(* the members from index pre on, cut at the end of the block or of the slice, in block coordinates *)
Lemma block_members a b k loc0 loc1 pre q :
  0 < k -> 0 <= pre -> (forall m, 0 <= m -> loc0 <= a + m * k -> pre <= m) -> 0 <= q < loc1 - loc0 ->
  (in_sl (a + pre * k - loc0) (Z.min loc1 b - loc0) k q <-> in_sl a b k (loc0 + q)).
Proof.
  intros Hk Hp Hmin Hq. rewrite !in_sl_member by exact Hk. split.
  - intros (m & Hm & E & Hb). exists (pre + m). lia.
  - intros (m & Hm & E & Hb). specialize (Hmin m Hm ltac:(lia)). exists (m - pre). lia.
Qed.

(* they are the members number pre, pre + 1, ... of the whole slice *)
Lemma block_count a b k pre s t :
  0 < k -> 0 <= pre -> s < t -> a + pre * k + (t - s) <= b ->
  0 < range_len s t k /\ pre + range_len s t k <= range_len a b k.
Proof.
  intros Hk Hp Hst Hb.
  pose proof (range_len_pos_last s t k Hk Hst). pose proof (range_len_pos_next s t k Hk Hst).
  pose proof (range_len_pos_next a b k Hk ltac:(nia)). nia.
Qed.

(* what the block loop computes for the axis, in closed form *)
Lemma axis_block_slice a b k loc0 loc1 : 0 < k -> 0 <= a -> 0 <= loc0 < loc1 ->
  let pre := ceil_divmod (loc0 - Z.min a loc0) k in
  let s := a + pre * k - loc0 in
  let t := Z.min loc1 b - loc0 in
  axis_block (PSl a b k) loc0 loc1 =
  if s >=? t then None else Some (SSlice (mkslice (Some s) (Some t) (Some k)), Some (range_len s t k), Some pre).
Proof.
  intros Hk Ha Hl pre s t. destruct (first_member a k loc0 Hk) as (_ & Hlo & _). fold pre in Hlo.
  unfold axis_block. cbv zeta. rewrite (local_start a k loc0 Hk). fold pre s.
  replace (if b <? loc1 then loc1 - loc0 - (loc1 - b) else loc1 - loc0) with t by (unfold t; break_if; lia).
  destruct (s >=? t) eqn:Est; [reflexivity|].
  rewrite indices_nonneg; cbn [s_start s_stop].
  - cbn [start_or0 clip_stop s_start s_stop]. rewrite ceil_divmod_range by lia.
    replace (Z.min b loc0) with loc0 by lia. reflexivity.
  - lia.
  - exact Hk.
  - intros x [= <-]. lia.
  - intros x [= <-]. lia.
Qed.

Theorem axis_block_slice_spec a b k loc0 loc1 :
  0 < k -> 0 <= a -> 0 <= loc0 < loc1 ->
  match axis_block (PSl a b k) loc0 loc1 with
  | None => forall p, loc0 <= p < loc1 -> ~ in_sl a b k p
  | Some (bi, osz, opre) =>
      exists s t sz pre,
        bi = SSlice (mkslice (Some s) (Some t) (Some k)) /\ osz = Some sz /\ opre = Some pre /\
        0 <= s < t /\ t <= loc1 - loc0 /\ sz = range_len s t k /\ 0 < sz /\ 0 <= pre /\
        pre * k = loc0 + s - a /\
        pre + sz <= range_len a b k /\
        (forall q, 0 <= q < loc1 - loc0 -> (in_sl s t k q <-> in_sl a b k (loc0 + q)))
  end.
Proof.
  intros Hk Ha Hl. rewrite axis_block_slice by assumption. cbv zeta.
  destruct (first_member a k loc0 Hk) as (Hp & Hlo & Hmin).
  generalize dependent (ceil_divmod (loc0 - Z.min a loc0) k). intros pre Hp Hlo Hmin.
  pose proof (fun q => block_members a b k loc0 loc1 pre q Hk Hp Hmin) as Hmem.
  destruct (a + pre * k - loc0 >=? Z.min loc1 b - loc0) eqn:Est.
  - intros p Hpb Hin. replace p with (loc0 + (p - loc0)) in Hin by lia.
    apply Hmem in Hin; [|lia]. destruct Hin as [Hr _]. lia.
  - destruct (block_count a b k pre (a + pre * k - loc0) (Z.min loc1 b - loc0) Hk Hp) as [Hsz Hle]; [lia..|].
    exists (a + pre * k - loc0), (Z.min loc1 b - loc0), (range_len (a + pre * k - loc0) (Z.min loc1 b - loc0) k), pre.
    repeat (split; [reflexivity || lia|]). exact Hmem.
Qed.

Theorem axis_block_int_spec i loc0 loc1 :
  match axis_block (PInt i) loc0 loc1 with
  | None => forall p, loc0 <= p < loc1 -> p <> i
  | Some (bi, osz, opre) => bi = SInt (i - loc0) /\ osz = None /\ opre = None /\ 0 <= i - loc0 < loc1 - loc0
  end.
Proof. unfold axis_block. break_if; [repeat split; lia | intros p Hp; lia]. Qed.

Lemma last_idx_ge p l : forall i r, last_idx p l i = Some r -> i <= r.
Proof.
  induction l as [|x t IH]; intros i r H; cbn in H; [discriminate|].
  destruct (last_idx p t (i + 1)) eqn:E.
  - injection H as <-. apply IH in E. lia.
  - destruct (x =? p); [injection H as <-; lia | discriminate].
Qed.

Lemma last_idx_none p l : forall i, last_idx p l i = None <-> ~ In p l.
Proof.
  induction l as [|x t IH]; intros i; cbn; [tauto|].
  destruct (last_idx p t (i + 1)) eqn:E.
  - split; [discriminate|]. intros H. exfalso. apply H. right.
    destruct (in_dec Z.eq_dec p t) as [Hi|Hn]; [exact Hi|]. apply (IH (i + 1)) in Hn. congruence.
  - apply IH in E. destruct (x =? p) eqn:Ex; split; try discriminate; try tauto.
    + intros H. exfalso. apply H. left. lia.
    + intros _ [H|H]; [lia | tauto].
Qed.

Lemma block_list_bounds l loc0 loc1 : Forall (fun q => 0 <= q < loc1 - loc0) (block_list l loc0 loc1).
Proof.
  induction l as [|x t IH]; cbn [block_list]; [constructor|].
  destruct ((loc0 <=? x) && (x <? loc1)) eqn:E; [constructor; [lia | exact IH] | exact IH].
Qed.

Lemma where_in_bounds l loc0 loc1 : forall i, Forall (fun r => i <= r < i + lenZ l) (where_in i l loc0 loc1).
Proof.
  unfold lenZ. induction l as [|x t IH]; intros i; cbn [where_in]; [constructor|].
  assert (Forall (fun r => i <= r < i + Z.of_nat (length (x :: t))) (where_in (i + 1) t loc0 loc1)) as H.
  { eapply Forall_impl; [|apply (IH (i + 1))]. cbn [length]. intros r Hr. lia. }
  destruct ((loc0 <=? x) && (x <? loc1)) eqn:E; [constructor; [cbn [length]; lia | exact H] | exact H].
Qed.

(* the block index lists the entries of l found at the places where_in reports *)
Lemma block_list_where l loc0 loc1 : forall i,
  block_list l loc0 loc1 = map (fun r => nth (Z.to_nat (r - i)) l 0 - loc0) (where_in i l loc0 loc1).
Proof.
  induction l as [|x t IH]; intros i; cbn [block_list where_in]; [reflexivity|].
  assert (Hs : block_list t loc0 loc1 = map (fun r => nth (Z.to_nat (r - i)) (x :: t) 0 - loc0) (where_in (i + 1) t loc0 loc1)).
  { rewrite (IH (i + 1)). apply map_ext_in. intros r Hr.
    pose proof (proj1 (Forall_forall _ _) (where_in_bounds t loc0 loc1 (i + 1)) r Hr) as Hb. cbv beta in Hb.
    replace (Z.to_nat (r - i)) with (S (Z.to_nat (r - (i + 1)))) by lia. reflexivity. }
  destruct ((loc0 <=? x) && (x <? loc1)); [|exact Hs]. cbn [map]. rewrite Z.sub_diag. f_equal. exact Hs.
Qed.

(* LAST WRITE WINS, globally and in the block alike: the value coordinate NumPy writes last at position p of the
   whole axis is the image, under the value index of the block, of the one the kernel writes last at p - loc0 *)
Lemma last_idx_block l loc0 loc1 p : loc0 <= p < loc1 -> forall i j,
  last_idx p l i =
  match last_idx (p - loc0) (block_list l loc0 loc1) j with
  | Some k => Some (nth (Z.to_nat (k - j)) (where_in i l loc0 loc1) 0)
  | None => None
  end.
Proof.
  intros Hp. induction l as [|x t IH]; intros i j; cbn [last_idx block_list where_in]; [reflexivity|].
  destruct ((loc0 <=? x) && (x <? loc1)) eqn:E.
  - cbn [last_idx]. rewrite (IH (i + 1) (j + 1)).
    destruct (last_idx (p - loc0) (block_list t loc0 loc1) (j + 1)) as [k|] eqn:Ek.
    + apply last_idx_ge in Ek.
      replace (Z.to_nat (k - j)) with (S (Z.to_nat (k - (j + 1)))) by lia. reflexivity.
    + replace (x - loc0 =? p - loc0) with (x =? p) by lia.
      destruct (x =? p); [|reflexivity]. replace (j - j) with 0 by lia. reflexivity.
  - rewrite (IH (i + 1) j).
    destruct (last_idx (p - loc0) (block_list t loc0 loc1) j); [reflexivity|].
    destruct (x =? p) eqn:Ex; [lia | reflexivity].
Qed.

Theorem axis_block_list_spec l loc0 loc1 :
  match axis_block (PLst l) loc0 loc1 with
  | None => forall p, loc0 <= p < loc1 -> ~ In p l
  | Some (bi, osz, opre) =>
      let bl := block_list l loc0 loc1 in
      let w := where_in 0 l loc0 loc1 in
      bi = SList bl /\ osz = None /\ opre = None /\ bl <> [] /\ length bl = length w /\
      Forall (fun q => 0 <= q < loc1 - loc0) bl /\ Forall (fun r => 0 <= r < lenZ l) w /\
      (forall k, (k < length bl)%nat -> loc0 + nth k bl 0 = nth (Z.to_nat (nth k w 0)) l 0) /\
      (forall p, loc0 <= p < loc1 ->
         last_idx p l 0 = match last_idx (p - loc0) bl 0 with Some k => Some (nth (Z.to_nat k) w 0) | None => None end)
  end.
Proof.
  unfold axis_block. destruct (block_list l loc0 loc1) as [|q0 bl'] eqn:Eb.
  - intros p Hp. apply (last_idx_none p l 0). rewrite (last_idx_block l loc0 loc1 p Hp 0 0), Eb. reflexivity.
  - rewrite <- Eb. cbv zeta.
    split; [reflexivity|]. split; [reflexivity|]. split; [reflexivity|]. split; [rewrite Eb; discriminate|].
    split; [rewrite (block_list_where l loc0 loc1 0); apply map_length|]. split; [apply block_list_bounds|].
    split; [apply (where_in_bounds l loc0 loc1 0)|]. split.
    + intros k Hk. rewrite (block_list_where l loc0 loc1 0) in Hk |- *. rewrite map_length in Hk.
      set (f := fun r => nth (Z.to_nat (r - 0)) l 0 - loc0).
      rewrite (nth_indep _ 0 (f 0)), (map_nth f) by (rewrite map_length; exact Hk). unfold f. rewrite Z.sub_0_r. lia.
    + intros p Hp. rewrite (last_idx_block l loc0 loc1 p Hp 0 0).
      destruct (last_idx (p - loc0) (block_list l loc0 loc1) 0); [rewrite Z.sub_0_r|]; reflexivity.
Qed.

(* N-d frame: a block is passed through untouched iff some axis has no overlap *)
Lemma axis_block_none ix l0 l1 :
  wf_pidx1 ix -> 0 <= l0 < l1 -> axis_block ix l0 l1 = None ->
  forall x, l0 <= x < l1 -> ~ addressed1 ix x.
Proof.
  intros Hw Hl H x Hx. destruct ix as [i|a b k|l]; cbn [addressed1].
  - pose proof (axis_block_int_spec i l0 l1) as Hspec. rewrite H in Hspec. apply Hspec. exact Hx.
  - destruct Hw as [Hk Ha]. pose proof (axis_block_slice_spec a b k l0 l1 Hk Ha Hl) as Hspec.
    rewrite H in Hspec. apply Hspec. exact Hx.
  - pose proof (axis_block_list_spec l l0 l1) as Hspec. rewrite H in Hspec. apply Hspec. exact Hx.
Qed.

Lemma block_loop_none idx : forall ls d p,
  Forall wf_pidx1 idx -> Forall wf_loc ls -> Forall2 in_block ls p ->
  block_loop d idx ls = None -> ~ Forall2 addressed1 idx p.
Proof.
  induction idx as [|ix idx IH]; intros ls d p Hw Hl Hin H Ha; [cbn in H; discriminate|].
  destruct ls as [|[l0 l1] ls]; [cbn in H; discriminate|].
  inversion Hin as [|? x ? p' Hx Hin']; subst.
  inversion Ha as [|? ? ? ? Ha1 Ha']; subst.
  inversion Hw as [|? ? Hw1 Hw']; subst. inversion Hl as [|? ? Hl1 Hl']; subst.
  cbn [block_loop] in H. unfold in_block, wf_loc in *. cbn [fst snd] in *.
  destruct (axis_block ix l0 l1) as [[[bi sz] pre]|] eqn:E.
  - (* d' is the dim argument of the recursive call; which one depends on the constructor of ix *)
    match type of H with context [block_loop ?d' idx ls] =>
      destruct (block_loop d' idx ls) eqn:E2; [discriminate|];
      exact (IH ls d' p' Hw' Hl' Hin' E2 Ha')
    end.
  - exact (axis_block_none ix l0 l1 Hw1 Hl1 E x Hx Ha1).
Qed.

Lemma block_plan_untouched_iff pr vshape ls :
  block_plan pr vshape ls = BUntouched <-> block_loop 0 (p_idx pr) ls = None.
Proof.
  unfold block_plan. destruct (block_loop 0 (p_idx pr) ls); [|tauto].
  split; [|discriminate].
  (* every other result of block_plan is BCrash or BTouched *)
  repeat break_if; discriminate.
Qed.

(* blocks reported untouched contain no indexed position; equivalently every indexed position lies in a touched block *)
Theorem plan_frame_untouched pr vshape ls p :
  Forall wf_pidx1 (p_idx pr) -> Forall wf_loc ls -> Forall2 in_block ls p ->
  block_plan pr vshape ls = BUntouched -> ~ Forall2 addressed1 (p_idx pr) p.
Proof. intros Hw Hl Hin H. apply block_plan_untouched_iff in H. exact (block_loop_none _ ls 0 p Hw Hl Hin H). Qed.

Theorem plan_frame_touched pr vshape ls p :
  Forall wf_pidx1 (p_idx pr) -> Forall wf_loc ls -> Forall2 in_block ls p ->
  Forall2 addressed1 (p_idx pr) p -> block_plan pr vshape ls <> BUntouched.
Proof. intros Hw Hl Hin Ha H. exact (plan_frame_untouched pr vshape ls p Hw Hl Hin H Ha). Qed.

(* ... and the blocks of an axis are disjoint: a position lies in exactly one of them.  locs_from is the function
   FromArrayModel.slices_from (array_locations and slices_from_chunks compute the same list) *)
Theorem locs_disjoint cs : Forall (fun c => 0 <= c) cs -> forall off l l' x,
  In l (locs_from off cs) -> In l' (locs_from off cs) -> in_block l x -> in_block l' x -> l = l'.
Proof. intros Hc off l l' x. apply (contiguous_unique _ off (off + zsum cs)), slices_from_contiguous, Hc. Qed.

Lemma find_loc_spec x cs : forall off l, find_loc x (locs_from off cs) = Some l -> In l (locs_from off cs) /\ in_block l x.
Proof.
  induction cs as [|c t IH]; intros off l H; cbn in H; [discriminate|].
  destruct ((off <=? x) && (x <? off + c)) eqn:E.
  - injection H as <-. split; [left; reflexivity | unfold in_block; cbn; lia].
  - apply IH in H. split; [right; tauto | tauto].
Qed.

Lemma find_loc_total x cs : forall off, off <= x < off + zsum cs -> find_loc x (locs_from off cs) <> None.
Proof.
  induction cs as [|c t IH]; intros off H; cbn in H |- *; [lia|].
  destruct ((off <=? x) && (x <? off + c)) eqn:E; [discriminate|]. apply IH. lia.
Qed.

Lemma pai_slice_shape s size : exists a b k m hp rev, pai_slice s size = (PSl a b k, m, hp, rev).
Proof.
  unfold pai_slice. destruct (indices s size) as [[a b] k].
  destruct (k <? 0).
  - destruct (indices _ size) as [[a' b'] k'].
    destruct (indices _ size) as [[a2 b2] k2]. break_if; repeat eexists.
  - destruct (indices _ size) as [[a2 b2] k2]. break_if; repeat eexists.
Qed.

(* the start of a recast negative-step slice: stop + 1 + (start - stop - 1) mod K *)
Lemma recast_start_nonneg a b K : 0 < K -> -1 <= b -> 0 <= a - (a - b - 1) / K * K.
Proof.
  intros HK Hb. pose proof (Z.div_mod (a - b - 1) K ltac:(lia)). pose proof (Z.mod_pos_bound (a - b - 1) K HK). lia.
Qed.

Lemma pai_slice_wf s size : 0 <= size -> step_of s <> 0 ->
  wf_pidx1 (fst (fst (fst (pai_slice s size)))).
Proof.
  intros Hn Hk. unfold pai_slice.
  destruct (indices s size) as [[a b] k] eqn:Hi.
  pose proof (indices_bounds s size a b k Hn Hi) as (Hstep & Hpos & _). clear Hi.
  destruct (k <? 0) eqn:Ek.
  - set (ix := mkslice _ _ _). destruct (indices ix size) as [[a' b'] k'] eqn:Hi2.
    pose proof (indices_bounds ix size a' b' k' Hn Hi2) as (Hstep2 & _ & Hneg2).
    change (step_of ix) with k in Hstep2. subst k'. clear Hi2 ix.
    cbv zeta. destruct (indices _ size) as [[a2 b2] k2]. cbv beta iota.
    destruct (_ && _); cbn [fst wf_pidx1]; (split; [lia | apply recast_start_nonneg; lia]).
  - cbv zeta. destruct (indices _ size) as [[a2 b2] k2]. cbv beta iota. destruct (_ && _); cbn [fst wf_pidx1]; lia.
Qed.

Lemma normalize_slice_step s d : step_of s <> 0 -> step_of (normalize_slice s d) <> 0.
Proof.
  intros Hk. unfold normalize_slice, indices. cbv zeta.
  (* in every branch the step field is Some (step_of s), or None when step_of s = 1 *)
  repeat break_if; unfold step_of; cbn [s_step]; try lia; fold (step_of s); lia.
Qed.

Lemma norm_entry_ok e d e' : norm_entry e d = Some e' -> step_ok e'.
Proof.
  destruct e as [i|s|l]; unfold norm_entry; intros H.
  - destruct (check_int d i); [|discriminate]. injection H as <-. exact I.
  - destruct (step_of s =? 0) eqn:E; [discriminate|]. injection H as <-. cbn [step_ok].
    apply normalize_slice_step. lia.
  - destruct (forallb (check_int d) l); [|discriminate]. injection H as <-. exact I.
Qed.

Lemma norm_entries_ok idx : forall shape n, norm_entries idx shape = Some n -> Forall step_ok n.
Proof.
  induction idx as [|e idx IH]; intros shape.
  - induction shape as [|d shape IHs]; intros n H; cbn [norm_entries] in H.
    + injection H as <-. constructor.
    + destruct (norm_entry (SSlice colon) d) eqn:E1; [|discriminate].
      destruct (norm_entries [] shape) eqn:E2; [|discriminate]. injection H as <-.
      constructor; [exact (norm_entry_ok _ _ _ E1) | exact (IHs _ eq_refl)].
  - intros n H. destruct shape as [|d shape]; cbn [norm_entries] in H; [discriminate|].
    destruct (norm_entry e d) eqn:E1; [|discriminate].
    destruct (norm_entries idx shape) eqn:E2; [|discriminate]. injection H as <-.
    constructor; [exact (norm_entry_ok _ _ _ E1) | exact (IH _ _ E2)].
Qed.

Lemma pai_loop_wf idx : forall shape i nl r,
  Forall (fun d => 0 <= d) shape -> Forall step_ok idx -> pai_loop i nl idx shape = Some r -> Forall wf_pidx1 (pa_idx r).
Proof.
  induction idx as [|e idx IH]; intros shape i nl r Hs Hok H.
  - cbn in H. injection H as <-. constructor.
  - destruct shape as [|d shape]; [cbn in H; injection H as <-; constructor|].
    inversion Hs as [|? ? Hd Hs']; subst. inversion Hok as [|? ? He Hok']; subst.
    cbn [pai_loop] in H. destruct e as [k|s|l].
    + destruct (pai_loop (i + 1) nl idx shape) eqn:E; [|discriminate]. injection H as <-. cbn [pa_idx].
      constructor; [exact I | exact (IH _ _ _ _ Hs' Hok' E)].
    + pose proof (pai_slice_wf s d Hd He) as W.
      destruct (pai_slice s d) as [[[p m] hp] rev]. cbn [fst] in W. cbv beta iota in H.
      destruct (pai_loop (i + 1) nl idx shape) eqn:E; [|discriminate]. injection H as <-. cbn [pa_idx].
      constructor; [exact W | exact (IH _ _ _ _ Hs' Hok' E)].
    + destruct (nl + 1 >? 1); [discriminate|].
      destruct (pai_loop (i + 1) (nl + 1) idx shape) eqn:E; [|discriminate]. injection H as <-. cbn [pa_idx].
      constructor; [exact I | exact (IH _ _ _ _ Hs' Hok' E)].
Qed.

(* every accepted assignment is parsed into well-formed entries: the hypothesis of the frame theorems is discharged *)
Theorem parse_wf idx shape vshape pr :
  Forall (fun d => 0 <= d) shape -> parse idx shape vshape = Some pr -> Forall wf_pidx1 (p_idx pr).
Proof.
  intros Hs H. unfold parse, parse_assignment_indices in H.
  destruct (norm_entries idx shape) as [n|] eqn:En; [|discriminate].
  destruct (pai_loop 0 0 n shape) as [pa|] eqn:Ep; [|discriminate].
  pose proof (pai_loop_wf n shape 0 0 pa Hs (norm_entries_ok _ _ _ En) Ep) as W.
  cbv zeta in H.
  destruct (existsb (Z.eqb 0) (pa_implied pa) && negb (lenZ vshape =? 0) && (zmax_list vshape >? 1)); [discriminate|].
  destruct (lenZ (pa_implied pa) - lenZ vshape >=? 0).
  - destruct (base_loop _ _ _ _) as [[bs nb]|]; [|discriminate]. injection H as <-. exact W.
  - destruct (negb _); [discriminate|].
    destruct (base_loop _ _ _ _) as [[bs nb]|]; [|discriminate]. injection H as <-. exact W.
Qed.

Theorem plan_frame_untouched_parse idx shape vshape pr ls p :
  Forall (fun d => 0 <= d) shape -> parse idx shape vshape = Some pr ->
  Forall wf_loc ls -> Forall2 in_block ls p ->
  block_plan pr vshape ls = BUntouched -> ~ Forall2 addressed1 (p_idx pr) p.
Proof. intros Hs Hp. exact (plan_frame_untouched pr vshape ls p (parse_wf idx shape vshape pr Hs Hp)). Qed.

Theorem plan_frame_touched_parse idx shape vshape pr ls p :
  Forall (fun d => 0 <= d) shape -> parse idx shape vshape = Some pr ->
  Forall wf_loc ls -> Forall2 in_block ls p ->
  Forall2 addressed1 (p_idx pr) p -> block_plan pr vshape ls <> BUntouched.
Proof. intros Hs Hp. exact (plan_frame_touched pr vshape ls p (parse_wf idx shape vshape pr Hs Hp)). Qed.

Theorem plan_denotation_untouched idx shape x chunks pr vshape v p ls :
  Forall (fun d => 0 <= d) shape -> parse idx shape vshape = Some pr ->
  Forall wf_loc ls -> Forall2 in_block ls p ->
  find_locs p chunks = Some ls -> block_plan pr vshape ls = BUntouched ->
  plan_setitem x chunks pr vshape v p = Some (x p) /\ ~ Forall2 addressed1 (p_idx pr) p.
Proof.
  intros Hs Hp Hl Hin Hf Hb. split.
  - unfold plan_setitem. rewrite Hf, Hb. reflexivity.
  - exact (plan_frame_untouched_parse idx shape vshape pr ls p Hs Hp Hl Hin Hb).
Qed.
