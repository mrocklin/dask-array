(* ProtocolFacts.v — proofs about the collection-protocol model (Protocol.v): Python-dict laws, the block
   grid, what FromGraph._layer does outcome by outcome (fg_layer_spec, through one iteration of its loop
   and the characterisation of the inferred layer name), RootAlias, the rebuild, and the agreement of
   the entry points in the task-graph model of Graph.v. *)
From Coq Require Import List Bool ZArith PArith Lia.
From DA Require Import PyBase PyBaseFacts Graph GraphFacts Protocol.
Import ListNotations.
Open Scope Z_scope.

Lemma lkey_eqb_eq : forall a b, lkey_eqb a b = true <-> a = b.
Proof.
  intros [n i|x] [m j|y]; cbn; try (split; discriminate).
  - rewrite andb_true_iff, Pos.eqb_eq, zlist_eqb_eq.
    split; [intros [-> ->]; reflexivity | intro E; inversion E; auto].
  - rewrite Pos.eqb_eq. split; [intros ->; reflexivity | intro E; inversion E; reflexivity].
Qed.

Lemma lkey_eqb_refl : forall a, lkey_eqb a a = true.
Proof. intro a. apply lkey_eqb_eq. reflexivity. Qed.

Lemma lkey_eqb_neq : forall a b, lkey_eqb a b = false <-> a <> b.
Proof. intros a b. rewrite <- lkey_eqb_eq, not_true_iff_false. reflexivity. Qed.

Lemma lval_eqb_eq : forall a b, lval_eqb a b = true <-> a = b.
Proof.
  intros [x|x|k] [y|y|l]; cbn; try (split; discriminate);
    rewrite ?Pos.eqb_eq, ?lkey_eqb_eq; (split; [intros ->; reflexivity | intro E; inversion E; reflexivity]).
Qed.

Lemma d_get_set_same : forall k v d, d_get k (d_set k v d) = Some v.
Proof.
  intros k v d; induction d as [|[k' v'] t IH]; cbn.
  - rewrite lkey_eqb_refl. reflexivity.
  - destruct (lkey_eqb k k') eqn:E; cbn; rewrite E; [reflexivity | exact IH].
Qed.

Lemma d_get_set_other : forall k k' v d, k' <> k -> d_get k' (d_set k v d) = d_get k' d.
Proof.
  intros k k' v d Hne; induction d as [|[k0 v0] t IH]; cbn.
  - apply lkey_eqb_neq in Hne. rewrite Hne. reflexivity.
  - destruct (lkey_eqb k k0) eqn:E; cbn.
    + apply lkey_eqb_eq in E. subst k0. apply lkey_eqb_neq in Hne. rewrite Hne. reflexivity.
    + rewrite IH. reflexivity.
Qed.

Lemma d_get_del_same : forall k d, d_get k (d_del k d) = None.
Proof.
  intros k d; unfold d_del; induction d as [|[k0 v0] t IH]; cbn; [reflexivity|].
  destruct (lkey_eqb k k0) eqn:E; cbn; [exact IH|]. rewrite E. exact IH.
Qed.

Lemma d_get_del_other : forall k k' d, k' <> k -> d_get k' (d_del k d) = d_get k' d.
Proof.
  intros k k' d Hne; unfold d_del; induction d as [|[k0 v0] t IH]; cbn; [reflexivity|].
  destruct (lkey_eqb k k0) eqn:E; cbn.
  - apply lkey_eqb_eq in E. subst k0. apply lkey_eqb_neq in Hne. rewrite Hne. exact IH.
  - rewrite IH. reflexivity.
Qed.

Lemma d_mem_in : forall k d, d_mem k d = true <-> In k (map fst d).
Proof.
  intros k d. unfold d_mem. induction d as [|[k0 v0] t IH]; cbn.
  - split; [discriminate | contradiction].
  - destruct (lkey_eqb k k0) eqn:E.
    + apply lkey_eqb_eq in E. subst. split; auto.
    + rewrite IH. apply lkey_eqb_neq in E. split; [auto | intros [H|H]; [congruence | exact H]].
Qed.

Lemma d_mem_get : forall k d, d_mem k d = true -> exists v, d_get k d = Some v.
Proof. intros k d. unfold d_mem. destruct (d_get k d); [eauto | discriminate]. Qed.

Lemma map_of_nat_inj : forall a b : list nat, map Z.of_nat a = map Z.of_nat b -> a = b.
Proof.
  induction a as [|x a IH]; intros [|y b] H; cbn in H; try discriminate; [reflexivity|].
  inversion H. f_equal; [lia | apply IH; assumption].
Qed.

Theorem zgrid_NoDup : forall nb, NoDup (zgrid nb).
Proof. intro nb. unfold zgrid. apply NoDup_map_inj; [exact map_of_nat_inj | apply grid_NoDup]. Qed.

(* in bounds: block id b is in the grid iff 0 <= b_i < numblocks_i on every axis *)
Theorem zgrid_in : forall nb b, In b (zgrid nb) <-> Forall2 (fun i n => 0 <= i < Z.of_nat n) b nb.
Proof.
  intros nb b. unfold zgrid. rewrite in_map_iff. split.
  - intros [i [E Hi]]. subst b. apply grid_in_bounds in Hi. unfold in_bounds in Hi.
    induction Hi; cbn; constructor; [lia | assumption].
  - intro H. exists (map Z.to_nat b). rewrite grid_in_bounds. unfold in_bounds.
    induction H as [|x n b nb Hx _ [IH1 IH2]]; cbn; [split; [reflexivity | constructor]|].
    split; [rewrite IH1; f_equal; lia | constructor; [lia | exact IH2]].
Qed.

Theorem zgrid_length_idx : forall nb b, In b (zgrid nb) -> length b = length nb.
Proof. intros nb b H. apply zgrid_in in H. induction H; cbn; congruence. Qed.

Lemma zl_mem_in : forall x l, zl_mem x l = true <-> In x l.
Proof.
  intros x l; induction l as [|y t IH]; cbn; [split; [discriminate|contradiction]|].
  rewrite orb_true_iff, IH, zlist_eqb_eq. split; intros [H|H]; auto.
Qed.

Lemma set_eqb_spec : forall a b, set_eqb a b = true <-> (forall x, In x a <-> In x b).
Proof.
  intros a b. unfold set_eqb. rewrite andb_true_iff, !(forallb_spec _ _ _ _ (fun x => zl_mem_in x _)).
  split; [intros [H1 H2] x; split; auto | intro H; split; intros x Hx; apply H; exact Hx].
Qed.

(* the key found is one of block b, and it is in the dict unless it is the inferred one *)
Lemma find_layer_key_some : forall by_bid self inf dsk b lk,
  find_layer_key by_bid self inf dsk b = Some lk ->
  exists n, lk = KB n b /\ (d_mem (KB n b) dsk = true \/ inf = Some n).
Proof.
  intros by_bid self inf dsk b lk. unfold find_layer_key.
  assert (Hfallback : (if d_mem (KB self b) dsk then Some (KB self b)
                       else match inf with Some n => Some (KB n b) | None => None end) = Some lk ->
                      exists n, lk = KB n b /\ (d_mem (KB n b) dsk = true \/ inf = Some n)).
  { destruct (d_mem (KB self b) dsk) eqn:E; [intro H; inversion H; eauto|].
    destruct inf; intro H; inversion H; eauto. }
  destruct (assoc_bid b by_bid) as [n|]; [|exact Hfallback].
  destruct (d_mem (KB n b) dsk) eqn:E; [intro H; inversion H; eauto | exact Hfallback].
Qed.

(* the search looks only at keys with this block id *)
Lemma find_layer_key_ext : forall by_bid self inf d1 d2 b,
  (forall n, d_get (KB n b) d1 = d_get (KB n b) d2) ->
  find_layer_key by_bid self inf d1 b = find_layer_key by_bid self inf d2 b.
Proof.
  intros by_bid self inf d1 d2 b H. unfold find_layer_key, d_mem.
  destruct (assoc_bid b by_bid) as [n|]; rewrite ?(H n), (H self); reflexivity.
Qed.

(* what the output dict holds for block b when the source is (n, b) with value v *)
Definition bridged (self : name) (out : dict) (b : list Z) (n : name) (v : lval) : Prop :=
  if is_task v && negb (Pos.eqb n self)
  then d_get (KB self b) out = Some (AliasTo (KB n b)) /\ d_get (KB n b) out = Some v
  else d_get (KB self b) out = Some v.

Lemma bridged_ext : forall self d1 d2 b n v,
  (forall n', d_get (KB n' b) d2 = d_get (KB n' b) d1) -> bridged self d1 b n v -> bridged self d2 b n v.
Proof. intros self d1 d2 b n v H. unfold bridged. rewrite !H. auto. Qed.

(* one iteration of the loop: it reads and writes keys of block b only *)
Lemma fg_loop_cons : forall by_bid self inf b t dsk,
  (forall m, inf = Some m -> d_mem (KB m b) dsk = true) ->
  match find_layer_key by_bid self inf dsk b with
  | None => fg_loop by_bid self inf (b :: t) dsk = FErrNotFound
  | Some lk => exists n v d',
      lk = KB n b /\ d_get (KB n b) dsk = Some v /\
      fg_loop by_bid self inf (b :: t) dsk = fg_loop by_bid self inf t d' /\
      (forall k, (forall n', k <> KB n' b) -> d_get k d' = d_get k dsk) /\
      bridged self d' b n v
  end.
Proof.
  intros by_bid self inf b t dsk Hinf. cbn [fg_loop].
  destruct (find_layer_key by_bid self inf dsk b) as [lk|] eqn:Ef; [|reflexivity].
  destruct (find_layer_key_some _ _ _ _ _ _ Ef) as [n [-> Hmem]].
  destruct (d_mem_get (KB n b) dsk) as [v Ev]; [destruct Hmem as [H|H]; [exact H | exact (Hinf n H)]|].
  exists n, v. unfold bridged. destruct (lkey_eqb (KB self b) (KB n b)) eqn:Eself.
  - (* our own key: nothing to do *)
    apply lkey_eqb_eq in Eself. inversion Eself; subst n. exists dsk.
    rewrite Pos.eqb_refl, andb_false_r. auto.
  - apply lkey_eqb_neq in Eself.
    assert (Hns : Pos.eqb n self = false) by (apply Pos.eqb_neq; intros ->; apply Eself; reflexivity).
    rewrite Ev, Hns. destruct (is_task v); cbn [andb negb].
    + exists (d_set (KB self b) (AliasTo (KB n b)) dsk). repeat split; auto.
      * intros k Hk. apply d_get_set_other, Hk.
      * apply d_get_set_same.
      * rewrite d_get_set_other by (intro E; apply Eself; symmetry; exact E). exact Ev.
    + exists (d_del (KB n b) (d_set (KB self b) v dsk)). repeat split; auto.
      * intros k Hk. rewrite d_get_del_other by apply Hk. apply d_get_set_other, Hk.
      * rewrite d_get_del_other by exact Eself. apply d_get_set_same.
Qed.

(* the whole loop over distinct block ids: every block of bs ends up bridged to the source that the
   search finds for it in the ORIGINAL dict, and the keys of other blocks are as they were; the only
   failure is a block without a source *)
Lemma fg_loop_inv : forall by_bid self inf bs dsk,
  NoDup bs ->
  (forall m, inf = Some m -> forall b, In b bs -> d_mem (KB m b) dsk = true) ->
  match fg_loop by_bid self inf bs dsk with
  | FOk out =>
      (forall b, In b bs -> exists n v,
          find_layer_key by_bid self inf dsk b = Some (KB n b) /\ d_get (KB n b) dsk = Some v /\
          bridged self out b n v) /\
      (forall k, (forall b n, In b bs -> k <> KB n b) -> d_get k out = d_get k dsk)
  | FErrNotFound => exists b, In b bs /\ find_layer_key by_bid self inf dsk b = None
  | FErrDupKeys => False
  | FErrKeyError => False
  end.
Proof.
  intros by_bid self inf bs. induction bs as [|b t IH]; intros dsk Hnd Hinf.
  - cbn. split; [intros b []| reflexivity].
  - inversion Hnd as [|? ? Hb Hnd']; subst.
    pose proof (fg_loop_cons by_bid self inf b t dsk (fun m E => Hinf m E b (or_introl eq_refl))) as Hstep.
    destruct (find_layer_key by_bid self inf dsk b) as [lk|] eqn:Ef.
    2:{ rewrite Hstep. exists b. split; [left; reflexivity | exact Ef]. }
    destruct Hstep as (n & v & d' & -> & Ev & -> & Hoff & Hbr).
    (* the blocks still to come look in d' as they did in dsk *)
    assert (Hget : forall n' b', In b' t -> d_get (KB n' b') d' = d_get (KB n' b') dsk).
    { intros n' b' Hb'. apply Hoff. intros n'' E. inversion E; subst. contradiction. }
    assert (Hfind : forall b', In b' t ->
              find_layer_key by_bid self inf d' b' = find_layer_key by_bid self inf dsk b').
    { intros b' Hb'. apply find_layer_key_ext. intro n'. apply Hget. exact Hb'. }
    assert (Hinf' : forall m, inf = Some m -> forall b', In b' t -> d_mem (KB m b') d' = true).
    { intros m Em b' Hb'. unfold d_mem. rewrite Hget by exact Hb'. apply (Hinf m Em). right; exact Hb'. }
    specialize (IH d' Hnd' Hinf').
    destruct (fg_loop by_bid self inf t d') as [out| | |]; try exact IH.
    + destruct IH as [IH1 IH2]. split.
      * intros b0 [<-|Hb0].
        -- exists n, v. split; [exact Ef|]. split; [exact Ev|]. apply (bridged_ext self d'); [|exact Hbr].
           intro n'. apply IH2. intros b' n'' Hb' E. inversion E; subst. contradiction.
        -- destruct (IH1 b0 Hb0) as (n0 & v0 & F & G & B). exists n0, v0.
           rewrite <- (Hfind b0 Hb0), <- (Hget n0 b0 Hb0). auto.
      * intros k Hk. rewrite IH2 by (intros b' n' Hb'; apply Hk; right; exact Hb').
        apply Hoff. intro n'. apply Hk. left; reflexivity.
    + destruct IH as [b0 [Hb0 E0]].
      exists b0. split; [right; exact Hb0 | rewrite <- (Hfind b0 Hb0); exact E0].
Qed.

(* block_ids[n] *)
Fixpoint bids_of (m : list (name * list (list Z))) (n : name) : list (list Z) :=
  match m with
  | [] => []
  | (n', l) :: t => if Pos.eqb n n' then l else bids_of t n
  end.

Lemma bids_of_add : forall m n i n',
  bids_of (bids_add n i m) n' = if Pos.eqb n' n then bids_of m n' ++ [i] else bids_of m n'.
Proof.
  induction m as [|[n0 l0] t IH]; intros n i n'; cbn.
  - destruct (Pos.eqb n' n); reflexivity.
  - destruct (Pos.eqb n n0) eqn:E; cbn.
    + apply Pos.eqb_eq in E. subst n0. destruct (Pos.eqb n' n); reflexivity.
    + rewrite IH. destruct (Pos.eqb n' n0) eqn:E2; [|reflexivity].
      apply Pos.eqb_eq in E2. subst n0. rewrite Pos.eqb_sym, E. reflexivity.
Qed.

Lemma bids_add_names : forall m n i x,
  In x (map fst (bids_add n i m)) <-> x = n \/ In x (map fst m).
Proof.
  induction m as [|[n0 l0] t IH]; intros n i x; cbn.
  - split; intros [H|[]]; left; congruence.
  - destruct (Pos.eqb n n0) eqn:E; cbn.
    + apply Pos.eqb_eq in E. subst. split; [intros [H|H]; auto | intros [H|[H|H]]; subst; auto].
    + rewrite IH. split; [intros [H|[H|H]]; auto | intros [H|[H|H]]; auto].
Qed.

Lemma bids_add_nodup : forall m n i, NoDup (map fst m) -> NoDup (map fst (bids_add n i m)).
Proof.
  induction m as [|[n0 l0] t IH]; intros n i H; cbn.
  - constructor; [intros []|constructor].
  - inversion H as [|? ? Hn Ht]; subst. destruct (Pos.eqb n n0) eqn:E; cbn.
    + constructor; assumption.
    + constructor; [|apply IH; exact Ht]. rewrite bids_add_names. intros [H1|H1]; [|contradiction].
      subst. rewrite Pos.eqb_refl in E. discriminate.
Qed.

Lemma bids_of_in : forall m n l, NoDup (map fst m) -> In (n, l) m -> bids_of m n = l.
Proof.
  induction m as [|[n0 l0] t IH]; intros n l Hnd Hin; [contradiction|]. cbn.
  inversion Hnd as [|? ? Hn Ht]; subst. destruct Hin as [E|Hin].
  - inversion E; subst. rewrite Pos.eqb_refl. reflexivity.
  - destruct (Pos.eqb n n0) eqn:E; [|apply IH; assumption].
    apply Pos.eqb_eq in E. subst. exfalso. apply Hn. apply (in_map fst) in Hin. exact Hin.
Qed.

Lemma bids_of_in_conv : forall m n i, In i (bids_of m n) -> In (n, bids_of m n) m.
Proof.
  induction m as [|[n0 l0] t IH]; intros n i Hin; [contradiction|]. cbn in *.
  destruct (Pos.eqb n n0) eqn:E.
  - apply Pos.eqb_eq in E. subst. left; reflexivity.
  - right. exact (IH n i Hin).
Qed.

(* the keys of the layer that count as block ids of name n *)
Definition block_key_of (ndim : nat) (layer : dict) (n : name) (i : list Z) : Prop :=
  In (KB n i) (map fst layer) /\ length i = ndim.

Lemma block_ids_step_of : forall ndim m kv n i,
  In i (bids_of (block_ids_step ndim m kv) n) <->
  In i (bids_of m n) \/ fst kv = KB n i /\ length i = ndim.
Proof.
  intros ndim m kv n i. unfold block_ids_step.
  destruct (fst kv) as [n0 i0|x]; [|split; [auto | intros [H|[E _]]; [exact H | discriminate]]].
  destruct (Nat.eqb (length i0) ndim) eqn:El.
  - apply Nat.eqb_eq in El. rewrite bids_of_add. destruct (Pos.eqb n n0) eqn:E.
    + apply Pos.eqb_eq in E. subst n0. rewrite in_app_iff. cbn. split.
      * intros [H|[<-|[]]]; auto.
      * intros [H|[H _]]; [auto | inversion H; auto].
    + split; [auto | intros [H|[H _]]; [exact H|]]. inversion H; subst. rewrite Pos.eqb_refl in E. discriminate.
  - apply Nat.eqb_neq in El. split; [auto | intros [H|[H Hl]]; [exact H|]]. inversion H; subst. contradiction.
Qed.

Lemma block_ids_step_nodup : forall ndim m kv,
  NoDup (map fst m) -> NoDup (map fst (block_ids_step ndim m kv)).
Proof.
  intros ndim m kv H. unfold block_ids_step. destruct (fst kv) as [n i|x]; [|exact H].
  destruct (Nat.eqb (length i) ndim); [apply bids_add_nodup|]; exact H.
Qed.

Lemma block_ids_fold : forall ndim layer m,
  NoDup (map fst m) ->
  let r := fold_left (block_ids_step ndim) layer m in
  NoDup (map fst r) /\
  (forall n i, In i (bids_of r n) <-> In i (bids_of m n) \/ block_key_of ndim layer n i).
Proof.
  intros ndim layer. induction layer as [|kv t IH]; intros m Hnd; cbn.
  - split; [exact Hnd|]. unfold block_key_of. cbn. tauto.
  - destruct (IH _ (block_ids_step_nodup ndim m kv Hnd)) as [A B]. split; [exact A|].
    intros n i. rewrite B, block_ids_step_of. unfold block_key_of. cbn. tauto.
Qed.

Lemma block_ids_spec : forall ndim layer,
  let r := block_ids ndim layer in
  NoDup (map fst r) /\
  (forall n i, In i (bids_of r n) <-> block_key_of ndim layer n i).
Proof.
  intros ndim layer. destruct (block_ids_fold ndim layer [] (NoDup_nil _)) as [A B].
  split; [exact A|]. intros n i. rewrite (B n i). cbn. tauto.
Qed.

(* "name n's keys cover exactly the block grid" *)
Definition exact_cover (ndim : nat) (layer : dict) (grid : list (list Z)) (n : name) : Prop :=
  forall i, In i grid <-> block_key_of ndim layer n i.

Lemma candidates_spec : forall ndim layer grid n, grid <> [] ->
  (In n (candidates ndim layer grid) <-> exact_cover ndim layer grid n).
Proof.
  intros ndim layer grid n Hne. destruct (block_ids_spec ndim layer) as [A B].
  unfold candidates. rewrite in_map_iff. split.
  - intros [[n' l] [E Hin]]. cbn in E. subst n'. apply filter_In in Hin. destruct Hin as [Hin Hs].
    cbn in Hs. rewrite set_eqb_spec, <- (bids_of_in _ _ _ A Hin) in Hs.
    intro i. rewrite <- Hs. apply B.
  - intro Hc. exists (n, bids_of (block_ids ndim layer) n). split; [reflexivity|].
    apply filter_In. split.
    + destruct grid as [|b g]; [congruence|].
      apply (bids_of_in_conv _ n b). apply B. apply Hc. left; reflexivity.
    + cbn. apply set_eqb_spec. intro i. rewrite B. symmetry. apply Hc.
Qed.

Lemma candidates_nodup : forall ndim layer grid, NoDup (candidates ndim layer grid).
Proof.
  intros. unfold candidates. destruct (block_ids_spec ndim layer) as (A & _).
  revert A. generalize (block_ids ndim layer). induction l as [|[n s] t IH]; cbn; intro H; [constructor|].
  inversion H as [|? ? Hn Ht]; subst. destruct (set_eqb s grid); cbn; [|apply IH; exact Ht].
  constructor; [|apply IH; exact Ht]. intro Hin. apply Hn.
  apply in_map_iff in Hin. destruct Hin as [[n' s'] [E Hin]]. cbn in E. subst.
  apply filter_In in Hin. destruct Hin as [Hin _]. apply (in_map fst) in Hin. exact Hin.
Qed.

(* the inferred name is THE unique name whose block keys cover exactly the grid *)
Theorem inferred_layer_name_spec : forall ndim layer grid n, grid <> [] ->
  (inferred_layer_name ndim layer grid = Some n <->
   exact_cover ndim layer grid n /\ forall n', exact_cover ndim layer grid n' -> n' = n).
Proof.
  intros ndim layer grid n Hne. unfold inferred_layer_name.
  pose proof (candidates_nodup ndim layer grid) as Hnd.
  pose proof (fun x => candidates_spec ndim layer grid x Hne) as Hc.
  destruct (candidates ndim layer grid) as [|c [|c' r]] eqn:E.
  - split; [discriminate|]. intros [H _]. apply Hc in H. contradiction.
  - split.
    + intro H. inversion H; subst c. split; [apply Hc; left; reflexivity|].
      intros n' Hn'. apply Hc in Hn'. destruct Hn' as [H'|[]]. congruence.
    + intros [H1 _]. apply Hc in H1. destruct H1 as [H1|[]]. congruence.
  - split; [discriminate|]. intros [_ H2]. exfalso.
    assert (E1 : c = n) by (apply H2; apply Hc; left; reflexivity).
    assert (E2 : c' = n) by (apply H2; apply Hc; right; left; reflexivity).
    subst. inversion Hnd as [|? ? Hn _]. apply Hn. left; reflexivity.
Qed.

Lemma inferred_mem : forall ndim layer grid n, grid <> [] ->
  inferred_layer_name ndim layer grid = Some n -> forall b, In b grid -> d_mem (KB n b) layer = true.
Proof.
  intros ndim layer grid n Hne H b Hb. apply inferred_layer_name_spec in H; [|exact Hne].
  destruct H as [H _]. apply d_mem_in. apply H. exact Hb.
Qed.

(* what _layer() does, outcome by outcome; from_graph_keys, from_graph_errors and from_graph_frame
   read it off *)
Lemma fg_layer_spec : forall layer keys self nb,
  match fg_layer layer keys self nb with
  | FOk out =>
      (forall b, In b (zgrid nb) -> exists n v,
          source_name layer keys self nb b = Some (KB n b) /\ d_get (KB n b) layer = Some v /\
          bridged self out b n v) /\
      (forall k, (forall b n, In b (zgrid nb) -> k <> KB n b) -> d_get k out = d_get k layer)
  | FErrNotFound => exists b, In b (zgrid nb) /\ source_name layer keys self nb b = None /\
                              keys_by_bid keys [] <> None
  | FErrDupKeys => keys_by_bid keys [] = None /\ zgrid nb <> []
  | FErrKeyError => False
  end.
Proof.
  intros layer keys self nb. unfold fg_layer, source_name.
  pose proof (zgrid_NoDup nb) as Hnd. pose proof (inferred_mem (length nb) layer (zgrid nb)) as Hinf.
  destruct (zgrid nb) as [|g0 gt]; [split; [intros b [] | reflexivity]|].
  destruct (keys_by_bid keys []) as [by_bid|]; [|split; [reflexivity | discriminate]].
  pose proof (fg_loop_inv by_bid self _ (g0 :: gt) layer Hnd
                (fun m Em => Hinf m ltac:(discriminate) Em)) as Hinv.
  destruct (fg_loop by_bid self _ (g0 :: gt) layer); try exact Hinv; [|contradiction].
  destruct Hinv as [b [Hb E]]. exists b. split; [exact Hb|]. split; [exact E | discriminate].
Qed.

Theorem from_graph_keys : forall layer keys self nb out,
  fg_layer layer keys self nb = FOk out ->
  forall b, In b (zgrid nb) ->
  exists n v,
    source_name layer keys self nb b = Some (KB n b) /\
    d_get (KB n b) layer = Some v /\
    bridged self out b n v.
Proof.
  intros layer keys self nb out H. pose proof (fg_layer_spec layer keys self nb) as S.
  rewrite H in S. apply S.
Qed.

(* the only errors are the two documented ValueErrors; "cannot find output block" is raised
   exactly when some block has no source under the three rules *)
Theorem from_graph_errors : forall layer keys self nb,
  match fg_layer layer keys self nb with
  | FOk _ => True
  | FErrNotFound => exists b, In b (zgrid nb) /\ source_name layer keys self nb b = None /\
                              keys_by_bid keys [] <> None
  | FErrDupKeys => keys_by_bid keys [] = None /\ zgrid nb <> []
  | FErrKeyError => False
  end.
Proof.
  intros layer keys self nb. pose proof (fg_layer_spec layer keys self nb) as S.
  destruct (fg_layer layer keys self nb); [exact I | exact S ..].
Qed.

(* keys that are nobody's block of the grid pass through untouched *)
Theorem from_graph_frame : forall layer keys self nb out,
  fg_layer layer keys self nb = FOk out ->
  forall k, (forall b n, In b (zgrid nb) -> k <> KB n b) -> d_get k out = d_get k layer.
Proof.
  intros layer keys self nb out H. pose proof (fg_layer_spec layer keys self nb) as S.
  rewrite H in S. apply S.
Qed.

(* the Array.persist path: keys = [] and the layer is keyed by our own keys: pure passthrough *)
Lemma fg_loop_passthrough : forall self inf bs dsk,
  (forall b, In b bs -> d_mem (KB self b) dsk = true) -> fg_loop [] self inf bs dsk = FOk dsk.
Proof.
  intros self inf bs; induction bs as [|b t IH]; intros dsk H; cbn [fg_loop]; [reflexivity|].
  unfold find_layer_key. cbn [assoc_bid]. rewrite (H b (or_introl eq_refl)). rewrite lkey_eqb_refl.
  apply IH. intros b' Hb'. apply H. right; exact Hb'.
Qed.

Theorem from_graph_passthrough : forall layer self nb,
  (forall b, In b (zgrid nb) -> d_mem (KB self b) layer = true) ->
  fg_layer layer [] self nb = FOk layer.
Proof.
  intros layer self nb H. unfold fg_layer. destruct (zgrid nb) as [|g0 gt] eqn:Eg; [reflexivity|].
  cbn [keys_by_bid]. apply fg_loop_passthrough. exact H.
Qed.

Theorem root_alias_get : forall raw opt nb b,
  In b (zgrid nb) -> d_get (KB raw b) (root_alias_layer raw opt nb) = Some (AliasTo (KB opt b)).
Proof.
  intros raw opt nb b. unfold root_alias_layer. induction (zgrid nb) as [|x t IH]; cbn [map d_get In]; [contradiction|].
  destruct (lkey_eqb (KB raw b) (KB raw x)) eqn:E.
  - apply lkey_eqb_eq in E. inversion E; reflexivity.
  - intros [->|H]; [rewrite lkey_eqb_refl in E; discriminate | exact (IH H)].
Qed.

Theorem root_alias_keys : forall raw opt nb,
  map fst (root_alias_layer raw opt nb) = dask_keys raw nb /\
  map snd (root_alias_layer raw opt nb) = map AliasTo (dask_keys opt nb).
Proof.
  intros. unfold root_alias_layer, dask_keys. rewrite !map_map. split; reflexivity.
Qed.

Theorem dask_keys_NoDup : forall nm nb, NoDup (dask_keys nm nb).
Proof.
  intros. unfold dask_keys. apply NoDup_map_inj; [|apply zgrid_NoDup].
  intros x y E. inversion E. reflexivity.
Qed.

Theorem rebuild_preserves : forall c layer,
  coll_of_node (rebuild c layer None) = c /\ fg_keys (rebuild c layer None) = [] /\
  fg_lay (rebuild c layer None) = layer.
Proof. intros [n ch dt] layer. cbn. auto. Qed.

Theorem rebuild_rename : forall c layer r,
  let c' := coll_of_node (rebuild c layer (Some r)) in
  c_name c' = rename_get r (c_name c) /\ c_chunks c' = c_chunks c /\ c_dtype c' = c_dtype c.
Proof. intros [n ch dt] layer r. cbn. auto. Qed.

Section EntryPointFacts.
  Variable V : Type.
  Variable dflt : V.
  Implicit Types (g : list (task V)) (s : store V).

  Lemma map_combine_ext : forall A B C (f : A -> C) (h : B -> C) (la : list A) (lb : list B),
    length la = length lb -> (forall a b, In (a, b) (combine la lb) -> f a = h b) -> map f la = map h lb.
  Proof.
    intros A B C f h la; induction la as [|a la IH]; intros [|b lb] Hl H; cbn in *; try discriminate; [reflexivity|].
    f_equal; [apply H; left; reflexivity | apply IH; [lia | intros; apply H; right; assumption]].
  Qed.

  Lemma map_combine3 : forall A B O C (F : A -> O -> C) (G : B -> C) (la : list A) (lb : list B) (lo : list O),
    length la = length lb -> length lo = length la ->
    (forall a b o', In (a, b) (combine la lb) -> In o' lo -> F a o' = G b) ->
    map (fun ro => F (fst ro) (snd ro)) (combine la lo) = map G lb.
  Proof.
    intros A B O C F G la; induction la as [|a la IH]; intros [|b lb] [|o' lo] H1 H2 H; cbn in *; try discriminate; [reflexivity|].
    f_equal; [apply H; left; reflexivity | apply IH; [lia | lia |]].
    intros a0 b0 o0 Hin Ho. apply H; right; assumption.
  Qed.

  Lemma pinned_keys : forall g raws outs, length raws = length outs ->
    map (@t_key V) (pinned dflt g raws outs) = map (@t_key V) g ++ raws.
  Proof.
    intros g raws outs H. unfold pinned. rewrite map_app, map_map. f_equal. exact (map_fst_combine raws outs H).
  Qed.

  (* any store that satisfies (a superset of) the pinned graph shows, at each advertised key,
     the value the optimized graph computes for the corresponding root key *)
  Lemma satisfies_pinned : forall g o raws outs G s,
    NoDup (map (@t_key V) g) -> topological (dep_graph g) o ->
    (forall k, In k outs -> defined (dep_graph g) k) ->
    (forall t, In t (pinned dflt g raws outs) -> In t G) ->
    satisfies G s ->
    forall r k, In (r, k) (combine raws outs) -> s r = run g o k.
  Proof.
    intros g o raws outs G s Hnd Ht Hout Hsub Hsat r k Hin.
    assert (Hg : satisfies g s).
    { intros t Hin'. apply Hsat. apply Hsub. unfold pinned. apply in_or_app. left; exact Hin'. }
    assert (Hk : In k o) by (apply Ht, Hout; eapply in_combine_r; exact Hin).
    destruct (satisfies_total V g o s Ht Hg k Hk) as [v Ev].
    rewrite <- (satisfies_unique V g o s (run g o) Ht Hg (run_satisfies V g o Hnd Ht) k Hk), Ev.
    assert (Ha : In (alias_task dflt (r, k)) G).
    { apply Hsub. unfold pinned. apply in_or_app. right. apply in_map. exact Hin. }
    rewrite (Hsat _ Ha : s r = _). unfold exec. cbn. rewrite Ev. reflexivity.
  Qed.

  (* the persisted layer is total when no advertised key is stuck, and holds the values *)
  Lemma persisted_layer_some : forall s ks, (forall k, In k ks -> exists v, s k = Some (Val v)) ->
    exists l, persisted_layer s ks = Some l /\ map fst l = ks /\ forall k v, In (k, v) l -> s k = Some (Val v).
  Proof.
    intros s ks; induction ks as [|k ks IH]; intro H; cbn.
    - exists []. split; [reflexivity|]. split; [reflexivity | intros k v []].
    - destruct (H k (or_introl eq_refl)) as [v Ev].
      destruct IH as (l & -> & Hfst & Hl); [intros k' Hk'; apply H; right; exact Hk'|].
      rewrite Ev. exists ((k, v) :: l). split; [reflexivity|]. split; [cbn; rewrite Hfst; reflexivity|].
      intros k' v' [E|Hin]; [inversion E; subst; exact Ev | exact (Hl k' v' Hin)].
  Qed.

  Lemma const_graph_run : forall (l : list (key * V)), NoDup (map fst l) ->
    forall k v, In (k, v) l -> run (map const_task l) (map fst l) k = Some (Val v).
  Proof.
    intros l Hndl k v Hin.
    assert (Hkeys : map (@t_key V) (map const_task l) = map fst l) by (rewrite map_map; reflexivity).
    destruct (in_split k (map fst l) (in_map fst l (k, v) Hin)) as (pre & post & E). rewrite E in Hndl |- *.
    (* a constant task has no dependencies: what it executes to is Val v by computation *)
    apply (run_at V _ pre k post (const_task (k, v)) Hndl).
    apply (find_task_In V _ (const_task (k, v))); [rewrite Hkeys, E; exact Hndl | apply in_map; exact Hin].
  Qed.

  Section Agree.
    Variables (g : list (task V)) (o : list key) (raws outs : list key).
    Hypothesis Hnd : NoDup (map (@t_key V) g).
    Hypothesis Htop : topological (dep_graph g) o.
    Hypothesis Houts : forall k, In k outs -> defined (dep_graph g) k.
    Hypothesis Hlen : length raws = length outs.

    Lemma values_pinned : forall G s,
      (forall t, In t (pinned dflt g raws outs) -> In t G) -> satisfies G s ->
      values s raws = values (run g o) outs.
    Proof.
      intros G s Hsub Hsat. unfold values, lookup. apply map_combine_ext; [exact Hlen|].
      intros r k Hin. apply (satisfies_pinned g o raws outs G s); assumption.
    Qed.

    Theorem ep_compute_agrees : forall o1,
      NoDup (map (@t_key V) (pinned dflt g raws outs)) ->
      topological (dep_graph (pinned dflt g raws outs)) o1 ->
      ep_compute dflt g raws outs o1 = ep_optimize g outs o.
    Proof.
      intros o1 Hnd1 Ht1. unfold ep_compute, ep_optimize.
      apply (values_pinned (pinned dflt g raws outs)); [auto|]. apply run_satisfies; assumption.
    Qed.

    Theorem ep_dask_compute_agrees : forall other o2,
      NoDup (map (@t_key V) (pinned dflt g raws outs ++ other)) ->
      topological (dep_graph (pinned dflt g raws outs ++ other)) o2 ->
      ep_dask_compute dflt g raws outs other o2 = ep_optimize g outs o.
    Proof.
      intros other o2 Hnd2 Ht2. unfold ep_dask_compute, ep_optimize.
      apply (values_pinned (pinned dflt g raws outs ++ other)).
      - intros t Hin. apply in_or_app. left; exact Hin.
      - apply run_satisfies; assumption.
    Qed.

    Theorem ep_to_delayed_agrees : forall os,
      NoDup (map (@t_key V) (pinned dflt g raws outs)) ->
      length os = length raws ->
      Forall (topological (dep_graph (pinned dflt g raws outs))) os ->
      ep_to_delayed dflt g raws outs os = ep_optimize g outs o.
    Proof.
      intros os Hnd1 Hlo Hos. unfold ep_to_delayed, ep_optimize, values.
      apply (map_combine3 _ _ _ _ (fun r o' => lookup (run (pinned dflt g raws outs) o') r) (lookup (run g o)));
        [exact Hlen | exact Hlo |].
      intros r k o' Hin Ho'. rewrite Forall_forall in Hos. unfold lookup.
      apply (satisfies_pinned g o raws outs (pinned dflt g raws outs)); auto.
      apply run_satisfies; [exact Hnd1 | exact (Hos o' Ho')].
    Qed.

    (* persist, then compute the constant graph of the persisted layer *)
    Theorem ep_persist_agrees : forall o3,
      NoDup raws ->
      NoDup (map (@t_key V) (pinned dflt g raws outs)) ->
      topological (dep_graph (pinned dflt g raws outs)) o3 ->
      ep_persist dflt g raws outs o3 = Some (ep_optimize g outs o).
    Proof.
      intros o3 Hndr Hnd1 Ht1. unfold ep_persist.
      rewrite <- (ep_compute_agrees o3 Hnd1 Ht1). unfold ep_compute.
      destruct (persisted_layer_some (run (pinned dflt g raws outs) o3) raws) as (l & -> & Hfst & Hl).
      { intros r Hr. apply (run_no_stuck V _ o3 Hnd1 Ht1). unfold defined.
        rewrite dep_graph_keys, (pinned_keys g raws outs Hlen). apply in_or_app. right; exact Hr. }
      f_equal. apply map_ext_in. intros r Hr. unfold lookup. rewrite <- Hfst in Hr, Hndr.
      apply in_map_iff in Hr. destruct Hr as [[r' v] [<- Hin]]. cbn.
      rewrite (Hl _ _ Hin). apply const_graph_run; assumption.
    Qed.
  End Agree.

  (* such orders exist: the optimized graph's order followed by the alias keys schedules the
     pinned graph *)
  Theorem pinned_topological : forall g o raws outs,
    topological (dep_graph g) o ->
    (forall k, In k outs -> defined (dep_graph g) k) ->
    NoDup raws -> (forall r, In r raws -> ~ defined (dep_graph g) r) ->
    length raws = length outs ->
    topological (dep_graph (pinned dflt g raws outs)) (o ++ raws).
  Proof.
    intros g o raws outs T Houts Hndr Hfresh Hlen. pose proof T as (Hndo & Hkeys & _).
    apply topological_intro.
    - apply NoDup_app_intro; [exact Hndo | exact Hndr |].
      intros x Hx Hr. apply (Hfresh x Hr). apply Hkeys. exact Hx.
    - intro k. unfold defined. rewrite dep_graph_keys, (pinned_keys g raws outs Hlen), <- dep_graph_keys.
      rewrite !in_app_iff, Hkeys. reflexivity.
    - intros k ds Hin. unfold dep_graph, pinned in Hin. rewrite map_app, in_app_iff in Hin.
      destruct Hin as [Hin|Hin].
      + destruct (topological_split _ o k ds T Hin) as (pre & post & -> & Hpre).
        exists pre, (post ++ raws). rewrite <- app_assoc. split; [reflexivity | exact Hpre].
      + rewrite map_map in Hin. apply in_map_iff in Hin. destruct Hin as [[r k0] [E0 Hrk]].
        cbn in E0. inversion E0; subst k ds.
        destruct (in_split r raws (in_combine_l _ _ _ _ Hrk)) as (pre & post & ->).
        exists (o ++ pre), post. rewrite <- app_assoc. split; [reflexivity|].
        intros d [<-|[]]. apply in_or_app. left. apply Hkeys, Houts. exact (in_combine_r _ _ _ _ Hrk).
  Qed.

  Theorem pinned_nodup : forall g raws outs,
    NoDup (map (@t_key V) g) -> NoDup raws ->
    (forall r, In r raws -> ~ defined (dep_graph g) r) -> length raws = length outs ->
    NoDup (map (@t_key V) (pinned dflt g raws outs)).
  Proof.
    intros g raws outs Hnd Hndr Hfresh Hlen. rewrite (pinned_keys g raws outs Hlen).
    apply NoDup_app_intro; [assumption | assumption |].
    intros x Hx Hr. apply (Hfresh x Hr). unfold defined. rewrite dep_graph_keys. exact Hx.
  Qed.
End EntryPointFacts.
