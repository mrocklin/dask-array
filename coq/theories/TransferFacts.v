(* Proofs about the transfer-estimate models of Transfer.v (property C27). *)
From DA Require Import PyBase PyBaseFacts Slicing Unify UnifyFacts Transfer.
Open Scope Z_scope.

Lemma mul_le_mono_nn a b c d : 0 <= a <= b -> 0 <= c <= d -> 0 <= a * c <= b * d.
Proof. intros H1 H2. split; nia. Qed.

Lemma zprod_nonneg l : Forall (fun x => 0 <= x) l -> 0 <= zprod l.
Proof. induction 1 as [|x t Hx _ IH]; cbn [zprod]; nia. Qed.

(* What the loop knows about the new block [ns, ne) while the old pointer stands at os: [best] is an
   overlap with it; the part of it left of the pointer, os - ns long, is empty as long as there is
   no source and is covered by the source while there is exactly one. *)
Definition covered (os ns ne best nsrc : Z) : Prop :=
  0 <= best <= ne - ns /\ 0 <= nsrc /\ (nsrc = 0 -> os <= ns) /\ (nsrc = 1 -> os - ns <= best).

(* one old block [os, os + o); os1 is the old pointer afterwards, or ne where that is less *)
Lemma st_visit_covered o os ns ne best nsrc u r b1 n1 u1 r1 os1 :
  st_visit o os ns ne best nsrc u r = (b1, n1, u1, r1) -> os1 <= os + o -> os1 <= ne ->
  0 <= o -> covered os ns ne best nsrc ->
  covered os1 ns ne b1 n1 /\ 0 <= u1 - u <= r1 - r.
Proof.
  unfold st_visit, covered. intros H Hos1 Hos1' Ho (Hbest & Hnsrc & H0 & H1).
  (* of the end of the overlap only these two bounds matter *)
  assert (os1 <= Z.min (os + o) ne <= ne) as Hm by lia. clear Hos1 Hos1'.
  set (m := Z.min (os + o) ne) in *. clearbody m.
  destruct (0 <? _) eqn:E; [destruct (_ =? o)|]; injection H as <- <- <- <-; lia.
Qed.

(* once the pointer has reached ne: with at most one source the largest overlap is the whole block *)
Lemma covered_exit ns ne best nsrc :
  covered ne ns ne best nsrc -> 0 <= best <= ne - ns /\ (nsrc <= 1 -> ne - ns <= best).
Proof. unfold covered. lia. Qed.

(* the old pointer: the current old block o starts at os, has not passed `bound`, and with the blocks after
   it reaches the end of the axis *)
Definition ptr_ok (total bound o os : Z) (rest : list Z) : Prop :=
  0 <= o /\ nonneg_layout rest /\ os + o + zsum rest = total /\ os <= bound.

(* the inner `while True:` loop for one new block [ns, ne): it leaves the pointer at or before ne, with the
   part of the block before ne accounted for *)
Lemma st_inner_inv total ns ne rest : forall o os best nsrc u r o' rest' os' best' nsrc' u' r',
  st_inner rest o os ns ne best nsrc u r = (o', rest', os', best', nsrc', u', r') ->
  ptr_ok total ne o os rest -> ne <= total -> covered os ns ne best nsrc ->
  ptr_ok total ne o' os' rest' /\ covered ne ns ne best' nsrc' /\ 0 <= u' - u <= r' - r.
Proof.
  induction rest as [|o1 rest1 IH]; intros o os best nsrc u r o' rest' os' best' nsrc' u' r' H Hp Hne Hcov;
    pose proof Hp as (Ho & Hrest & Htot & Hos); cbn [zsum] in Htot; cbn [st_inner] in H;
    destruct (st_visit o os ns ne best nsrc u r) as [[[b1 n1] u1] r1] eqn:V.
  - (* the last old block: it reaches ne, the pointer stays *)
    injection H as <- <- <- <- <- <- <-.
    apply st_visit_covered with (os1 := ne) in V; [|lia|lia|exact Ho|exact Hcov]. split; [exact Hp|exact V].
  - destruct (os + o <=? ne) eqn:E.
    + (* the block ends at or before ne: the pointer moves on *)
      apply st_visit_covered with (os1 := os + o) in V; [|lia|lia|exact Ho|exact Hcov]. destruct V as [V Vu].
      inversion Hrest as [|x y Ho1 Hrest1]; subst x y.
      apply IH in H; [|split; [exact Ho1|split; [exact Hrest1|lia]]|exact Hne|exact V].
      split; [apply H|]. split; [apply H|]. destruct H as (_ & _ & Hu). lia.
    + (* the block reaches beyond ne: the pointer stays *)
      injection H as <- <- <- <- <- <- <-.
      apply st_visit_covered with (os1 := ne) in V; [|lia|lia|exact Ho|exact Hcov]. split; [exact Hp|exact V].
Qed.

Lemma st_outer_inv total new : forall o rest os ns l u s r l' u' s' r',
  st_outer new o rest os ns l u s r = (l', u', s', r') ->
  ptr_ok total ns o os rest -> nonneg_layout new -> ns + zsum new = total ->
  0 <= s' - s /\ s' - s <= l' - l /\ l' - l <= zsum new /\ 0 <= u' - u /\ u' - u <= r' - r.
Proof.
  induction new as [|c new' IH]; intros o rest os ns l u s r l' u' s' r' H Hp Hnew Hntot; cbn [st_outer] in H.
  - injection H as <- <- <- <-. cbn [zsum]. lia.
  - inversion Hnew as [|x y Hc Hnew']; subst x y. cbn [zsum] in Hntot |- *.
    pose proof (zsum_nonneg _ Hnew') as Hz. destruct Hp as (Ho & Hrest & Htot & Hos). cbv zeta in H.
    destruct (st_inner rest o os ns (ns + c) 0 0 u r) as [[[[[[o1 rest1] os1] best] nsrc] u1] r1] eqn:E.
    apply (st_inner_inv total) in E; [|split; [exact Ho|split; [exact Hrest|lia]]|lia|unfold covered; lia].
    destruct E as (Hp1 & Hcov & Hu). apply covered_exit in Hcov.
    apply IH in H; [|exact Hp1|exact Hnew'|lia].
    destruct (nsrc <=? 1) eqn:En; lia.
Qed.

(* per-axis bounds: 0 <= s_ax <= l_ax <= t_ax and 0 <= u_ax <= r_ax *)
Theorem stage_axis_bounds old new t l r u s :
  nonneg_layout old -> nonneg_layout new -> zsum old = zsum new ->
  stage_axis old new = Some (t, l, r, u, s) ->
  t = zsum old /\ 0 <= s /\ s <= l /\ l <= t /\ 0 <= u /\ u <= r.
Proof.
  intros Ho Hn Hs H. unfold stage_axis in H.
  destruct old as [|o rest].
  - destruct new; [|discriminate]. injection H as <- <- <- <- <-. cbn [zsum]. lia.
  - destruct (st_outer new o rest 0 0 0 0 0 0) as [[[l1 u1] s1] r1] eqn:E.
    injection H as <- <- <- <- <-.
    inversion Ho as [|x y Ho1 Hrest]; subst x y. cbn [zsum] in Hs |- *.
    apply (st_outer_inv (o + zsum rest)) in E; [lia|split; [exact Ho1|split; [exact Hrest|lia]]|exact Hn|lia].
Qed.

Theorem stage_axis_total old new :
  old <> [] -> exists t l r u s, stage_axis old new = Some (t, l, r, u, s).
Proof.
  intros H. destruct old as [|o rest]; [congruence|]. unfold stage_axis.
  destruct (st_outer new o rest 0 0 0 0 0 0) as [[[l1 u1] s1] r1]. eauto 6.
Qed.

Definition axis_ok (old new : list Z) : Prop :=
  nonneg_layout old /\ nonneg_layout new /\ zsum old = zsum new.

Lemma stage_prods_bounds olds : forall news pT pL pR pU pS T' L' R' U' S',
  Forall2 axis_ok olds news ->
  stage_prods olds news pT pL pR pU pS = Some (T', L', R', U', S') ->
  0 <= pS <= pL -> pL <= pT -> 0 <= pU <= pR ->
  T' = pT * zprod (map zsum olds) /\ 0 <= S' /\ S' <= L' /\ L' <= T' /\ 0 <= U' /\ U' <= R'.
Proof.
  induction olds as [|old olds' IH]; intros news pT pL pR pU pS T' L' R' U' S' HF H HS HL HU.
  - cbn [stage_prods] in H. injection H as <- <- <- <- <-. cbn [map zprod]. lia.
  - inversion HF as [|a b la lb [Ho [Hn Hs]] HF']; subst a la news.
    cbn [stage_prods] in H.
    destruct (stage_axis old b) as [[[[[t l] r] u] s]|] eqn:E; [|discriminate].
    apply stage_axis_bounds in E; try assumption.
    destruct E as (-> & B1 & B2 & B3 & B4 & B5).
    cbn [map zprod]. rewrite Z.mul_assoc.
    apply (IH _ _ _ _ _ _ _ _ _ _ _ HF' H); apply mul_le_mono_nn; lia.
Qed.

(* one stage: 0 <= min <= max, and min is at most the array's bytes *)
Theorem stage_transfer_bounds olds news itemsize lo hi :
  0 <= itemsize -> Forall2 axis_ok olds news ->
  rechunk_stage_transfer olds news itemsize = Some (lo, hi) ->
  0 <= lo <= hi /\ lo <= zprod (map zsum olds) * itemsize.
Proof.
  intros Hi HF H. unfold rechunk_stage_transfer in H.
  destruct (stage_prods olds news 1 1 1 1 1) as [[[[[pT pL] pR] pU] pS]|] eqn:E; [|discriminate].
  injection H as <- <-.
  apply stage_prods_bounds in E; try assumption; try lia.
  destruct E as (ET & B1 & B2 & B3 & B4 & B5). rewrite Z.mul_1_l in ET. subst pT.
  split; [split|].
  - apply Z.mul_nonneg_nonneg; lia.
  - apply Z.mul_le_mono_nonneg_l; lia.
  - rewrite Z.mul_comm. apply Z.mul_le_mono_nonneg_r; lia.
Qed.

Theorem stage_wellformed olds news itemsize lo hi :
  0 <= itemsize -> Forall2 axis_ok olds news ->
  rechunk_stage_transfer olds news itemsize = Some (lo, hi) ->
  0 <= lo /\ lo <= hi.
Proof. intros Hi HF H. apply (stage_transfer_bounds _ _ _ _ _ Hi HF H). Qed.

Lemma stage_prods_total olds : forall news pT pL pR pU pS,
  Forall (fun o => o <> []) olds ->
  exists q, stage_prods olds news pT pL pR pU pS = Some q.
Proof.
  induction olds as [|old olds' IH]; intros news pT pL pR pU pS HF.
  - cbn [stage_prods]. eauto.
  - inversion HF as [|a b Ho HF']; subst a b. destruct news as [|new news']; cbn [stage_prods]; [eauto|].
    destruct (stage_axis_total old new Ho) as (t & l & r & u & s & E). rewrite E. apply IH. exact HF'.
Qed.

(* no IndexError when every axis has at least one block *)
Theorem stage_total olds news itemsize :
  Forall (fun o => o <> []) olds -> exists p, rechunk_stage_transfer olds news itemsize = Some p.
Proof.
  intros HF. unfold rechunk_stage_transfer.
  destruct (stage_prods_total olds news 1 1 1 1 1 HF) as [[[[[pT pL] pR] pU] pS] E]. rewrite E. eauto.
Qed.

Definition layouts_ok (a b : list (list Z)) : Prop := Forall2 axis_ok a b.

Fixpoint chain_ok (prev : list (list Z)) (steps : list (list (list Z))) : Prop :=
  match steps with
  | [] => True
  | c :: steps' => layouts_ok prev c /\ chain_ok c steps'
  end.

Lemma rechunk_transfer_acc steps : forall prev itemsize lo hi lo' hi',
  0 <= itemsize -> chain_ok prev steps ->
  rechunk_transfer prev steps itemsize lo hi = Some (lo', hi') ->
  0 <= lo' - lo /\ lo' - lo <= hi' - hi.
Proof.
  induction steps as [|c steps' IH]; intros prev itemsize lo hi lo' hi' Hi Hc H; cbn [rechunk_transfer] in H.
  - injection H as <- <-. lia.
  - destruct Hc as [Hc1 Hc2].
    destruct (rechunk_stage_transfer prev c itemsize) as [[slo shi]|] eqn:E; [|discriminate].
    apply stage_wellformed in E; try assumption.
    apply IH in H; try assumption. lia.
Qed.

Theorem rechunk_transfer_wellformed old steps itemsize lo hi :
  0 <= itemsize -> chain_ok old steps ->
  rechunk_transfer old steps itemsize 0 0 = Some (lo, hi) ->
  0 <= lo /\ lo <= hi.
Proof. intros Hi Hc H. apply rechunk_transfer_acc in H; try assumption. lia. Qed.

(* P2PRechunk: max is the array's bytes *)
Theorem p2p_wellformed olds news itemsize lo hi :
  0 <= itemsize -> Forall2 axis_ok olds news ->
  p2p_transfer olds news itemsize = Some (lo, hi) ->
  0 <= lo /\ lo <= hi.
Proof.
  intros Hi HF H. unfold p2p_transfer in H.
  destruct (rechunk_stage_transfer olds news itemsize) as [[slo shi]|] eqn:E; [|discriminate].
  injection H as <- <-. split; apply (stage_transfer_bounds _ _ _ _ _ Hi HF E).
Qed.

(* a rechunk to the same chunks moves nothing.  With zero-size chunks the old
   pointer runs ahead of the new one over empty blocks, so the invariant is:
   the remaining new blocks are some empty blocks followed by the remaining old
   blocks. *)
Definition zeros (zs : list Z) : Prop := Forall (fun c => c = 0) zs.

Lemma zeros_zsum zs : zeros zs -> zsum zs = 0.
Proof. induction 1 as [|x t Hx _ IH]; cbn [zsum]; lia. Qed.

(* an old block at or beyond the end of the new block changes nothing *)
Lemma st_visit_none o os ns ne best nsrc u r :
  ne <= os -> st_visit o os ns ne best nsrc u r = (best, nsrc, u, r).
Proof. intros Hos. unfold st_visit. destruct (0 <? _) eqn:E; [lia | reflexivity]. Qed.

(* an old block that is the new block is its one source, if it is not empty *)
Lemma st_visit_whole o ns u r : 0 <= o ->
  exists n, n <= 1 /\ st_visit o ns ns (ns + o) 0 0 u r = (o, n, u + o, r + o).
Proof.
  intros Ho. unfold st_visit. replace (Z.min (ns + o) (ns + o) - Z.max ns ns) with o by lia.
  destruct (0 <? o) eqn:E.
  - exists 1. rewrite Z.eqb_refl. split; [lia | rewrite !pair_equal_spec; lia].
  - exists 0. split; [lia | rewrite !pair_equal_spec; lia].
Qed.

(* with the old pointer at the end of the new block the loop only steps over empty old blocks *)
Lemma st_inner_skip rest : forall o ns ne best nsrc u r,
  0 <= o -> Forall (fun c => 0 <= c) rest ->
  exists zs o' rest', zeros zs /\ o :: rest = zs ++ o' :: rest' /\
    st_inner rest o ne ns ne best nsrc u r = (o', rest', ne, best, nsrc, u, r).
Proof.
  induction rest as [|o1 rest1 IH]; intros o ns ne best nsrc u r Ho Hrest; cbn [st_inner];
    rewrite st_visit_none by lia.
  - exists [], o, []. repeat split. constructor.
  - inversion Hrest as [|x y Ho1 Hrest1]; subst x y.
    destruct (ne + o <=? ne) eqn:E.
    + assert (o = 0) as -> by lia. rewrite Z.add_0_r.
      destruct (IH o1 ns ne best nsrc u r Ho1 Hrest1) as (zs & o' & rest' & Hz & Heq & Hst).
      exists (0 :: zs), o', rest'. split; [constructor; [reflexivity|exact Hz]|].
      split; [cbn [app]; f_equal; exact Heq | exact Hst].
    + exists [], o, (o1 :: rest1). repeat split. constructor.
Qed.

Lemma st_outer_same new : forall o rest ns l u s r zs,
  Forall (fun c => 0 <= c) new -> zeros zs -> new = zs ++ o :: rest ->
  st_outer new o rest ns ns l u s r = (l + zsum new, u + zsum new, s + zsum new, r + zsum new).
Proof.
  induction new as [|c new' IH]; intros o rest ns l u s r zs Hnew Hz Heq.
  - destruct zs; discriminate.
  - inversion Hnew as [|x y Hc Hnew']; subst x y.
    cbn [st_outer zsum]. cbv zeta.
    destruct zs as [|z zs1]; cbn [app] in Heq; injection Heq as -> ->.
    + (* the current new block is the current old block *)
      destruct (st_visit_whole o ns u r Hc) as (n & Hn & V).
      destruct rest as [|o1 rest1]; cbn [st_inner]; rewrite V.
      * cbn [st_outer zsum]. replace (n <=? 1) with true by lia. rewrite !pair_equal_spec; lia.
      * rewrite Z.leb_refl. inversion Hnew' as [|x y Ho1 Hrest1]; subst x y.
        destruct (st_inner_skip rest1 o1 ns (ns + o) o n (u + o) (r + o) Ho1 Hrest1)
          as (zs' & o' & rest' & Hz' & Heq' & ->).
        replace (n <=? 1) with true by lia.
        rewrite (IH o' rest' (ns + o) _ _ _ _ zs' Hnew' Hz' Heq'). rewrite !pair_equal_spec; lia.
    + (* an empty new block; the old pointer is already past it *)
      inversion Hz as [|x y Hz0 Hz1]; subst x y. subst z.
      pose proof (proj2 (proj1 (Forall_app _ _ _) Hnew')) as Hall.
      inversion Hall as [|x y Ho Hrest]; subst x y.
      rewrite Z.add_0_r.
      destruct (st_inner_skip rest o ns ns 0 0 u r Ho Hrest)
        as (zs' & o' & rest' & Hz' & Heq' & ->).
      change (0 <=? 1) with true. cbv iota.
      rewrite (IH o' rest' ns _ _ _ _ (zs1 ++ zs') Hnew').
      * rewrite !pair_equal_spec; lia.
      * apply Forall_app. split; assumption.
      * rewrite Heq', app_assoc. reflexivity.
Qed.

Theorem stage_axis_same old :
  nonneg_layout old ->
  stage_axis old old = Some (zsum old, zsum old, zsum old, zsum old, zsum old).
Proof.
  intros Ho. unfold stage_axis. destruct old as [|o rest]; [reflexivity|].
  rewrite (st_outer_same (o :: rest) o rest 0 0 0 0 0 [] Ho ltac:(constructor) eq_refl).
  reflexivity.
Qed.

Lemma stage_prods_same olds : forall pT pL pR pU pS,
  Forall nonneg_layout olds ->
  stage_prods olds olds pT pL pR pU pS =
  Some (pT * zprod (map zsum olds), pL * zprod (map zsum olds), pR * zprod (map zsum olds),
        pU * zprod (map zsum olds), pS * zprod (map zsum olds)).
Proof.
  induction olds as [|old olds' IH]; intros pT pL pR pU pS HF; cbn [stage_prods map zprod].
  - rewrite !Z.mul_1_r. reflexivity.
  - inversion HF as [|a b Ho HF']; subst a b.
    rewrite (stage_axis_same old Ho), (IH _ _ _ _ _ HF'), !Z.mul_assoc. reflexivity.
Qed.

Theorem rechunk_same_zero olds itemsize :
  Forall nonneg_layout olds -> rechunk_stage_transfer olds olds itemsize = Some (0, 0).
Proof.
  intros HF. unfold rechunk_stage_transfer. rewrite (stage_prods_same olds 1 1 1 1 1 HF).
  f_equal. f_equal; ring.
Qed.

(* P2P to the same chunks: min is 0 but max stays array.nbytes *)
Theorem p2p_same olds itemsize :
  Forall nonneg_layout olds ->
  p2p_transfer olds olds itemsize = Some (0, zprod (map zsum olds) * itemsize).
Proof. intros HF. unfold p2p_transfer. rewrite (rechunk_same_zero olds itemsize HF). reflexivity. Qed.

(* moved_fraction uses the same min-model as _rechunk_stage_transfer: its scan and the
   stage scan move the same pointer and keep the same `best`, the largest overlap *)
Lemma st_visit_best o os ns ne best nsrc u r : 0 <= best ->
  exists n1 u1 r1,
    st_visit o os ns ne best nsrc u r = (Z.max best (Z.min (os + o) ne - Z.max os ns), n1, u1, r1).
Proof.
  intros Hb. unfold st_visit. destruct (0 <? _) eqn:E; [|rewrite Z.max_l by lia]; repeat eexists.
Qed.

Lemma gtb_max a b : (if a >? b then a else b) = Z.max b a.
Proof. destruct (a >? b) eqn:E; lia. Qed.

Lemma mf_inner_sim rest : forall o ss ds de best nsrc u r f,
  (length rest < f)%nat -> 0 <= best ->
  forall o' rest' os' b' n' u' r',
  st_inner rest o ss ds de best nsrc u r = (o', rest', os', b', n', u', r') ->
  mf_inner f (o :: rest) ss ds de best = (o' :: rest', os', b').
Proof.
  induction rest as [|o1 rest1 IH]; intros o ss ds de best nsrc u r f Hf Hb o' rest' os' b' n' u' r' H.
  all: destruct f as [|f]; [cbn [length] in Hf; lia|].
  (* both loops look at the block o first, and leave the same `best` *)
  all: cbn [st_inner] in H; cbn [mf_inner].
  all: destruct (st_visit_best o ss ds de best nsrc u r Hb) as (n1 & u1 & r1 & V); rewrite V in H; rewrite gtb_max.
  - injection H as <- <- <- <- <- <- <-. reflexivity.
  - destruct (ss + o <=? de).
    + apply (IH _ _ _ _ _ _ _ _ f) in H; [exact H | cbn [length] in Hf; lia | lia].
    + injection H as <- <- <- <- <- <- <-. reflexivity.
Qed.

Lemma mf_outer_sim dst : forall o rest ss ds moved l u s r l' u' s' r',
  st_outer dst o rest ss ds l u s r = (l', u', s', r') ->
  mf_outer (o :: rest) ss ds dst moved = moved + zsum dst - (l' - l).
Proof.
  induction dst as [|c dst' IH]; intros o rest ss ds moved l u s r l' u' s' r' H; cbn [st_outer] in H; cbn [mf_outer zsum].
  - injection H as <- <- <- <-. lia.
  - cbv zeta in H.
    destruct (st_inner rest o ss ds (ds + c) 0 0 u r) as [[[[[[o1 rest1] os1] best] nsrc] u1] r1] eqn:E.
    rewrite (mf_inner_sim rest o ss ds (ds + c) 0 0 u r (S (length (o :: rest))) ltac:(cbn [length]; lia) ltac:(lia) _ _ _ _ _ _ _ E).
    rewrite (IH _ _ _ _ _ _ _ _ _ _ _ _ _ H). lia.
Qed.

(* the numerator of moved_fraction is t_ax - l_ax of the rechunk stage src -> dst *)
Theorem moved_fraction_is_stage_min src dst t l r u s :
  zsum dst = zsum src -> zsum src <> 0 -> src <> dst ->
  stage_axis src dst = Some (t, l, r, u, s) ->
  moved_fraction src dst = (t - l, t).
Proof.
  intros Hs Hz Hne H. unfold moved_fraction.
  destruct ((zsum src =? 0) || zlist_eqb src dst) eqn:E1.
  { apply orb_true_iff in E1. destruct E1 as [E1|E1]; [lia|]. apply zlist_eqb_eq in E1. congruence. }
  replace (zsum dst =? zsum src) with true by (symmetry; apply Z.eqb_eq; exact Hs). cbn [negb].
  unfold stage_axis in H. destruct src as [|o rest]; [cbn [zsum] in Hz; lia|].
  destruct (st_outer dst o rest 0 0 0 0 0 0) as [[[l1 u1] s1] r1] eqn:E.
  injection H as <- <- <- <- <-.
  rewrite (mf_outer_sim _ _ _ _ _ 0 _ _ _ _ _ _ _ _ E). f_equal. cbn [zsum] in *. lia.
Qed.

Lemma alias_le_reads lengths plan :
  nonneg_layout lengths -> 0 <= alias_ax lengths plan /\ alias_ax lengths plan <= reads_ax lengths plan.
Proof.
  intros H. unfold alias_ax, reads_ax. induction plan as [|e plan IH]; cbn [map zsum]; [lia|].
  pose proof (nthZ_nonneg lengths (fst e) H).
  destruct (ploc_eqb (snd e) (LSlice colon)); lia.
Qed.

Lemma slice_prods_bounds shape : forall chunks index reads aliased r a,
  Forall nonneg_layout chunks -> 0 <= aliased <= reads ->
  slice_prods shape chunks index reads aliased = (r, a) -> 0 <= a /\ a <= r.
Proof.
  induction shape as [|d shape' IH]; intros chunks index reads aliased r a HF Hb H.
  - cbn [slice_prods] in H. injection H as <- <-. lia.
  - destruct chunks as [|c chunks']; [cbn [slice_prods] in H; injection H as <- <-; lia|].
    destruct index as [|i index']; [cbn [slice_prods] in H; injection H as <- <-; lia|].
    cbn [slice_prods] in H. cbv zeta in H.
    inversion HF as [|x y Hc HF']; subst x y.
    pose proof (alias_le_reads c (slice_axis_plan d c i) Hc) as [A1 A2].
    apply IH in H; [exact H | exact HF' | apply mul_le_mono_nn; lia].
Qed.

Theorem slice_wellformed shape chunks index allow itemsize :
  0 <= itemsize -> Forall nonneg_layout chunks ->
  wellformed (slice_transfer shape chunks index allow itemsize).
Proof.
  intros Hi HF. unfold slice_transfer, wellformed.
  destruct (slice_prods shape chunks (index ++ repeat (ISlice colon) (length shape - length index)) 1 1)
    as [r a] eqn:E.
  apply slice_prods_bounds in E; [|exact HF|lia].
  cbn [fst snd]. destruct allow; nia.
Qed.

Lemma zmax_ne_bounds g : nonneg_layout g -> 0 <= zmax_ne g /\ zmax_ne g <= zsum g.
Proof.
  intros H. destruct g as [|x t]; cbn [zmax_ne zsum]; [lia|].
  inversion H as [|a b Hx Ht]; subst a b. clear H.
  induction t as [|y t IH]; cbn [fold_right zsum]; [lia|].
  inversion Ht as [|a b Hy Ht']; subst a b. specialize (IH Ht'). lia.
Qed.

Lemma zsum_firstn_skipn k l : zsum (firstn k l) + zsum (skipn k l) = zsum l.
Proof. rewrite <- zsum_app, firstn_skipn. reflexivity. Qed.

Lemma group_max_sum_bounds fuel : forall k l,
  nonneg_layout l -> 0 <= group_max_sum fuel k l /\ group_max_sum fuel k l <= zsum l.
Proof.
  induction fuel as [|f IH]; intros k l H; cbn [group_max_sum].
  - pose proof (zsum_nonneg l H). lia.
  - destruct l as [|x t] eqn:El; [cbn [zsum]; lia|]. rewrite <- El in *.
    pose proof (zmax_ne_bounds _ (Forall_firstn _ k l H)). pose proof (IH k _ (Forall_skipn _ k l H)).
    pose proof (zsum_firstn_skipn k l). lia.
Qed.

Lemma pr_axis_bounds sp c f :
  nonneg_layout c -> pr_axis sp c = Some f -> 0 <= f /\ f <= zsum c.
Proof.
  intros H. unfold pr_axis. destruct sp as [k|].
  - destruct (k <? 1); [discriminate|]. intros E. injection E as <-. apply group_max_sum_bounds. exact H.
  - intros E. injection E as <-. pose proof (zsum_nonneg c H). lia.
Qed.

Lemma pr_largest_bounds splits : forall chunks acc g lg,
  length splits = length chunks -> Forall nonneg_layout chunks -> 0 <= acc <= g ->
  pr_largest splits chunks acc = Some lg ->
  0 <= lg /\ lg <= g * zprod (map zsum chunks).
Proof.
  induction splits as [|sp splits' IH]; intros chunks acc g lg Hlen HF Hb H.
  - destruct chunks; [|discriminate]. cbn [pr_largest] in H. injection H as <-. cbn [map zprod]. lia.
  - destruct chunks as [|c chunks']; [discriminate|]. cbn [pr_largest] in H.
    inversion HF as [|x y Hc HF']; subst x y.
    destruct (pr_axis sp c) as [f|] eqn:E; [|discriminate].
    apply pr_axis_bounds in E; [|exact Hc].
    apply (IH _ _ (g * zsum c)) in H; [| cbn [length] in Hlen; lia | exact HF' | apply mul_le_mono_nn; lia].
    cbn [map zprod]. rewrite Z.mul_assoc. exact H.
Qed.

Theorem partial_reduce_wellformed splits chunks itemsize lo hi :
  0 <= itemsize -> length splits = length chunks -> Forall nonneg_layout chunks ->
  partial_reduce_transfer splits chunks itemsize = Some (lo, hi) ->
  0 <= lo /\ lo <= hi.
Proof.
  intros Hi Hlen HF H. unfold partial_reduce_transfer in H.
  destruct (pr_largest splits chunks 1) as [lg|] eqn:E; [|discriminate].
  injection H as <- <-.
  apply (pr_largest_bounds _ _ _ 1) in E; try assumption; try lia.
  split; nia.
Qed.

Lemma qadd_wf a b c d : qwellformed a b -> qwellformed c d -> qwellformed (qadd a c) (qadd b d).
Proof.
  destruct a as [a1 a2], b as [b1 b2], c as [c1 c2], d as [d1 d2].
  unfold qwellformed, qle, qadd. cbn [fst snd].
  intros (A1 & A2 & A3 & A4) (C1 & C2 & C3 & C4).
  assert (0 < a2 * c2) by nia. assert (0 < b2 * d2) by nia.
  repeat split; try assumption; [nia|].
  assert (E1 : a1 * b2 * (c2 * d2) <= b1 * a2 * (c2 * d2)) by (apply Z.mul_le_mono_nonneg_r; nia).
  assert (E2 : c1 * d2 * (a2 * b2) <= d1 * c2 * (a2 * b2)) by (apply Z.mul_le_mono_nonneg_r; nia).
  nia.
Qed.

Lemma bw_fanout_pos out arg : 1 <= bw_fanout out arg.
Proof.
  unfold bw_fanout. assert (G : forall acc, 1 <= acc ->
    1 <= fold_left (fun acc e => let '(i, n) := e in
             if (1 <? n) && (match assoc_get i arg with Some m => m | None => 1 end =? 1)
             then acc * n else acc) out acc).
  { induction out as [|[i n] out' IH]; intros acc Hacc; cbn [fold_left]; [exact Hacc|].
    apply IH. destruct (1 <? n) eqn:E; cbn [andb]; [|exact Hacc].
    destruct (_ =? 1); [nia | exact Hacc]. }
  apply G. lia.
Qed.

Lemma bw_gather_pos out ind : forall nb, Forall (fun n => 1 <= n) nb -> 1 <= bw_gather out ind nb.
Proof.
  induction ind as [|i ind' IH]; intros nb H; cbn [bw_gather]; [lia|].
  destruct nb as [|n nb']; [lia|]. inversion H as [|x y Hn H']; subst x y.
  specialize (IH nb' H'). destruct (assoc_get i out); [exact IH | nia].
Qed.

Definition bw_arg_ok (a : Z * list Z * list Z * Z) : Prop :=
  let '(_, _, nb, nbytes) := a in 0 <= nbytes /\ Forall (fun n => 1 <= n) nb.

Lemma bw_arg_wf out ind nb nbytes lo hi :
  0 <= nbytes -> Forall (fun n => 1 <= n) nb ->
  bw_arg out ind nb nbytes = (lo, hi) -> qwellformed lo (hi, 1).
Proof.
  intros Hn Hnb H. unfold bw_arg in H. injection H as <- <-.
  pose proof (bw_fanout_pos out (zipdict ind nb)) as Hf.
  pose proof (bw_gather_pos out ind nb Hnb) as Hg.
  set (f := bw_fanout out (zipdict ind nb)) in *. set (g := bw_gather out ind nb) in *.
  assert (Hfg : 1 <= f * g) by nia.
  unfold qwellformed, qle. cbn [fst snd]. repeat split; nia.
Qed.

Lemma bw_loop_wf out args : forall seen lo hi lo' hi',
  Forall bw_arg_ok args -> qwellformed lo (hi, 1) ->
  bw_loop out args seen lo hi = (lo', hi') -> qwellformed lo' (hi', 1).
Proof.
  induction args as [|[[[name ind] nb] nbytes] args' IH]; intros seen lo hi lo' hi' HF Hw H; cbn [bw_loop] in H.
  - injection H as <- <-. exact Hw.
  - inversion HF as [|x y Hok HF']; subst x y. unfold bw_arg_ok in Hok. destruct Hok as [Hn Hnb].
    destruct (existsb (bw_key_eqb (name, ind)) seen); [apply (IH _ _ _ _ _ HF' Hw H)|].
    destruct (bw_arg out ind nb nbytes) as [alo ahi] eqn:E.
    apply bw_arg_wf in E; try assumption.
    apply (IH _ _ _ _ _ HF') in H; [exact H|].
    pose proof (qadd_wf _ _ _ _ Hw E) as Q. unfold qadd at 2 in Q. cbn [fst snd] in Q.
    replace (hi * 1 + ahi * 1) with (hi + ahi) in Q by lia. exact Q.
Qed.

Theorem blockwise_wellformed out_ind out_nb args lo hi :
  Forall bw_arg_ok args ->
  blockwise_transfer out_ind out_nb args = (lo, hi) -> qwellformed lo (hi, 1).
Proof.
  intros HF H. unfold blockwise_transfer in H.
  apply (bw_loop_wf _ _ _ _ _ _ _ HF) in H; [exact H|].
  unfold qwellformed, qle. cbn [fst snd]. lia.
Qed.

Lemma dflt_dep_wf ob db nbytes lo hi :
  0 <= ob -> 0 <= nbytes -> dflt_dep ob db nbytes = (lo, hi) -> qwellformed lo hi.
Proof.
  intros Hob Hn H. unfold dflt_dep in H.
  destruct (Z.max 1 db <=? ob) eqn:E; injection H as <- <-;
    unfold qwellformed, qle; cbn [fst snd]; repeat split; nia.
Qed.

Definition dflt_dep_ok (d : Z * Z * Z) : Prop := let '(_, _, nbytes) := d in 0 <= nbytes.

Lemma dflt_loop_wf ob deps : forall seen lo hi lo' hi',
  0 <= ob -> Forall dflt_dep_ok deps -> qwellformed lo hi ->
  dflt_loop ob deps seen lo hi = (lo', hi') -> qwellformed lo' hi'.
Proof.
  induction deps as [|[[name db] nbytes] deps' IH]; intros seen lo hi lo' hi' Hob HF Hw H; cbn [dflt_loop] in H.
  - injection H as <- <-. exact Hw.
  - inversion HF as [|x y Hn HF']; subst x y. unfold dflt_dep_ok in Hn.
    destruct (existsb (Z.eqb name) seen); [apply (IH _ _ _ _ _ Hob HF' Hw H)|].
    destruct (dflt_dep ob db nbytes) as [dlo dhi] eqn:E.
    apply dflt_dep_wf in E; try assumption.
    apply (IH _ _ _ _ _ Hob HF') in H; [exact H|]. apply qadd_wf; assumption.
Qed.

Theorem default_wellformed ob deps lo hi :
  0 <= ob -> Forall dflt_dep_ok deps ->
  default_transfer ob deps = (lo, hi) -> qwellformed lo hi.
Proof.
  intros Hob HF H. unfold default_transfer in H.
  apply (dflt_loop_wf _ _ _ _ _ _ _ Hob HF) in H; [exact H|].
  unfold qwellformed, qle. cbn [fst snd]. lia.
Qed.

(* a node without array dependencies (a leaf) moves nothing *)
Theorem default_leaf_zero ob : default_transfer ob [] = ((0, 1), (0, 1)).
Proof. reflexivity. Qed.

Theorem alias_zero : alias_transfer = (0, 0).
Proof. reflexivity. Qed.
