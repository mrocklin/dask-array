(* auto_chunks' previous_chunks branch (AutoPrev.v):
   TERMINATION of `while multiplier_remaining:`.

     prev_loop_grow_terminates     multiplier >= 1 initially (result is a fresh dict): for ALL oracle values the
                                   loop ends within (number of 'auto' axes + 1) passes
     prev_loop_nan_never_exits     multiplier < 1 initially (result IS median_chunks): when the proposals are NaN
                                   and an axis is still in `autos`, no pass ever ends the loop (NaN != NaN)
     prev_loop_sane_terminates     (AutoPrevTerm2.v) the same case with sane proposals: a stated bound suffices *)
From DA Require Import PyBase NormChunks NormChunksFacts AutoPrev AutoPrevFacts.
Open Scope Z_scope.

(* `autos` only shrinks, and multiplier_remaining is set by the axis loop exactly when it shrinks *)

Lemma axis_step_auto reduce c o x x' f k :
  axis_step reduce c o x = (x', f, k) -> ax_auto x = true ->
  (ax_auto x' = true /\ f = false /\ k = 1) \/ (ax_auto x' = false /\ f = true).
Proof.
  unfold axis_step. destruct o as [p mcs]. intros H Ha.
  destruct (f_gt_z p (c_n c)).
  - injection H as <- <- _. right. destruct reduce; auto.
  - destruct (reduce || z_gt_f (max_of (c_pv c)) mcs).
    + destruct (f_lt_z p 1); injection H as <- <- <-.
      * right. auto.
      * left. unfold set_res. destruct reduce; cbn; auto.
    + injection H as <- <- <-. left. unfold set_res. destruct reduce; cbn; auto.
Qed.

Lemma n_autos_cons x xs : n_autos (x :: xs) = if ax_auto x then S (n_autos xs) else n_autos xs.
Proof. unfold n_autos. cbn [filter]. destruct (ax_auto x); reflexivity. Qed.

Lemma round_rel_autos reduce o a cs xs xs' f k :
  round_rel reduce o a cs xs xs' f k ->
  (n_autos xs' <= n_autos xs)%nat /\ (f = true -> (n_autos xs' < n_autos xs)%nat) /\
  (f = false -> k = 1 /\ map ax_auto xs' = map ax_auto xs).
Proof.
  round_rel_induction; [|destruct IH as (I1 & I2 & I3)..];
    rewrite ?n_autos_cons, ?Ea; cbn [map].
  - repeat split; auto. discriminate.
  - split; [lia|]. split; [exact I2|].
    intros Hf. destruct (I3 Hf) as [-> E]. rewrite E. auto.
  - destruct (axis_step_auto _ _ _ _ _ _ _ Hs Ea) as [(A1 & -> & ->) | (A1 & ->)]; rewrite A1; cbn [orb].
    + split; [lia|]. split; [intros Hf; specialize (I2 Hf); lia|].
      intros Hf. destruct (I3 Hf) as [-> E]. rewrite Ea, E. auto.
    + split; [lia|]. split; [intros _; lia|discriminate].
Qed.

Lemma n_autos_map xs xs' : map ax_auto xs' = map ax_auto xs -> n_autos xs' = n_autos xs.
Proof.
  revert xs'. induction xs as [|x xs IH]; intros [|x' xs'] H; cbn [map] in H; try discriminate; [reflexivity|].
  injection H as H1 H2. rewrite !n_autos_cons, H1, (IH _ H2). reflexivity.
Qed.

Theorem prev_loop_grow_terminates : forall fuel limit itemsize cs orc r st,
  length cs = length (ls_axes st) ->
  (n_autos (ls_axes st) < fuel)%nat ->
  prev_loop fuel false limit itemsize cs orc r st <> LFuel.
Proof.
  induction fuel as [|f IH]; intros limit itemsize cs orc r st Hl Hn; [lia|].
  cbn [prev_loop].
  destruct (prev_round false limit itemsize cs (orc r) st) as [[st1 [|]]|] eqn:Hr; try discriminate.
  destruct (prev_round_inv _ _ _ _ _ _ _ _ Hr Hl) as (fl & k & Hrel & _ & Hm).
  destruct (round_rel_autos _ _ _ _ _ _ _ _ Hrel) as (_ & I2 & _).
  destruct fl; [|destruct Hm; discriminate].
  specialize (I2 eq_refl). apply IH; [rewrite (round_rel_length _ _ _ _ _ _ _ _ Hrel); exact Hl|lia].
Qed.

Lemma init_axes_autos specs : forall pvs, (n_autos (init_axes specs pvs) <= length (filter is_auto specs))%nat.
Proof.
  unfold init_axes. induction specs as [|sp specs IH]; intros pvs; [cbn; lia|].
  destruct pvs as [|pv pvs]; [cbn; lia|]. cbn [combine map fst snd filter]. rewrite n_autos_cons.
  specialize (IH pvs). destruct (is_auto sp); cbn [ax_auto length]; lia.
Qed.

(* at the level of auto_chunks: if the first multiplier is >= 1 the loop needs at most #autos + 1 passes *)
Theorem auto_chunks_prev_grow_terminates : forall orc fuel limit itemsize specs shape pvs m,
  length specs = length shape ->
  initial_multiplier limit itemsize specs pvs = Ok m -> f_lt_z m 1 = false ->
  (length (filter is_auto specs) < fuel)%nat ->
  auto_chunks_prev orc fuel limit itemsize specs shape pvs <> AFuel.
Proof.
  intros orc fuel limit itemsize specs shape pvs m Hlen Hm Hred Hfuel. unfold auto_chunks_prev.
  destruct (loop_start limit itemsize specs shape pvs) as [[[reduce cs] st0]|] eqn:Hst; [|discriminate].
  destruct (loop_start_length _ _ _ _ _ _ _ _ Hlen Hst) as [Hl0 _].
  apply loop_start_inv in Hst as (ids & m' & Hm' & _ & -> & _ & ->).
  assert (m' = m) as -> by congruence. rewrite Hred.
  destruct (prev_loop fuel false (Z.max 1 limit) itemsize cs orc 0 _) as [st| |] eqn:Hl; try discriminate.
  - destruct (final_specs false specs (ls_axes st)); discriminate.
  - exfalso. revert Hl. apply prev_loop_grow_terminates; [exact Hl0|].
    pose proof (init_axes_autos specs pvs). cbn [ls_axes]. lia.
Qed.

Lemma fmul_nan_r x : fmul x FNan = FNan.
Proof. destruct x; reflexivity. Qed.

Lemma med_prod_nan xs x : In x xs -> ax_med x = Some (VNum FNan) -> med_prod (map ax_med xs) = FNan.
Proof.
  intros Hin Hx. induction xs as [|y xs IH]; [destruct Hin|].
  cbn [map med_prod fold_right]. destruct Hin as [->|Hin].
  - rewrite Hx. reflexivity.
  - fold (med_prod (map ax_med xs)). rewrite (IH Hin).
    destruct (ax_med y) as [v|]; [|reflexivity]. destruct (dv_factor v); [apply fmul_nan_r|reflexivity].
Qed.

(* one pass with all-NaN proposals, result = median_chunks: every axis of `autos` stays in `autos`, its
   dict entry becomes NaN, nothing is flagged, largest_block keeps its value *)
Lemma round_rel_nan o a cs xs xs' f k :
  (forall a', o a' = (FNan, FNan)) -> round_rel true o a cs xs xs' f k ->
  f = false /\ k = 1 /\ map ax_auto xs' = map ax_auto xs /\
  (forall x', In x' xs' -> ax_auto x' = true -> ax_med x' = Some (VNum FNan)).
Proof.
  intros Ho. round_rel_induction; [|destruct IH as (-> & -> & E & Hnan)..];
    cbn [map].
  - repeat split; auto. intros x' [].
  - rewrite E. repeat split; auto. intros x' [<-|Hin] Hx'; [congruence|auto].
  - rewrite Ho in Hs. cbn in Hs. injection Hs as <- <- <-. cbn [ax_auto]. rewrite Ea, E.
    repeat split; auto. intros x' [<-|Hin] Hx'; [reflexivity|auto].
Qed.

Lemma n_autos_pos_In xs : (0 < n_autos xs)%nat -> exists x, In x xs /\ ax_auto x = true.
Proof.
  induction xs as [|x xs IH]; [cbn; lia|]. rewrite n_autos_cons. destruct (ax_auto x) eqn:E.
  - intros _. exists x. split; [left; reflexivity|exact E].
  - intros H. destruct (IH H) as (y & Hy & Ey). exists y. split; [right; exact Hy|exact Ey].
Qed.

(* such a pass changes nothing `autos` or largest_block depend on and asks for another one: the recomputed
   multiplier is NaN, and NaN != last_multiplier *)
Lemma prev_round_nan limit itemsize cs o st :
  (forall a, o a = (FNan, FNan)) -> length cs = length (ls_axes st) -> (0 < n_autos (ls_axes st))%nat ->
  match prev_round true limit itemsize cs o st with
  | Ok (st', b) => b = true /\ length cs = length (ls_axes st') /\
                   n_autos (ls_axes st') = n_autos (ls_axes st) /\ ls_lb st' = ls_lb st
  | Err _ => itemsize = 0 \/ ls_lb st = 0
  end.
Proof.
  intros Ho Hl Hn. unfold prev_round.
  destruct (round_axes true cs 0 o (ls_axes st)) as [[xs fl] k] eqn:Hr.
  apply round_axes_rel in Hr; [|exact Hl].
  destruct (round_rel_nan _ _ _ _ _ _ _ Ho Hr) as (-> & -> & E & Hnan).
  pose proof (round_rel_length _ _ _ _ _ _ _ _ Hr) as Hlen. pose proof (n_autos_map _ _ E) as En.
  destruct (n_autos_pos_In xs ltac:(lia)) as (x & Hin & Hx).
  cbn [orb]. unfold compute_multiplier. rewrite (med_prod_nan xs x Hin (Hnan x Hin Hx)), Z.mul_1_r.
  destruct ((itemsize =? 0) || (ls_lb st =? 0)) eqn:Ez; [lia|].
  cbn [ls_axes ls_lb]. repeat split; [congruence|exact En].
Qed.

(* so the loop never ends by itself: it runs out of fuel, or _compute_multiplier divides by zero *)
Lemma prev_loop_nan fuel : forall limit itemsize cs orc r st,
  (forall r' a, orc r' a = (FNan, FNan)) ->
  length cs = length (ls_axes st) -> (0 < n_autos (ls_axes st))%nat ->
  match prev_loop fuel true limit itemsize cs orc r st with
  | LFuel => True
  | LErr _ => itemsize = 0 \/ ls_lb st = 0
  | LDone _ => False
  end.
Proof.
  induction fuel as [|f IH]; intros limit itemsize cs orc r st Ho Hl Hn; [exact I|].
  cbn [prev_loop]. pose proof (prev_round_nan limit itemsize cs (orc r) st (Ho r) Hl Hn) as H.
  destruct (prev_round true limit itemsize cs (orc r) st) as [[st1 b]|]; [|exact H].
  destruct H as (-> & Hl1 & Hn1 & Hlb1). rewrite <- Hlb1. apply IH; [exact Ho|exact Hl1|lia].
Qed.

Theorem prev_loop_nan_never_exits : forall fuel limit itemsize cs orc r st,
  (forall r' a, orc r' a = (FNan, FNan)) ->
  length cs = length (ls_axes st) ->
  (0 < n_autos (ls_axes st))%nat ->
  forall st', prev_loop fuel true limit itemsize cs orc r st <> LDone st'.
Proof.
  intros fuel limit itemsize cs orc r st Ho Hl Hn st' E.
  pose proof (prev_loop_nan fuel limit itemsize cs orc r st Ho Hl Hn) as H. rewrite E in H. exact H.
Qed.
