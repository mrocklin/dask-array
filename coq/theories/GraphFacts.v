(* GraphFacts.v — proofs about the shared task-graph layer (Graph.v), over the stdlib and ListFacts:
   the certificate checker accepts exactly the topological orders and the key grid lists every block
   index once (C04); every topological order and every legal concurrent schedule computes the one
   solution of the tasks' equations, and the heap run of well-behaved tasks refines the pure run (C10). *)
From Coq Require Import List Bool Arith PArith NArith FMapPositive Relations Lia.
From DA Require Import ListFacts Graph.
Import ListNotations.

Lemma mem_b_In : forall k l, mem_b k l = true <-> In k l.
Proof.
  intros k l; induction l as [|x t IH]; cbn.
  - split; [discriminate | tauto].
  - rewrite orb_true_iff, IH, Pos.eqb_eq. split; intros [H|H]; auto.
Qed.

Lemma nodup_b_NoDup : forall l, nodup_b l = true <-> NoDup l.
Proof.
  induction l as [|x t IH]; cbn.
  - split; [constructor | reflexivity].
  - rewrite andb_true_iff, negb_true_iff, IH, NoDup_cons_iff, <- mem_b_In, not_true_iff_false. reflexivity.
Qed.

Lemma no_dup_keys_b_spec : forall g, no_dup_keys_b g = true <-> NoDup (keys g).
Proof. intro g. apply nodup_b_NoDup. Qed.

Lemma defined_b_spec : forall g k, defined_b g k = true <-> defined g k.
Proof. intros g k. apply mem_b_In. Qed.

Lemma closed_b_spec : forall g, closed_b g = true <-> closed g.
Proof.
  intro g. unfold closed_b, closed.
  rewrite (forallb_spec _ _ (fun kd => forall d, In d (snd kd) -> defined g d)).
  - split; [intros H k ds d Hin; exact (H (k, ds) Hin d) | intros H [k ds] Hin d; exact (H k ds d Hin)].
  - intros [k ds]. apply forallb_spec. apply defined_b_spec.
Qed.

Lemma in_keys : forall (g : graph) k ds, In (k, ds) g -> defined g k.
Proof. intros g k ds H. unfold defined, keys. change k with (fst (k, ds)). apply in_map. exact H. Qed.

Lemma defined_in : forall (g : graph) k, defined g k -> exists ds, In (k, ds) g.
Proof.
  intros g k H. unfold defined, keys in H. apply in_map_iff in H.
  destruct H as [[k' ds] [E Hin]]. cbn in E. subst. eauto.
Qed.

Lemma ranked_acyclic : forall g, ranked g -> acyclic g.
Proof.
  intros g [rank Hr] k Hc.
  assert (Hlt : forall a b, clos_trans key (edge g) a b -> rank b < rank a).
  { intros a b H. induction H as [a b H | a b c _ IH1 _ IH2].
    - apply Hr; exact H.
    - lia. }
  specialize (Hlt k k Hc). lia.
Qed.

(* index of the first occurrence (length if absent) *)
Fixpoint index_of (k : key) (l : list key) : nat :=
  match l with [] => 0 | x :: t => if Pos.eqb x k then 0 else S (index_of k t) end.

Lemma index_of_in_lt : forall k pre post, In k pre -> index_of k (pre ++ post) < length pre.
Proof.
  intros k pre post; induction pre as [|x t IH]; cbn; intro H; [contradiction|].
  destruct (Pos.eqb x k) eqn:E; [lia|].
  destruct H as [H|H]; [subst; rewrite Pos.eqb_refl in E; discriminate|].
  specialize (IH H). lia.
Qed.

Lemma index_of_notin : forall k pre post, ~ In k pre -> index_of k (pre ++ k :: post) = length pre.
Proof.
  intros k pre post; induction pre as [|x t IH]; cbn; intro H.
  - rewrite Pos.eqb_refl. reflexivity.
  - destruct (Pos.eqb x k) eqn:E.
    + apply Pos.eqb_eq in E. subst. exfalso. apply H. left; reflexivity.
    + rewrite IH; [reflexivity|]. intro Hin. apply H. right; exact Hin.
Qed.

(* where an entry of the graph stands in a topological order *)
Lemma topological_split : forall g o k ds, topological g o -> In (k, ds) g ->
  exists pre post, o = pre ++ k :: post /\ incl ds pre.
Proof.
  intros g o k ds (_ & Hkeys & Hdeps) Hin.
  destruct (in_split k o) as [pre [post E]]; [apply Hkeys; eapply in_keys; eauto|].
  exists pre, post. split; [exact E | exact (Hdeps pre k post ds E Hin)].
Qed.

(* ... and it is enough to place every entry once *)
Lemma topological_intro : forall g o, NoDup o -> (forall k, In k o <-> defined g k) ->
  (forall k ds, In (k, ds) g -> exists pre post, o = pre ++ k :: post /\ incl ds pre) ->
  topological g o.
Proof.
  intros g o Hnd Hkeys Hsplit. split; [exact Hnd|]. split; [exact Hkeys|].
  intros pre k post ds E Hin. destruct (Hsplit k ds Hin) as (pre' & post' & E' & Hpre).
  rewrite E in Hnd, E'. rewrite (NoDup_split_unique _ _ _ _ _ Hnd E'). exact Hpre.
Qed.

Lemma topological_closed : forall g o, topological g o -> closed g.
Proof.
  intros g o T k ds d Hin Hd. destruct (topological_split g o k ds T Hin) as (pre & post & E & Hpre).
  apply T. rewrite E. apply in_or_app. left. exact (Hpre d Hd).
Qed.

Lemma topological_ranked : forall g o, topological g o -> ranked g.
Proof.
  intros g o T. exists (fun k => index_of k o). intros k d [ds [Hin Hd]].
  destruct (topological_split g o k ds T Hin) as (pre & post & E & Hpre).
  destruct T as (Hnd & _). rewrite E in Hnd. apply NoDup_app_notin in Hnd.
  rewrite E, (index_of_notin k pre post (proj1 Hnd)). apply index_of_in_lt. exact (Hpre d Hd).
Qed.

Lemma topological_acyclic : forall g o, topological g o -> acyclic g.
Proof. intros g o H. apply ranked_acyclic. eapply topological_ranked; eauto. Qed.

Theorem topological_closed_acyclic : forall g o, topological g o -> closed g /\ acyclic g.
Proof. intros g o H. split; [eapply topological_closed | eapply topological_acyclic]; eauto. Qed.

(* induction along the dependencies: what holds of a key as soon as it holds of its
   dependencies holds of every key of the graph *)
Lemma topological_ind : forall g o (P : key -> Prop), topological g o ->
  (forall k ds, In (k, ds) g -> (forall d, In d ds -> P d) -> P k) ->
  forall k, In k o -> P k.
Proof.
  intros g o P T Hstep. pose proof (topological_closed g o T) as Hcl.
  destruct (topological_ranked g o T) as [rank Hr]. destruct T as (_ & Hkeys & _).
  intro k. induction k as [k IH] using (well_founded_induction (well_founded_ltof _ rank)).
  intro Hk. destruct (defined_in g k (proj1 (Hkeys k) Hk)) as [ds Hin]. apply (Hstep k ds Hin).
  intros d Hd. apply IH; [apply Hr; exists ds; auto | apply Hkeys; exact (Hcl k ds d Hin Hd)].
Qed.

Lemma pm_mem_add : forall A (m : PM.t A) k k' x,
  pm_mem k' (PM.add k x m) = Pos.eqb k' k || pm_mem k' m.
Proof.
  intros A m k k' x. unfold pm_mem. destruct (Pos.eqb k' k) eqn:E.
  - apply Pos.eqb_eq in E. subst. rewrite PM.gss. reflexivity.
  - apply Pos.eqb_neq in E. rewrite PM.gso by exact E. reflexivity.
Qed.

Lemma pm_mem_empty : forall A k, pm_mem k (PM.empty A) = false.
Proof. intros A k. unfold pm_mem. rewrite PM.gempty. reflexivity. Qed.

Lemma pm_fresh_add : forall A (m : PM.t A) k0 x l,
  (forall k, In k l -> pm_mem k (PM.add k0 x m) = false) <->
  ~ In k0 l /\ forall k, In k l -> pm_mem k m = false.
Proof.
  intros A m k0 x l. split.
  - intro H. split.
    + intro Hin. specialize (H k0 Hin). rewrite pm_mem_add, Pos.eqb_refl in H. discriminate.
    + intros k Hk. specialize (H k Hk). rewrite pm_mem_add in H. apply orb_false_iff in H. apply H.
  - intros [Hn H] k Hk. rewrite pm_mem_add, (H k Hk), orb_false_r. apply Pos.eqb_neq. intros ->. contradiction.
Qed.

Lemma build_map_some : forall g m0,
  (exists m, build_map g m0 = Some m) <->
  NoDup (keys g) /\ forall k, In k (keys g) -> pm_mem k m0 = false.
Proof.
  induction g as [|[k0 ds0] t IH]; cbn; intro m0.
  - split; [intros _; split; [constructor | intros k []] | eauto].
  - rewrite NoDup_cons_iff. destruct (pm_mem k0 m0) eqn:Em.
    + split; [intros [m H]; discriminate | intros [_ H]; rewrite (H k0) in Em by auto; discriminate].
    + rewrite IH, pm_fresh_add. split.
      * intros (Hnd & Hk0 & H). repeat split; auto. intros k [<-|Hk]; auto.
      * intros ((Hk0 & Hnd) & H). auto.
Qed.

Lemma build_map_find : forall g m0 m, build_map g m0 = Some m ->
  forall k ds, PM.find k m = Some ds <-> In (k, ds) g \/ PM.find k m0 = Some ds.
Proof.
  induction g as [|[k0 ds0] t IH]; cbn; intros m0 m H k ds.
  - inversion H; subst. tauto.
  - unfold pm_mem in H. destruct (PM.find k0 m0) eqn:Em; [discriminate|]. rewrite (IH _ _ H).
    destruct (Pos.eq_dec k k0) as [->|Hne].
    + rewrite PM.gss, Em. split; [intros [Hin|E]; [auto | inversion E; auto] |].
      intros [[E|Hin]|E]; [inversion E; auto | auto | discriminate].
    + rewrite PM.gso by exact Hne. split; [intros [?|?]; auto |].
      intros [[E|?]|?]; [inversion E; subst; contradiction | auto | auto].
Qed.

Lemma walk_iff : forall m order seen,
  walk m seen order = true <->
  NoDup order /\
  (forall k, In k order -> pm_mem k seen = false) /\
  (forall pre k post, order = pre ++ k :: post ->
     exists ds, PM.find k m = Some ds /\ forall d, In d ds -> pm_mem d seen = true \/ In d pre).
Proof.
  intros m order; induction order as [|k0 t IH]; intro seen; cbn [walk].
  - split; [intros _ | reflexivity]. split; [constructor|]. split; [intros k []|].
    intros [|? ?] ? ? E; discriminate.
  - rewrite NoDup_cons_iff, forall_split_cons.
    destruct (PM.find k0 m) as [ds0|] eqn:Ef.
    2:{ split; [discriminate | intros (_ & _ & [ds [E _]] & _); discriminate]. }
    rewrite !andb_true_iff, negb_true_iff, forallb_forall, IH, pm_fresh_add.
    (* a dependency seen once k0 went in: seen before, or k0 itself *)
    assert (Hadd : forall d pre, pm_mem d (PM.add k0 tt seen) = true \/ In d pre <->
                                 pm_mem d seen = true \/ In d (k0 :: pre)).
    { intros d pre. rewrite pm_mem_add, orb_true_iff, Pos.eqb_eq. cbn. intuition. }
    split.
    + intros ((Hk0 & Hds0) & Hnd & (Hn & Hfresh) & Hsplit). repeat split; auto.
      * intros k [<-|Hk]; auto.
      * exists ds0. auto.
      * intros pre k post E. destruct (Hsplit pre k post E) as [ds [Hf Hds]].
        exists ds. split; [exact Hf|]. intros d Hd. apply Hadd, Hds, Hd.
    + intros ((Hn & Hnd) & Hfresh & [ds [E Hds0]] & Hsplit). inversion E; subst ds. repeat split; auto.
      * apply Hfresh. left; reflexivity.
      * intros d Hd. destruct (Hds0 d Hd) as [?|[]]; assumption.
      * intros k Hk. apply Hfresh. right; exact Hk.
      * intros pre k post E'. destruct (Hsplit pre k post E') as [ds [Hf Hds]].
        exists ds. split; [exact Hf|]. intros d Hd. apply Hadd, Hds, Hd.
Qed.

(* the checker accepts exactly the genuine topological orders of graphs without duplicate
   keys, and only when all the requested output keys are defined *)
Theorem graph_check_iff : forall g order outs,
  graph_check_b g order outs = true <->
  NoDup (keys g) /\ topological g order /\ (forall k, In k outs -> defined g k).
Proof.
  intros g order outs. unfold graph_check_b.
  destruct (build_map g (PM.empty _)) as [m|] eqn:Eb.
  2:{ split; [discriminate|]. intros (Hnd & _).
      destruct (proj2 (build_map_some g (PM.empty _)) (conj Hnd (fun k _ => pm_mem_empty _ k))) as [m Em]. congruence. }
  assert (Hnd : NoDup (keys g)) by (apply (build_map_some g (PM.empty _)); eauto).
  assert (Hfind : forall k ds, PM.find k m = Some ds <-> In (k, ds) g).
  { intros k ds. rewrite (build_map_find _ _ _ Eb), PM.gempty. intuition discriminate. }
  assert (Hmem : forall k, pm_mem k m = true <-> defined g k).
  { intro k. unfold pm_mem. split.
    - destruct (PM.find k m) as [ds|] eqn:Ef; [intros _|discriminate]. eapply in_keys, Hfind, Ef.
    - intro Hk. destruct (defined_in g k Hk) as [ds Hin]. apply Hfind in Hin. rewrite Hin. reflexivity. }
  rewrite !andb_true_iff, Nat.eqb_eq, walk_iff, (forallb_spec _ _ _ _ Hmem).
  unfold topological, keys. split.
  - intros ((Hlen & Hndo & _ & Hsplit) & Houts).
    assert (Hsub : incl order (map fst g)).
    { intros k Hk. apply in_split in Hk. destruct Hk as [pre [post E]].
      destruct (Hsplit pre k post E) as [ds [Hf _]]. eapply in_keys, Hfind, Hf. }
    split; [exact Hnd|]. split; [|exact Houts]. split; [exact Hndo|]. split.
    + intro k. split; [apply Hsub|].
      apply NoDup_length_incl; [exact Hndo | unfold keys; rewrite map_length; lia | exact Hsub].
    + intros pre k post ds E Hin d Hd. destruct (Hsplit pre k post E) as [ds' [Hf Hds]].
      rewrite (proj2 (Hfind k ds) Hin) in Hf. inversion Hf; subst ds'.
      destruct (Hds d Hd) as [Hs|Hp]; [rewrite pm_mem_empty in Hs; discriminate | exact Hp].
  - intros (_ & (Hndo & Hkeys & Hdeps) & Houts). split; [|exact Houts]. split; [|split; [exact Hndo | split]].
    + rewrite <- (map_length fst g).
      apply Nat.le_antisymm; apply NoDup_incl_length; auto; intros k Hk; apply Hkeys, Hk.
    + intros; apply pm_mem_empty.
    + intros pre k post E. destruct (defined_in g k) as [ds Hin]; [apply Hkeys; rewrite E; apply in_elt|].
      exists ds. split; [apply Hfind, Hin|]. intros d Hd. right. exact (Hdeps pre k post ds E Hin d Hd).
Qed.

Theorem graph_check_sound : forall g order outs,
  graph_check_b g order outs = true ->
  NoDup (keys g) /\ topological g order /\ (forall k, In k outs -> defined g k).
Proof. intros g order outs. apply graph_check_iff. Qed.

Theorem topo_check_topological : forall g order,
  topo_check_b g order = true -> NoDup (keys g) /\ topological g order.
Proof.
  intros g order H. destruct (graph_check_sound g order [] H) as (H1 & H2 & _). split; assumption.
Qed.

Theorem topo_check_sound : forall g order,
  topo_check_b g order = true -> closed g /\ NoDup (keys g) /\ acyclic g.
Proof.
  intros g order H. destruct (topo_check_topological g order H) as [Hnd Ht].
  split; [eapply topological_closed; eauto|]. split; [exact Hnd|].
  eapply topological_acyclic; eauto.
Qed.

Theorem topo_check_ranked : forall g order,
  topo_check_b g order = true -> ranked g.
Proof.
  intros g order H. destruct (topo_check_topological g order H) as [_ Ht].
  eapply topological_ranked; eauto.
Qed.

Theorem acyclic_b_sound : forall g,
  acyclic_b g = true -> closed g /\ NoDup (keys g) /\ acyclic g.
Proof.
  intros g H. unfold acyclic_b in H.
  destruct (kahn (S (length g)) g (PM.empty unit) []) as [o|]; [|discriminate].
  eapply topo_check_sound; eauto.
Qed.

Theorem topo_check_complete : forall g order,
  NoDup (keys g) -> topological g order -> topo_check_b g order = true.
Proof.
  intros g order Hnd T. apply graph_check_iff. split; [exact Hnd|]. split; [exact T | intros k []].
Qed.

Theorem grid_length : forall nb, length (grid nb) = fold_right Nat.mul 1 nb.
Proof.
  induction nb as [|n t IH]; cbn; [reflexivity|].
  rewrite (flat_map_length_uniform _ (length (grid t))).
  - rewrite seq_length, IH. reflexivity.
  - intros i _. apply map_length.
Qed.

Theorem grid_in_bounds : forall nb idx, In idx (grid nb) <-> in_bounds idx nb.
Proof.
  unfold in_bounds. induction nb as [|n t IH]; cbn; intro idx.
  - split.
    + intros [E|[]]. subst. constructor.
    + intro H. inversion H. left; reflexivity.
  - rewrite in_flat_map. split.
    + intros [i [Hi Hm]]. apply in_map_iff in Hm. destruct Hm as [r [E Hr]]. subst idx.
      apply in_seq in Hi. constructor; [lia|]. apply IH. exact Hr.
    + intro H. inversion H as [|i n' r t' Hlt Hr]; subst.
      exists i. split; [apply in_seq; lia|]. apply in_map. apply IH. exact Hr.
Qed.

Theorem grid_NoDup : forall nb, NoDup (grid nb).
Proof.
  induction nb as [|n t IH]; cbn.
  - constructor; [intros []|constructor].
  - apply (NoDup_flat_map_disjoint _ _ _ (fun i => i)).
    + rewrite map_id. apply seq_NoDup.
    + intro i. apply NoDup_map_inj; [intros x y E; inversion E; reflexivity | exact IH].
    + intros x y z Hx Hy. apply in_map_iff in Hx. apply in_map_iff in Hy.
      destruct Hx as [r1 [E1 _]]. destruct Hy as [r2 [E2 _]]. subst z. inversion E2. reflexivity.
Qed.

Lemma glist_eqb_eq : forall A (eqb : A -> A -> bool),
  (forall x y, eqb x y = true <-> x = y) ->
  forall a b, glist_eqb eqb a b = true <-> a = b.
Proof.
  intros A eqb Heq; induction a as [|x a IH]; intros [|y b]; cbn; try (split; [discriminate|discriminate]).
  - split; reflexivity.
  - rewrite andb_true_iff, Heq, IH. split; [intros [-> ->]; reflexivity | intro E; inversion E; auto].
Qed.

Theorem keys_ok_b_spec : forall nb out, keys_ok_b nb out = true <-> out = grid nb.
Proof.
  intros nb out. unfold keys_ok_b. apply glist_eqb_eq. intros x y.
  apply glist_eqb_eq. intros a b. apply Nat.eqb_eq.
Qed.

(* what an accepted key list satisfies: every in-bounds block index exactly once *)
Theorem keys_ok_exactly_once : forall nb out, keys_ok_b nb out = true ->
  NoDup out /\ length out = fold_right Nat.mul 1 nb /\ forall idx, In idx out <-> in_bounds idx nb.
Proof.
  intros nb out H. apply keys_ok_b_spec in H. subst out.
  split; [apply grid_NoDup|]. split; [apply grid_length|]. apply grid_in_bounds.
Qed.

Lemma map_to_nat_inj : forall a b, map N.to_nat a = map N.to_nat b -> a = b.
Proof.
  induction a as [|x a IH]; intros [|y b] E; cbn in E; try discriminate; [reflexivity|].
  inversion E as [[E1 E2]]. apply N2Nat.inj in E1. subst. f_equal. apply IH. exact E2.
Qed.

Theorem keys_okN_b_spec : forall nb out,
  keys_okN_b nb out = true <-> out = map (map N.of_nat) (grid (map N.to_nat nb)).
Proof.
  intros nb out. unfold keys_okN_b. rewrite keys_ok_b_spec. split; intro E.
  - rewrite <- E. symmetry. apply map_map_id. intro idx. apply map_map_id. exact N2Nat.id.
  - subst out. apply map_map_id. intro idx. apply map_map_id. exact Nat2N.id.
Qed.

Section ExecFacts.
  Variable V : Type.
  Implicit Types (g : list (task V)) (s : store V) (t : task V) (k d : key).

  Lemma upd_same : forall s k r, upd s k r k = Some r.
  Proof. intros. unfold upd. rewrite Pos.eqb_refl. reflexivity. Qed.

  Lemma upd_other : forall s k r k', k' <> k -> upd s k r k' = s k'.
  Proof. intros s k r k' H. unfold upd. apply Pos.eqb_neq in H. rewrite H. reflexivity. Qed.

  Lemma step_other : forall g s k k', k' <> k -> step g s k k' = s k'.
  Proof.
    intros g s k k' H. unfold step. destruct (find_task g k); [|reflexivity].
    apply upd_other. exact H.
  Qed.

  Lemma fold_step_other : forall g order s k',
    ~ In k' order -> fold_left (step g) order s k' = s k'.
  Proof.
    intros g order; induction order as [|k t IH]; cbn; intros s k' H; [reflexivity|].
    rewrite IH by (intro Hin; apply H; right; exact Hin).
    apply step_other. intro E. apply H. left. symmetry; exact E.
  Qed.

  Lemma gather_ext : forall s s' ds, (forall d, In d ds -> s d = s' d) -> gather s ds = gather s' ds.
  Proof.
    intros s s' ds; induction ds as [|d t IH]; cbn; intro H; [reflexivity|].
    rewrite (H d (or_introl eq_refl)), IH; [reflexivity|].
    intros d' Hd'. apply H. right; exact Hd'.
  Qed.

  Lemma exec_ext : forall s s' t, (forall d, In d (t_deps t) -> s d = s' d) -> exec s t = exec s' t.
  Proof. intros s s' t H. unfold exec. rewrite (gather_ext s s' _ H). reflexivity. Qed.

  Lemma gather_some : forall s ds, (forall d, In d ds -> exists v, s d = Some (Val v)) ->
    exists vs, gather s ds = Some vs.
  Proof.
    intros s ds; induction ds as [|d t IH]; cbn; intro H; [eauto|].
    destruct (H d (or_introl eq_refl)) as [v Ev]. rewrite Ev.
    destruct IH as [vs Evs]; [intros d' Hd'; apply H; right; exact Hd'|].
    rewrite Evs. eauto.
  Qed.

  Lemma find_task_find : forall g k, find_task g k = find (fun t => Pos.eqb (t_key t) k) g.
  Proof. intros g k. induction g as [|t0 g IH]; cbn; [|rewrite IH]; reflexivity. Qed.

  Lemma find_task_some : forall g k t, find_task g k = Some t -> In t g /\ t_key t = k.
  Proof. intros g k t. rewrite find_task_find. apply (find_key_some _ _ Pos.eqb_eq). Qed.

  Lemma find_task_In : forall g t, NoDup (map (@t_key V) g) -> In t g -> find_task g (t_key t) = Some t.
  Proof. intros g t. rewrite find_task_find. apply (find_key_NoDup _ _ Pos.eqb_eq). Qed.

  Lemma dep_graph_in : forall g t, In t g -> In (t_key t, t_deps t) (dep_graph g).
  Proof. intros g t H. unfold dep_graph. apply (in_map (fun t => (t_key t, t_deps t))). exact H. Qed.

  Lemma dep_graph_keys : forall g, keys (dep_graph g) = map (@t_key V) g.
  Proof. intro g. unfold keys, dep_graph. rewrite map_map. reflexivity. Qed.

  Lemma dep_graph_defined : forall g k, defined (dep_graph g) k <-> exists t, In t g /\ t_key t = k.
  Proof.
    intros g k. unfold defined. rewrite dep_graph_keys, in_map_iff. split; intros [t [A B]]; eauto.
  Qed.

  Lemma find_task_none : forall g k, find_task g k = None -> ~ defined (dep_graph g) k.
  Proof.
    intros g k H Hd. apply dep_graph_defined in Hd. destruct Hd as [t [Hin <-]]. revert H.
    induction g as [|t0 g IH]; cbn; [contradiction|].
    destruct (Pos.eqb (t_key t0) (t_key t)) eqn:E; [discriminate|].
    destruct Hin as [->|Hin]; [rewrite Pos.eqb_refl in E; discriminate | exact (IH Hin)].
  Qed.

  Lemma dep_graph_ind : forall g o (P : key -> Prop), topological (dep_graph g) o ->
    (forall t, In t g -> (forall d, In d (t_deps t) -> P d) -> P (t_key t)) ->
    forall k, In k o -> P k.
  Proof.
    intros g o P T Hstep. apply (topological_ind _ _ _ T). intros k ds Hin IH.
    apply in_map_iff in Hin. destruct Hin as [t [E Ht]]. inversion E; subst. exact (Hstep t Ht IH).
  Qed.

  Lemma run_app : forall g pre post, run g (pre ++ post) = fold_left (step g) post (run g pre).
  Proof. intros. unfold run. apply fold_left_app. Qed.

  (* a key's entry is written when it runs ... *)
  Lemma run_at : forall g pre k post t,
    NoDup (pre ++ k :: post) -> find_task g k = Some t ->
    run g (pre ++ k :: post) k = Some (exec (run g pre) t).
  Proof.
    intros g pre k post t Hnd Hf. rewrite run_app. cbn.
    apply NoDup_app_notin in Hnd. destruct Hnd as [_ Hpost].
    rewrite fold_step_other by exact Hpost.
    unfold step. rewrite Hf. apply upd_same.
  Qed.

  (* ... and never changes afterwards *)
  Lemma run_stable : forall g pre post k,
    NoDup (pre ++ post) -> In k pre -> run g (pre ++ post) k = run g pre k.
  Proof.
    intros g pre post k Hnd Hin. rewrite run_app. apply fold_step_other.
    apply NoDup_app_iff in Hnd. apply Hnd. exact Hin.
  Qed.

  Lemma run_undefined : forall g o k, ~ In k o -> run g o k = None.
  Proof. intros g o k H. unfold run. rewrite fold_step_other by exact H. reflexivity. Qed.

  (* the final store satisfies every task's defining equation *)
  Theorem run_satisfies : forall g o,
    NoDup (map (@t_key V) g) -> topological (dep_graph g) o -> satisfies g (run g o).
  Proof.
    intros g o Hnd T t Hin.
    destruct (topological_split _ o _ _ T (dep_graph_in g t Hin)) as (pre & post & E & Hpre).
    destruct T as (Hndo & _). rewrite E in *.
    rewrite (run_at g pre (t_key t) post t Hndo (find_task_In g t Hnd Hin)).
    f_equal. apply exec_ext. intros d Hd. symmetry. apply run_stable; [exact Hndo | exact (Hpre d Hd)].
  Qed.

  (* on an acyclic graph the defining equations have at most one solution *)
  Theorem satisfies_unique : forall g o s1 s2,
    topological (dep_graph g) o -> satisfies g s1 -> satisfies g s2 ->
    forall k, In k o -> s1 k = s2 k.
  Proof.
    intros g o s1 s2 T H1 H2. apply (dep_graph_ind g o _ T). intros t Hin IH.
    rewrite (H1 t Hin), (H2 t Hin). f_equal. apply exec_ext. exact IH.
  Qed.

  (* ... and a solution gives every key of the graph a value: no task is stuck *)
  Lemma satisfies_total : forall g o s,
    topological (dep_graph g) o -> satisfies g s -> forall k, In k o -> exists v, s k = Some (Val v).
  Proof.
    intros g o s T Hsat. apply (dep_graph_ind g o _ T). intros t Hin IH.
    rewrite (Hsat t Hin). unfold exec. destruct (gather_some s (t_deps t) IH) as [vs ->]. eauto.
  Qed.

  Theorem run_no_stuck : forall g o,
    NoDup (map (@t_key V) g) -> topological (dep_graph g) o ->
    forall k, defined (dep_graph g) k -> exists v, lookup (run g o) k = Some (Val v).
  Proof.
    intros g o Hnd T k Hk. apply (satisfies_total g o _ T (run_satisfies g o Hnd T)). apply T. exact Hk.
  Qed.

  Theorem run_domain : forall g o, topological (dep_graph g) o ->
    forall k, ~ defined (dep_graph g) k -> lookup (run g o) k = None.
  Proof.
    intros g o (_ & Hkeys & _) k Hn. apply run_undefined. intro H. apply Hn. apply Hkeys. exact H.
  Qed.

  (* CONFLUENCE: any two topological orders give the same value for every key *)
  Theorem run_confluent : forall g o1 o2,
    NoDup (map (@t_key V) g) ->
    topological (dep_graph g) o1 -> topological (dep_graph g) o2 ->
    forall k, lookup (run g o1) k = lookup (run g o2) k.
  Proof.
    intros g o1 o2 Hnd T1 T2 k. unfold lookup.
    destruct (in_dec Pos.eq_dec k o1) as [Hin|Hn].
    - apply (satisfies_unique g o1); auto using run_satisfies.
    - rewrite !run_undefined; [reflexivity | | exact Hn]. intro H2. apply Hn, T1, T2, H2.
  Qed.

  (* s on the keys of l, nothing elsewhere *)
  Definition restrict (s : store V) (l : list key) : store V := fun k => if mem_b k l then s k else None.

  Lemma restrict_in : forall s l k, In k l -> restrict s l k = s k.
  Proof. intros s l k H. unfold restrict. rewrite (proj2 (mem_b_In k l) H). reflexivity. Qed.

  Lemma restrict_cons_none : forall s l k, s k = None -> forall k', restrict s (k :: l) k' = restrict s l k'.
  Proof.
    intros s l k Hk k'. unfold restrict. cbn [mem_b]. destruct (Pos.eqb k' k) eqn:E; [|reflexivity].
    apply Pos.eqb_eq in E. subst k'. rewrite Hk. destruct (mem_b k l); reflexivity.
  Qed.

  Lemma upd_restrict : forall s l (f : store V) k r,
    (forall k', f k' = restrict s l k') -> s k = Some r -> forall k', upd f k r k' = restrict s (k :: l) k'.
  Proof.
    intros s l f k r Hf Hk k'. unfold upd, restrict. cbn [mem_b]. destruct (Pos.eqb k' k) eqn:E; [|apply Hf].
    apply Pos.eqb_eq in E. subst k'. symmetry. exact Hk.
  Qed.

  (* the state of a schedule under way, measured against a solution s of the tasks' equations:
     what is published is s on the finished keys, and every task that has started holds its value
     in s (its dependencies had all finished when it read them) *)
  Definition cinv (s : store V) (c : cstate V) (started finished : list key) : Prop :=
    (forall k, c_store c k = restrict s finished k) /\ (forall k, c_pending c k = restrict s started k).

  Lemma cstep_start_inv : forall g s c started finished k,
    satisfies g s -> (forall k, ~ defined (dep_graph g) k -> s k = None) ->
    cinv s c started finished ->
    (forall t, In t g -> t_key t = k -> incl (t_deps t) finished) ->
    cinv s (cstep g c (Start k)) (k :: started) finished.
  Proof.
    intros g s c started finished k Hsat Hdom [Hst Hpe] Hdeps. cbn [cstep].
    destruct (find_task g k) as [t|] eqn:Ef; (split; [exact Hst|]); cbn [c_pending].
    - apply find_task_some in Ef. destruct Ef as [Hin <-]. apply upd_restrict; [exact Hpe|].
      rewrite (Hsat t Hin). f_equal. apply exec_ext. intros d Hd.
      rewrite Hst. symmetry. apply restrict_in. exact (Hdeps t Hin eq_refl d Hd).
    - intro k'. rewrite restrict_cons_none; [apply Hpe | apply Hdom, find_task_none, Ef].
  Qed.

  Lemma cstep_finish_inv : forall g s c started finished k,
    cinv s c started finished -> In k started -> cinv s (cstep g c (Finish k)) started (k :: finished).
  Proof.
    intros g s c started finished k [Hst Hpe] Hs. cbn [cstep].
    pose proof (Hpe k) as Hk. rewrite (restrict_in s started k Hs) in Hk.
    destruct (c_pending c k) as [r|]; (split; [|exact Hpe]); cbn [c_store].
    - apply upd_restrict; [exact Hst | symmetry; exact Hk].
    - intro k'. rewrite restrict_cons_none; [apply Hst | symmetry; exact Hk].
  Qed.

  Lemma crun_inv : forall g s sched c started finished,
    satisfies g s -> (forall k, ~ defined (dep_graph g) k -> s k = None) ->
    cinv s c started finished -> sched_ok_from g started finished sched ->
    forall k, c_store (fold_left (cstep g) sched c) k = s k.
  Proof.
    intros g s sched; induction sched as [|[k|k] r IH]; intros c started finished Hsat Hdom Hinv Hok;
      cbn [fold_left].
    - intro k. rewrite (proj1 Hinv k). unfold restrict. destruct (mem_b k finished) eqn:E; [reflexivity|].
      symmetry. apply Hdom. rewrite <- (Hok k), <- mem_b_In, E. discriminate.
    - destruct Hok as (_ & Hdeps & Hok).
      eapply IH; [exact Hsat | exact Hdom | | exact Hok]. apply cstep_start_inv; assumption.
    - destruct Hok as (Hs & _ & Hok).
      eapply IH; [exact Hsat | exact Hdom | | exact Hok]. apply cstep_finish_inv; assumption.
  Qed.

  (* every legal interleaved schedule publishes exactly the solution *)
  Lemma crun_solution : forall g s sched,
    satisfies g s -> (forall k, ~ defined (dep_graph g) k -> s k = None) ->
    schedule_ok g sched -> forall k, c_store (crun g sched) k = s k.
  Proof.
    intros g s sched Hsat Hdom Hok. apply (crun_inv g s sched _ [] [] Hsat Hdom); [|exact Hok].
    split; reflexivity.
  Qed.

  (* CONCURRENT EXECUTION: every legal interleaved schedule publishes, for every key, the
     value of the serial run in any topological order *)
  Theorem crun_confluent : forall g sched o,
    NoDup (map (@t_key V) g) -> schedule_ok g sched -> topological (dep_graph g) o ->
    forall k, lookup (c_store (crun g sched)) k = lookup (run g o) k.
  Proof.
    intros g sched o Hnd Hok T.
    exact (crun_solution g (run g o) sched (run_satisfies g o Hnd T) (run_domain g o T) Hok).
  Qed.

  (* the serial schedule of a topological order is a legal schedule (so schedule_ok is
     satisfiable whenever a topological order exists) *)
  Theorem serial_schedule_ok : forall g o, topological (dep_graph g) o -> schedule_ok g (serial o).
  Proof.
    intros g o (Hndo & Hkeys & Hdeps). unfold schedule_ok.
    assert (Hgen : forall post pre, o = rev pre ++ post -> sched_ok_from g pre pre (serial post)).
    { induction post as [|k r IH]; intros pre E.
      - cbn. rewrite app_nil_r in E. subst o. intro k. rewrite in_rev. apply Hkeys.
      - assert (Hk : ~ In k pre).
        { rewrite E in Hndo. apply NoDup_app_notin in Hndo. rewrite in_rev. tauto. }
        cbn. split; [exact Hk|]. split.
        { intros t Hin Ek d Hd. apply in_rev. subst k.
          exact (Hdeps (rev pre) (t_key t) r (t_deps t) E (dep_graph_in g t Hin) d Hd). }
        split; [left; reflexivity|]. split; [exact Hk|].
        apply IH. cbn. rewrite <- app_assoc. exact E. }
    apply (Hgen o []). reflexivity.
  Qed.
End ExecFacts.

Lemma buf_eqb_eq : forall a b, buf_eqb a b = true <-> a = b.
Proof.
  intros [i|k] [j|l]; cbn; try (split; discriminate).
  - rewrite Nat.eqb_eq. split; [intros ->; reflexivity | intro E; inversion E; reflexivity].
  - rewrite Pos.eqb_eq. split; [intros ->; reflexivity | intro E; inversion E; reflexivity].
Qed.

Section HeapFacts.
  Variable C : Type.
  Implicit Types (g : list (htask C)) (t : htask C) (s : state C) (h : heap C) (k : key) (b : buf).

  Lemma hupd_other : forall h b c b', b' <> b -> hupd h b c b' = h b'.
  Proof.
    intros h b c b' H. unfold hupd. destruct (buf_eqb b' b) eqn:E; [|reflexivity].
    apply buf_eqb_eq in E. contradiction.
  Qed.

  Lemma hupd_same : forall h b c, hupd h b c b = c.
  Proof. intros h b c. unfold hupd. rewrite (proj2 (buf_eqb_eq b b) eq_refl). reflexivity. Qed.

  Lemma scribble_other : forall t vals h b, ~ In b (h_writes t) -> scribble t vals h b = h b.
  Proof.
    intros t vals h b. unfold scribble. generalize (h_writes t) as ws. intro ws. revert h.
    induction ws as [|w ws IH]; cbn; intros h H; [reflexivity|].
    rewrite IH by (intro Hin; apply H; right; exact Hin).
    apply hupd_other. intro E. apply H. left. symmetry; exact E.
  Qed.

  Lemma scribble_frame : forall t vals h b,
    task_well_behaved t -> b <> Own (h_key t) -> scribble t vals h b = h b.
  Proof.
    intros t vals h b Hwb Hb. apply scribble_other. intro Hin. apply Hb. apply Hwb. exact Hin.
  Qed.

  (* STEP NON-INTERFERENCE: running a well-behaved task changes no buffer but its own *)
  Theorem hexec_frame : forall t s b,
    task_well_behaved t -> b <> Own (h_key t) -> st_heap (hexec t s) b = st_heap s b.
  Proof.
    intros t s b Hwb Hb. unfold hexec.
    destruct (hgather (st_env s) (h_deps t)) as [refs|]; [|reflexivity].
    assert (Hfresh : forall vals e, st_heap (fresh_result t vals e (scribble t vals (st_heap s))) b = st_heap s b).
    { intros vals e. cbn. rewrite hupd_other by exact Hb. apply scribble_frame; assumption. }
    destruct (h_eff t) as [|i|i|i].
    2,3: destruct (nth_error refs i); [cbn; apply scribble_frame; assumption | apply Hfresh].
    - apply Hfresh.
    - cbn. apply scribble_frame; assumption.
  Qed.

  Lemma hfind_find : forall g k, hfind g k = find (fun t => Pos.eqb (h_key t) k) g.
  Proof. intros g k. induction g as [|t0 g IH]; cbn; [|rewrite IH]; reflexivity. Qed.

  Lemma hfind_some : forall g k t, hfind g k = Some t -> In t g /\ h_key t = k.
  Proof. intros g k t. rewrite hfind_find. apply (find_key_some _ _ Pos.eqb_eq). Qed.

  Theorem hstep_frame : forall g s k b,
    well_behaved g -> b <> Own k -> st_heap (hstep g s k) b = st_heap s b.
  Proof.
    intros g s k b Hwb Hb. unfold hstep. destruct (hfind g k) as [t|] eqn:E; [|reflexivity].
    apply hfind_some in E. destruct E as [Hin Ek]. subst k.
    apply hexec_frame; [apply Hwb; exact Hin | exact Hb].
  Qed.

  (* a buffer that belongs to none of the executed keys is never touched; in particular
     the user's SOURCE buffers are never modified, whatever the order *)
  Theorem hrun_frame : forall g order s b,
    well_behaved g -> (forall k, In k order -> b <> Own k) ->
    st_heap (fold_left (hstep g) order s) b = st_heap s b.
  Proof.
    intros g order; induction order as [|k t IH]; cbn; intros s b Hwb Hb; [reflexivity|].
    rewrite IH; [|exact Hwb | intros k' Hk'; apply Hb; right; exact Hk'].
    apply hstep_frame; [exact Hwb | apply Hb; left; reflexivity].
  Qed.

  Theorem sources_never_modified : forall g order h0 i,
    well_behaved g -> st_heap (hrun g order h0) (Src i) = h0 (Src i).
  Proof.
    intros g order h0 i Hwb. unfold hrun. rewrite hrun_frame; [reflexivity | exact Hwb |].
    intros k _. discriminate.
  Qed.

  (* --- the simulation invariant between the heap run and the pure run: every reference
         shows the pure value, and points into a source or into the buffer of a key already run --- *)
  Definition okref (done : list key) (r : ref C) : Prop := forall k', r_buf r = Own k' -> In k' done.

  Definition agree_at (done : list key) (h : heap C) (hr : option (hres C)) (pr : option (res C)) : Prop :=
    match hr, pr with
    | None, None => True
    | Some HStuck, Some Stuck => True
    | Some (HRef r), Some (Val v) => deref h r = v /\ okref done r
    | _, _ => False
    end.

  Definition agree (done : list key) (h0 : heap C) (s : state C) (p : store C) : Prop :=
    (forall i, st_heap s (Src i) = h0 (Src i)) /\
    (forall k, agree_at done (st_heap s) (st_env s k) (p k)).

  (* agreement survives a change of the heap confined to the buffer of a key not yet run *)
  Lemma agree_at_frame : forall done done' h h' hr pr k,
    agree_at done h hr pr -> ~ In k done -> incl done done' ->
    (forall b, b <> Own k -> h' b = h b) ->
    agree_at done' h' hr pr.
  Proof.
    intros done done' h h' hr pr k H Hk Hincl Hfr. unfold agree_at in *.
    destruct hr as [[r|]|], pr as [[v|]|]; try exact H; try contradiction.
    destruct H as [Hd Hok]. split.
    - unfold deref in *. rewrite Hfr; [exact Hd|].
      intro E. apply Hk. apply Hok. exact E.
    - intros k' E. apply Hincl. apply Hok. exact E.
  Qed.

  Lemma agree_gather : forall done h0 s p, agree done h0 s p -> forall ds,
    match hgather (st_env s) ds, gather p ds with
    | Some refs, Some vals => vals = map (deref (st_heap s)) refs /\ Forall (okref done) refs
    | None, None => True
    | _, _ => False
    end.
  Proof.
    intros done h0 s p [_ Hag] ds. induction ds as [|d ds IH]; cbn.
    - split; [reflexivity | constructor].
    - specialize (Hag d). unfold agree_at in Hag.
      destruct (st_env s d) as [[r|]|], (p d) as [[v|]|]; try contradiction; try exact I.
      + destruct (hgather (st_env s) ds) as [refs|], (gather p ds) as [vals|]; try contradiction; try exact I.
        destruct IH as [E F]. destruct Hag as [Hd Hok]. split.
        * cbn. rewrite Hd, E. reflexivity.
        * constructor; assumption.
  Qed.

  Lemma agree_frame : forall done h0 s p k h',
    agree done h0 s p -> ~ In k done -> (forall b, b <> Own k -> h' b = st_heap s b) ->
    agree (k :: done) h0 {| st_env := st_env s; st_heap := h' |} p.
  Proof.
    intros done h0 s p k h' [Hsrc Hag] Hk Hfr. split; cbn.
    - intro i. rewrite Hfr by discriminate. apply Hsrc.
    - intro k1. eapply agree_at_frame; [apply Hag | exact Hk | apply incl_tl, incl_refl | exact Hfr].
  Qed.

  Lemma agree_extend : forall done h0 s p k h' hr pr,
    agree done h0 s p -> ~ In k done ->
    (forall b, b <> Own k -> h' b = st_heap s b) ->
    agree_at (k :: done) h' (Some hr) (Some pr) ->
    agree (k :: done) h0 {| st_env := eupd (st_env s) k hr; st_heap := h' |} (upd p k pr).
  Proof.
    intros done h0 s p k h' hr pr Hag Hk Hfr Hnew.
    destruct (agree_frame done h0 s p k h' Hag Hk Hfr) as [Hsrc Hag']. split; [exact Hsrc|]. cbn in *.
    intro k1. unfold eupd, upd. destruct (Pos.eqb k1 k); [exact Hnew | apply Hag'].
  Qed.

  Lemma hexec_agree : forall done h0 s p t,
    agree done h0 s p -> task_well_behaved t -> ~ In (h_key t) done ->
    agree (h_key t :: done) h0 (hexec t s) (upd p (h_key t) (exec p (abs_task h0 t))).
  Proof.
    intros done h0 s p t Hag Hwb Hk.
    pose proof (agree_gather _ _ _ _ Hag (h_deps t)) as Hg.
    unfold hexec, exec. cbn [t_deps abs_task].
    destruct (hgather (st_env s) (h_deps t)) as [refs|], (gather p (h_deps t)) as [vals|]; try contradiction.
    2:{ apply agree_extend; [exact Hag | exact Hk | reflexivity | exact I]. }
    destruct Hg as [Evals Hok]. rewrite <- Evals.
    set (h1 := scribble t vals (st_heap s)).
    assert (Hh1 : forall b, b <> Own (h_key t) -> h1 b = st_heap s b).
    { intros b Hb. apply scribble_frame; assumption. }
    (* the Fresh case, also the fallback of the others *)
    assert (Hfresh : forall v, v = h_fun t vals ->
              agree (h_key t :: done) h0 (fresh_result t vals (st_env s) h1) (upd p (h_key t) (Val v))).
    { intros v ->. unfold fresh_result. apply agree_extend; [exact Hag | exact Hk | |].
      - intros b Hb. rewrite hupd_other by exact Hb. apply Hh1. exact Hb.
      - cbn. split; [unfold deref; cbn; apply hupd_same|].
        intros k' E. cbn in E. inversion E. left; reflexivity. }
    (* a reference that was good before the task ran is good after: its base is a source or
       the buffer of a key run before, which the task's own writes do not reach *)
    assert (Hold : forall r v, okref done r -> deref (st_heap s) r = v ->
              agree (h_key t :: done) h0 {| st_env := eupd (st_env s) (h_key t) (HRef r); st_heap := h1 |}
                    (upd p (h_key t) (Val v))).
    { intros r v Hr Hv. apply agree_extend; [exact Hag | exact Hk | exact Hh1 |].
      eapply agree_at_frame; [|exact Hk | apply incl_tl, incl_refl | exact Hh1]. split; assumption. }
    assert (Hnth : forall i, nth_error vals i = option_map (deref (st_heap s)) (nth_error refs i))
      by (intro i; rewrite Evals; apply nth_error_map).
    assert (Hokr : forall i r, nth_error refs i = Some r -> okref done r).
    { intros i r En. rewrite Forall_forall in Hok. apply Hok. eapply nth_error_In; eauto. }
    unfold abs_task. cbn [t_fun].
    destruct (h_eff t) as [|i|i|i].
    2,3: rewrite Hnth; destruct (nth_error refs i) as [r|] eqn:En; cbn [option_map];
      [apply Hold; [exact (Hokr i r En) | reflexivity] | apply Hfresh; reflexivity].
    - apply Hfresh. reflexivity.
    - apply Hold; [intros k' E; discriminate E|].
      unfold deref; cbn. rewrite (proj1 Hag). reflexivity.
  Qed.

  Lemma find_task_abstract : forall h0 g k,
    find_task (abstract h0 g) k = option_map (abs_task h0) (hfind g k).
  Proof.
    intros h0 g k. induction g as [|t g IH]; cbn; [reflexivity|].
    destruct (Pos.eqb (h_key t) k); [reflexivity | exact IH].
  Qed.

  Lemma hstep_agree : forall g done h0 s p k,
    well_behaved g -> agree done h0 s p -> ~ In k done ->
    agree (k :: done) h0 (hstep g s k) (step (abstract h0 g) p k).
  Proof.
    intros g done h0 s p k Hwb Hag Hk. unfold hstep, step. rewrite find_task_abstract.
    destruct (hfind g k) as [t|] eqn:E; cbn [option_map].
    - apply hfind_some in E. destruct E as [Hin Ek]. subst k.
      change (t_key (abs_task h0 t)) with (h_key t).
      apply hexec_agree; [exact Hag | apply Hwb; exact Hin | exact Hk].
    - destruct s as [e h]. apply (agree_frame done h0 _ p k h Hag Hk). reflexivity.
  Qed.

  Lemma hrun_agree : forall g h0 order done s p,
    well_behaved g -> agree done h0 s p -> NoDup order -> (forall k, In k order -> ~ In k done) ->
    agree (rev order ++ done) h0 (fold_left (hstep g) order s) (fold_left (step (abstract h0 g)) order p).
  Proof.
    intros g h0 order; induction order as [|k t IH]; cbn; intros done s p Hwb Hag Hnd Hfresh; [exact Hag|].
    inversion Hnd as [|? ? Hk Hnd']; subst.
    rewrite <- app_assoc. cbn. apply IH; [exact Hwb | | exact Hnd' |].
    - apply hstep_agree; [exact Hwb | exact Hag | apply Hfresh; left; reflexivity].
    - intros k' Hk' [E|Hin]; [subst; contradiction|].
      exact (Hfresh k' (or_intror Hk') Hin).
  Qed.

  Lemma agree_hvalue : forall done h0 s p, agree done h0 s p -> forall k, hvalue s k = p k.
  Proof.
    intros done h0 s p [_ Hag] k. specialize (Hag k). unfold hvalue, agree_at in *.
    destruct (st_env s k) as [[r|]|], (p k) as [[v|]|]; try contradiction; try reflexivity.
    destruct Hag as [Hd _]. rewrite Hd. reflexivity.
  Qed.

  (* REFINEMENT: for well-behaved tasks the heap run shows, for every key, exactly the value
     of the pure run of the abstracted graph — views and aliases included *)
  Theorem heap_refines_pure : forall g order h0,
    well_behaved g -> NoDup order ->
    forall k, hvalue (hrun g order h0) k = lookup (run (abstract h0 g) order) k.
  Proof.
    intros g order h0 Hwb Hnd k. unfold hrun, run, lookup.
    eapply agree_hvalue. apply (hrun_agree g h0 order [] (hinit h0) (empty_store C)); auto.
    split; [reflexivity|]. intro k0. exact I.
  Qed.

  Lemma abstract_dep_graph : forall h0 g, dep_graph (abstract h0 g) = hdep_graph g.
  Proof. intros. unfold dep_graph, abstract, hdep_graph. rewrite map_map. reflexivity. Qed.

  Lemma abstract_keys : forall h0 g, map (@t_key C) (abstract h0 g) = map (@h_key C) g.
  Proof. intros. unfold abstract. rewrite map_map. reflexivity. Qed.

  (* ORDER INDEPENDENCE of the heap semantics *)
  Theorem heap_confluent : forall g o1 o2 h0,
    well_behaved g -> NoDup (map (@h_key C) g) ->
    topological (hdep_graph g) o1 -> topological (hdep_graph g) o2 ->
    forall k, hvalue (hrun g o1 h0) k = hvalue (hrun g o2 h0) k.
  Proof.
    intros g o1 o2 h0 Hwb Hnd T1 T2 k.
    rewrite !heap_refines_pure; [| exact Hwb | apply T2 | exact Hwb | apply T1].
    apply run_confluent; rewrite ?abstract_keys, ?abstract_dep_graph; assumption.
  Qed.

  Theorem heap_no_stuck : forall g o h0,
    well_behaved g -> NoDup (map (@h_key C) g) -> topological (hdep_graph g) o ->
    forall k, defined (hdep_graph g) k -> exists v, hvalue (hrun g o h0) k = Some (Val v).
  Proof.
    intros g o h0 Hwb Hnd T k Hk. rewrite heap_refines_pure; [| exact Hwb | apply T].
    apply run_no_stuck; rewrite ?abstract_keys, ?abstract_dep_graph; assumption.
  Qed.

  (* NO TASK MODIFIES THE VALUE OF A TASK COMPUTED EARLIER (in particular of its dependencies):
     once a key has been computed, whatever runs later leaves its observable value unchanged *)
  Theorem computed_values_never_change : forall g pre post h0 k,
    well_behaved g -> NoDup (pre ++ post) -> In k pre ->
    hvalue (hrun g (pre ++ post) h0) k = hvalue (hrun g pre h0) k.
  Proof.
    intros g pre post h0 k Hwb Hnd Hin.
    rewrite !heap_refines_pure; [| exact Hwb | apply NoDup_app_iff in Hnd; apply Hnd | exact Hwb | exact Hnd].
    unfold lookup. apply run_stable; assumption.
  Qed.

  Lemma well_behaved_b_spec : forall g, well_behaved_b g = true <-> well_behaved g.
  Proof.
    intro g. unfold well_behaved_b, well_behaved, task_well_behaved.
    apply forallb_spec. intro t. apply forallb_spec. intro b. apply buf_eqb_eq.
  Qed.
End HeapFacts.
