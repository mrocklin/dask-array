(* RecordsFacts.v — proofs about the records translation of Records.v (stdlib + ListFacts, Graph/GraphFacts).

   `resolve` is described by one invariant (`res_ok`); what `_records` emits for a graph node
   (`node_ok`) and every statement about `flatten` follow from it.  The semantic part runs both
   graphs as systems of defining equations (`EqGraph`) and shows that a store satisfying the
   equations of the records satisfies, at the graph keys, those of the source.  The layer walk
   is described by what it has done when it returns (`walked`), one call or several sharing
   `seen`. *)
From Coq Require Import List Bool Arith PArith Lia.
From DA Require Import ListFacts Graph GraphFacts Records.
Import ListNotations.

Lemma forall_in_app : forall A (Q : A -> Prop) a b,
  (forall x, In x (a ++ b) -> Q x) -> (forall x, In x a -> Q x) /\ (forall x, In x b -> Q x).
Proof. intros A Q a b H. split; intros x Hx; apply H; apply in_or_app; auto. Qed.

Lemma in_app_app_l : forall A (a1 a2 b1 b2 : list A) x, In x (a1 ++ b1) -> In x ((a1 ++ a2) ++ b1 ++ b2).
Proof.
  intros A a1 a2 b1 b2 x H. apply in_or_app.
  apply in_app_or in H as [H|H]; [left | right]; apply in_or_app; left; exact H.
Qed.

Lemma in_app_app_r : forall A (a1 a2 b1 b2 : list A) x, In x (a2 ++ b2) -> In x ((a1 ++ a2) ++ b1 ++ b2).
Proof.
  intros A a1 a2 b1 b2 x H. apply in_or_app.
  apply in_app_or in H as [H|H]; [left | right]; apply in_or_app; right; exact H.
Qed.

(* the lists f x are disjoint when each element determines (pi of) the x it comes from *)
Lemma NoDup_flat_map_owner : forall A K B (pi : A -> K) (own : B -> K) (f : A -> list B) l,
  NoDup (map pi l) -> (forall x, NoDup (f x)) -> (forall x z, In z (f x) -> own z = pi x) ->
  NoDup (flat_map f l).
Proof.
  intros A K B pi own f l Hl Hf Hown. apply (NoDup_flat_map_disjoint _ _ _ pi); [exact Hl | exact Hf |].
  intros x y z Hx Hy. rewrite <- (Hown x z Hx). exact (Hown y z Hy).
Qed.

Lemma option_map_some : forall A B (f : A -> B) o, o <> None -> option_map f o <> None.
Proof. intros A B f [a|] H; [discriminate | contradiction]. Qed.

(* the shape of every list evaluator below *)
Lemma lift2_some : forall A B C (f : A -> B -> C) (a : option A) (b : option B),
  a <> None -> b <> None -> match a, b with Some x, Some y => Some (f x y) | _, _ => None end <> None.
Proof. intros A B C f [x|] [y|] Ha Hb; congruence. Qed.

Lemma rkey_eqb_eq : forall a b, rkey_eqb a b = true <-> a = b.
Proof.
  intros [k|p n] [l|q m]; cbn; try (split; discriminate).
  - rewrite Pos.eqb_eq. split; [intros; subst; reflexivity | intro E; inversion E; reflexivity].
  - rewrite andb_true_iff, Pos.eqb_eq, Nat.eqb_eq.
    split; [intros [? ?]; subst; reflexivity | intro E; inversion E; auto].
Qed.

Lemma rkey_eqb_refl : forall a, rkey_eqb a a = true.
Proof. intro a. apply rkey_eqb_eq. reflexivity. Qed.

Lemma rkey_eqb_neq : forall a b, rkey_eqb a b = false <-> a <> b.
Proof.
  intros a b. rewrite <- rkey_eqb_eq. destruct (rkey_eqb a b); split; congruence.
Qed.

Lemma rmem_In : forall k l, rmem k l = true <-> In k l.
Proof.
  intros k l; induction l as [|x t IH]; cbn; [split; [discriminate|tauto]|].
  rewrite orb_true_iff, rkey_eqb_eq, IH. split; intros [H|H]; auto.
Qed.

Lemma dangling_In : forall rs x, In x (dangling rs) <-> In x (flat_map r_deps rs) /\ ~ In x (produced rs).
Proof.
  intros rs x. unfold dangling. rewrite filter_In, negb_true_iff, <- not_true_iff_false, rmem_In. reflexivity.
Qed.

Lemma check_complete_spec : forall rs, check_complete rs = true <-> forall x, ~ In x (dangling rs).
Proof.
  intro rs. unfold check_complete. destruct (dangling rs) as [|y t]; split.
  - intros _ x [].
  - reflexivity.
  - discriminate.
  - intro H. destruct (H y). left; reflexivity.
Qed.

Section SortFacts.
  Variable kle : rkey -> rkey -> bool.

  Lemma insert_key_In : forall x y l, In x (insert_key kle y l) <-> In x (y :: l).
  Proof.
    intros x y l; induction l as [|z t IH]; cbn; [reflexivity|].
    destruct (kle y z); cbn; [reflexivity|]. rewrite IH. cbn. tauto.
  Qed.

  Lemma sort_keys_In : forall x l, In x (sort_keys kle l) <-> In x l.
  Proof.
    intros x l; induction l as [|z t IH]; [cbn; tauto|].
    change (In x (insert_key kle z (sort_keys kle t)) <-> In x (z :: t)).
    rewrite insert_key_In. cbn. rewrite IH. reflexivity.
  Qed.

  Lemma insert_key_NoDup : forall y l, ~ In y l -> NoDup l -> NoDup (insert_key kle y l).
  Proof.
    intros y l; induction l as [|z t IH]; cbn; intros Hn Hnd.
    - constructor; [intros []|constructor].
    - destruct (kle y z).
      + constructor; assumption.
      + inversion Hnd as [|? ? Hz Ht]; subst. constructor.
        * rewrite insert_key_In. intros [E|H]; [apply Hn; left; symmetry; exact E | contradiction].
        * apply IH; [intro H; apply Hn; right; exact H | exact Ht].
  Qed.

  Lemma sort_keys_NoDup : forall l, NoDup l -> NoDup (sort_keys kle l).
  Proof.
    induction l as [|z t IH]; intro H; [constructor|].
    change (NoDup (insert_key kle z (sort_keys kle t))).
    inversion H; subst. apply insert_key_NoDup; [rewrite sort_keys_In; assumption | auto].
  Qed.

  Lemma sorted_deps_In : forall x ds, In x (sorted_deps kle ds) <-> In x ds.
  Proof. intros. unfold sorted_deps. rewrite sort_keys_In. apply nodup_In. Qed.

  Lemma sorted_deps_NoDup : forall ds, NoDup (sorted_deps kle ds).
  Proof. intro ds. unfold sorted_deps. apply sort_keys_NoDup. apply NoDup_nodup. Qed.
End SortFacts.

(** * Induction over the nested types: one predicate for a term, one for each kind of list of
      terms inside it, so that a statement and its list versions are proved together *)

Section ArgInd.
  Variables (P : arg -> Prop) (Pl : list arg -> Prop) (Pk : list (tag * arg) -> Prop).
  Hypothesis HRef : forall k, P (ARef k).
  Hypothesis HAlias : forall k, P (AAlias k).
  Hypothesis HData : forall v, P (AData v).
  Hypothesis HSeq : forall s items, Pl items -> P (ASeq s items).
  Hypothesis HTask : forall f args kwargs, Pl args -> Pk kwargs -> P (ATask f args kwargs).
  Hypothesis HOther : P AOther.
  Hypothesis HDict : forall items, Pk items -> P (ADict items).
  Hypothesis HLit : forall t, P (ALit t).
  Hypothesis Hnil : Pl [].
  Hypothesis Hcons : forall x r, P x -> Pl r -> Pl (x :: r).
  Hypothesis Hknil : Pk [].
  Hypothesis Hkcons : forall k x r, P x -> Pk r -> Pk ((k, x) :: r).

  Fixpoint arg_ind3 (a : arg) : P a :=
    let lst := fix lst (l : list arg) : Pl l :=
      match l with [] => Hnil | x :: r => Hcons x r (arg_ind3 x) (lst r) end in
    let kw := fix kw (l : list (tag * arg)) : Pk l :=
      match l with [] => Hknil | (k, x) :: r => Hkcons k x r (arg_ind3 x) (kw r) end in
    match a with
    | ARef k => HRef k
    | AAlias k => HAlias k
    | AData v => HData v
    | ASeq s items => HSeq s items (lst items)
    | ATask f args kwargs => HTask f args kwargs (lst args) (kw kwargs)
    | AOther => HOther
    | ADict items => HDict items (kw items)
    | ALit t => HLit t
    end.

  Lemma arg_mutind : (forall a, P a) /\ (forall l, Pl l) /\ (forall l, Pk l).
  Proof.
    split; [exact arg_ind3|].
    split; [induction l as [|x r IH] | induction l as [|[k x] r IH]]; auto using arg_ind3.
  Qed.
End ArgInd.

Section TargInd.
  Variables (P : targ -> Prop) (Pl : list targ -> Prop) (Pk : list (tag * targ) -> Prop).
  Hypothesis HRef : forall k, P (TRef k).
  Hypothesis HLit : forall t, P (TLit t).
  Hypothesis HList : forall l, Pl l -> P (TList l).
  Hypothesis HTuple : forall l, Pl l -> P (TTuple l).
  Hypothesis HDict : forall l, Pk l -> P (TDict l).
  Hypothesis Hnil : Pl [].
  Hypothesis Hcons : forall x r, P x -> Pl r -> Pl (x :: r).
  Hypothesis Hknil : Pk [].
  Hypothesis Hkcons : forall k x r, P x -> Pk r -> Pk ((k, x) :: r).

  Fixpoint targ_ind3 (t : targ) : P t :=
    let lst := fix lst (l : list targ) : Pl l :=
      match l with [] => Hnil | x :: r => Hcons x r (targ_ind3 x) (lst r) end in
    let kw := fix kw (l : list (tag * targ)) : Pk l :=
      match l with [] => Hknil | (k, x) :: r => Hkcons k x r (targ_ind3 x) (kw r) end in
    match t with
    | TRef k => HRef k
    | TLit t => HLit t
    | TList l => HList l (lst l)
    | TTuple l => HTuple l (lst l)
    | TDict l => HDict l (kw l)
    end.

  Lemma targ_mutind : (forall t, P t) /\ (forall l, Pl l) /\ (forall l, Pk l).
  Proof.
    split; [exact targ_ind3|].
    split; [induction l as [|x r IH] | induction l as [|[k x] r IH]]; auto using targ_ind3.
  Qed.
End TargInd.

(** * Unfolding equations (the local fixpoints are the list versions) *)

Lemma trefs_TList : forall l, trefs (TList l) = trefs_list l.
Proof. reflexivity. Qed.
Lemma trefs_TTuple : forall l, trefs (TTuple l) = trefs_list l.
Proof. reflexivity. Qed.
Lemma trefs_TDict : forall l, trefs (TDict l) = trefs_kw l.
Proof. reflexivity. Qed.

Lemma arefs_ASeq : forall s l, arefs (ASeq s l) = arefs_list l.
Proof. reflexivity. Qed.
Lemma arefs_ADict : forall l, arefs (ADict l) = arefs_kw l.
Proof. reflexivity. Qed.
Lemma arefs_ATask : forall f a k, arefs (ATask f a k) = arefs_list a ++ arefs_kw k.
Proof. reflexivity. Qed.

Lemma supported_ASeq : forall s l, supported_arg (ASeq s l) = supported_list l.
Proof. reflexivity. Qed.
Lemma supported_ADict : forall l, supported_arg (ADict l) = supported_kw l.
Proof. reflexivity. Qed.
Lemma supported_ATask : forall f a k, supported_arg (ATask f a k) = supported_list a && supported_kw k.
Proof. reflexivity. Qed.

Lemma data_ok_ASeq : forall s l, data_ok_arg (ASeq s l) = data_ok_list l.
Proof. reflexivity. Qed.
Lemma data_ok_ADict : forall l, data_ok_arg (ADict l) = data_ok_kw l.
Proof. reflexivity. Qed.
Lemma data_ok_ATask : forall f a k, data_ok_arg (ATask f a k) = data_ok_list a && data_ok_kw k.
Proof. reflexivity. Qed.

Lemma tref_free_nil : forall v, tref_free v = true -> trefs v = [].
Proof. intros v H. unfold tref_free in H. destruct (trefs v); [reflexivity | discriminate]. Qed.

Section ResolveEqs.
  Variable kle : rkey -> rkey -> bool.

  Lemma resolve_ASeq : forall p s items n,
    resolve kle p (ASeq s items) n =
    let '(ts, ds, n1, e1) := resolve_list kle p items n in
    ((if seq_is_list s then TList ts else TTuple ts), ds, n1, e1).
  Proof. reflexivity. Qed.

  Lemma resolve_ADict : forall p items n,
    resolve kle p (ADict items) n =
    let '(tk, ds, n1, e1) := resolve_kw kle p items n in (TDict tk, ds, n1, e1).
  Proof. reflexivity. Qed.

  Lemma resolve_ATask : forall p f args kwargs n,
    resolve kle p (ATask f args kwargs) n =
    let '(ta, d1, n1, e1) := resolve_list kle p args (S n) in
    let '(tk, d2, n2, e2) := resolve_kw kle p kwargs n1 in
    (TRef (KSub p (S n)), [KSub p (S n)], n2,
     e1 ++ e2 ++ [mkrec (KSub p (S n)) f ta tk (sorted_deps kle (d1 ++ d2))]).
  Proof. reflexivity. Qed.

  Lemma resolve_list_cons : forall p x t n,
    resolve_list kle p (x :: t) n =
    let '(tx, dx, n1, e1) := resolve kle p x n in
    let '(tr, dt, n2, e2) := resolve_list kle p t n1 in
    (tx :: tr, dx ++ dt, n2, e1 ++ e2).
  Proof. reflexivity. Qed.

  Lemma resolve_kw_cons : forall p k x t n,
    resolve_kw kle p ((k, x) :: t) n =
    let '(tx, dx, n1, e1) := resolve kle p x n in
    let '(tr, dt, n2, e2) := resolve_kw kle p t n1 in
    ((k, tx) :: tr, dx ++ dt, n2, e1 ++ e2).
  Proof. reflexivity. Qed.
End ResolveEqs.

(* every record depends only on keys in av and on records EARLIER in the list *)
Fixpoint ordered (av : list rkey) (ex : list rec) : Prop :=
  match ex with
  | [] => True
  | r :: t => incl (r_deps r) av /\ ordered (r_key r :: av) t
  end.

Lemma ordered_mono : forall ex av av', incl av av' -> ordered av ex -> ordered av' ex.
Proof.
  induction ex as [|r t IH]; cbn; intros av av' Hi H; [exact I|].
  destruct H as [H1 H2]. split; [exact (incl_tran H1 Hi)|].
  apply (IH (r_key r :: av)); [|exact H2]. apply incl_cons; [left; reflexivity | apply incl_tl; exact Hi].
Qed.

Lemma ordered_app : forall e1 e2 av,
  ordered av e1 -> ordered (map r_key e1 ++ av) e2 -> ordered av (e1 ++ e2).
Proof.
  induction e1 as [|r t IH]; cbn; intros e2 av H1 H2; [exact H2|].
  destruct H1 as [Ha Hb]. split; [exact Ha|]. apply IH; [exact Hb|].
  revert H2. apply ordered_mono. intro x. cbn. rewrite !in_app_iff. cbn. tauto.
Qed.

Lemma ordered_split : forall e1 r e2 av,
  ordered av (e1 ++ r :: e2) -> incl (r_deps r) (map r_key e1 ++ av).
Proof.
  induction e1 as [|r0 e1 IH]; cbn; intros r e2 av [H1 H2]; [exact H1|].
  intros y Hy. specialize (IH r e2 _ H2 y Hy). cbn. rewrite in_app_iff in *. cbn in IH. tauto.
Qed.

(* the lifted keys "<p>-sub<i>" handed out while self._n went from n to n' *)
Definition in_range (p : key) (n n' : nat) (x : rkey) : Prop := exists i, x = KSub p i /\ n < i <= n'.

Lemma in_range_split : forall p n n1 n2 x, n <= n1 -> n1 <= n2 ->
  (in_range p n n2 x <-> in_range p n n1 x \/ in_range p n1 n2 x).
Proof.
  intros p n n1 n2 x H1 H2. split.
  - intros [i [E Hi]]. destruct (le_lt_dec i n1); [left | right]; exists i; (split; [exact E | lia]).
  - intros [[i [E Hi]]|[i [E Hi]]]; exists i; (split; [exact E | lia]).
Qed.

Lemma in_range_disjoint : forall p n n1 n2 x, in_range p n n1 x -> ~ in_range p n1 n2 x.
Proof. intros p n n1 n2 x [i [E Hi]] [j [E' Hj]]. rewrite E in E'. inversion E'. lia. Qed.

Lemma in_range_S : forall p n x, in_range p n (S n) x <-> In x [KSub p (S n)].
Proof.
  intros p n x. split.
  - intros [i [E Hi]]. left. replace (S n) with i by lia. symmetry; exact E.
  - intros [E|[]]. exists (S n). split; [symmetry; exact E | lia].
Qed.

Section Invariant.
  Variable kle : rkey -> rkey -> bool.

  (* What one call of resolve / resolve_list / resolve_kw for the parent key p has done.
     refs: the source keys referenced by what was resolved; n / n': self._n before / after;
     trs: the TaskRefs of the resolved result; ds: the keys added to `deps`; ex: the records
     appended to self.extra; ok: no DataNode value inside embeds a TaskRef. *)
  Set Implicit Arguments.
  Record res_ok (ok : bool) (p : key) (refs : list key) (n : nat) (trs ds : list rkey) (n' : nat)
                (ex : list rec) : Prop := {
    ro_deps : ok = true -> ds = trs;
    ro_n : n <= n';
    ro_keys : forall x, In x (map r_key ex) <-> in_range p n n' x;
    ro_nodup : NoDup (map r_key ex);
    ro_exact : ok = true -> forall r, In r ex -> r_deps r = sorted_deps kle (rec_refs r);
    ro_bound : incl ds (map KG refs ++ map r_key ex);
    ro_cover : forall d, In d refs -> In (KG d) (ds ++ flat_map r_deps ex);
    ro_ordered : ordered (map KG refs) ex }.
  Unset Implicit Arguments.

  (* nothing lifted: a reference, a literal, data, an empty list *)
  Lemma res_ok_nil : forall ok p refs n trs,
    (ok = true -> map KG refs = trs) -> res_ok ok p refs n trs (map KG refs) n [].
  Proof.
    intros ok p refs n trs Ht. constructor.
    - exact Ht.
    - apply le_n.
    - intro x. split; [intros [] | intros [i [_ Hi]]; lia].
    - constructor.
    - intros _ r [].
    - cbn. rewrite app_nil_r. apply incl_refl.
    - intros d Hd. cbn. rewrite app_nil_r. apply in_map. exact Hd.
    - exact I.
  Qed.

  Lemma res_ok_app {b1 b2 p r1 r2 n n1 n2 trs1 trs2 ds1 ds2 e1 e2} :
    res_ok b1 p r1 n trs1 ds1 n1 e1 -> res_ok b2 p r2 n1 trs2 ds2 n2 e2 ->
    res_ok (b1 && b2) p (r1 ++ r2) n (trs1 ++ trs2) (ds1 ++ ds2) n2 (e1 ++ e2).
  Proof.
    intros A B. constructor.
    - intro Hb. apply andb_true_iff in Hb as [H1 H2]. rewrite (ro_deps A H1), (ro_deps B H2). reflexivity.
    - exact (Nat.le_trans _ _ _ (ro_n A) (ro_n B)).
    - intro x. rewrite map_app, in_app_iff, (ro_keys A), (ro_keys B). symmetry.
      apply in_range_split; [exact (ro_n A) | exact (ro_n B)].
    - rewrite map_app. apply NoDup_app_intro; [exact (ro_nodup A) | exact (ro_nodup B) |].
      intros z Hz1 Hz2. apply (ro_keys A) in Hz1. apply (ro_keys B) in Hz2.
      exact (in_range_disjoint _ _ _ _ _ Hz1 Hz2).
    - intros Hb r Hr. apply andb_true_iff in Hb as [H1 H2].
      apply in_app_or in Hr as [Hr|Hr]; [exact (ro_exact A H1 r Hr) | exact (ro_exact B H2 r Hr)].
    - intros x Hx. rewrite !map_app. apply in_app_or in Hx as [Hx|Hx].
      + exact (in_app_app_l _ _ _ _ _ x (ro_bound A x Hx)).
      + exact (in_app_app_r _ _ _ _ _ x (ro_bound B x Hx)).
    - intros d Hd. rewrite flat_map_app. apply in_app_or in Hd as [Hd|Hd].
      + exact (in_app_app_l _ _ _ _ _ _ (ro_cover A d Hd)).
      + exact (in_app_app_r _ _ _ _ _ _ (ro_cover B d Hd)).
    - rewrite map_app. apply ordered_app.
      + exact (ordered_mono _ _ _ (incl_appl _ (incl_refl _)) (ro_ordered A)).
      + exact (ordered_mono _ _ _ (incl_appr _ (incl_appr _ (incl_refl _))) (ro_ordered B)).
  Qed.

  (* the record m that consumes what was resolved, placed after the lifted records: it declares
     every key added to `deps`, and each of those is a graph key or was lifted before *)
  Lemma res_ok_consumer {ok p refs n trs ds n' ex} m :
    res_ok ok p refs n trs ds n' ex -> rec_refs m = trs -> r_deps m = sorted_deps kle ds ->
    (ok = true -> forall r, In r (ex ++ [m]) -> r_deps r = sorted_deps kle (rec_refs r)) /\
    (forall d, In d refs -> In (KG d) (flat_map r_deps (ex ++ [m]))) /\
    ordered (map KG refs) (ex ++ [m]).
  Proof.
    intros [Ad _ _ _ Ae Ab Ac Ao] Et Ed. split; [|split].
    - intros Hb r Hr. apply in_app_or in Hr as [Hr|[E|[]]]; [exact (Ae Hb r Hr)|].
      subst r. rewrite Ed, Et, (Ad Hb). reflexivity.
    - intros d Hd. apply Ac in Hd. rewrite flat_map_app, in_app_iff in *. cbn.
      rewrite app_nil_r, Ed, sorted_deps_In. tauto.
    - apply ordered_app; [exact Ao|]. split; [|exact I].
      intros x Hx. rewrite Ed in Hx. apply sorted_deps_In in Hx. apply Ab in Hx.
      rewrite in_app_iff in *. tauto.
  Qed.

  (* lifting an inline Task whose arguments were resolved with result (trs, ds, n2, ex) *)
  Lemma res_ok_task {ok p refs n trs ds n2 ex} f ta tk :
    res_ok ok p refs (S n) trs ds n2 ex ->
    trefs_list ta ++ trefs_kw tk = trs ->
    res_ok ok p refs n [KSub p (S n)] [KSub p (S n)] n2
           (ex ++ [mkrec (KSub p (S n)) f ta tk (sorted_deps kle ds)]).
  Proof.
    intros A Et.
    destruct (res_ok_consumer (mkrec (KSub p (S n)) f ta tk (sorted_deps kle ds)) A Et eq_refl)
      as (Ce & Cc & Co).
    destruct A as [_ An Ak And _ _ _ _]. constructor.
    - reflexivity.
    - lia.
    - intro x. rewrite map_app, in_app_iff, Ak, (in_range_split p n (S n) n2), in_range_S by lia.
      apply or_comm.
    - rewrite map_app. apply NoDup_app_intro; [exact And | constructor; [intros [] | constructor] |].
      intros z Hz [E|[]]. apply Ak in Hz.
      apply (in_range_disjoint p n (S n) n2 z); [apply in_range_S; left; exact E | exact Hz].
    - exact Ce.
    - intros x [E|[]]. subst x. rewrite map_app, !in_app_iff. right; right; left; reflexivity.
    - intros d Hd. right. exact (Cc d Hd).
    - exact Co.
  Qed.

  (* the invariant, said of the result of a call *)
  Definition res_of {T} (tr : T -> list rkey) ok p refs n (r : T * list rkey * nat * list rec) : Prop :=
    let '(t, ds, n', ex) := r in res_ok ok p refs n (tr t) ds n' ex.

  Theorem resolve_ok :
    (forall a p n, res_of trefs (data_ok_arg a) p (arefs a) n (resolve kle p a n)) /\
    (forall l p n, res_of trefs_list (data_ok_list l) p (arefs_list l) n (resolve_list kle p l n)) /\
    (forall l p n, res_of trefs_kw (data_ok_kw l) p (arefs_kw l) n (resolve_kw kle p l n)).
  Proof.
    (* a literal, an unhandled node, an empty list: nothing is referenced, nothing lifted *)
    apply arg_mutind; try (intros; apply (res_ok_nil _ _ []); reflexivity).
    1, 2: intros k p n; apply (res_ok_nil _ _ [k]); reflexivity.
    - intros v p n. apply (res_ok_nil _ _ []). intro H. symmetry. exact (tref_free_nil v H).
    - intros s items IH p n. rewrite resolve_ASeq. specialize (IH p n).
      destruct (resolve_list kle p items n) as [[[ts ds] n1] e1]. destruct (seq_is_list s); exact IH.
    - intros f args kwargs IHa IHk p n. rewrite resolve_ATask. specialize (IHa p (S n)).
      destruct (resolve_list kle p args (S n)) as [[[ta d1] n1] e1]. specialize (IHk p n1).
      destruct (resolve_kw kle p kwargs n1) as [[[tk d2] n2] e2]. unfold res_of. rewrite app_assoc.
      exact (res_ok_task f ta tk (res_ok_app IHa IHk) eq_refl).
    - intros items IH p n. rewrite resolve_ADict. specialize (IH p n).
      destruct (resolve_kw kle p items n) as [[[tk ds] n1] e1]. exact IH.
    - intros x r Hx Hr p n. rewrite resolve_list_cons. specialize (Hx p n).
      destruct (resolve kle p x n) as [[[tx dx] n1] e1]. specialize (Hr p n1).
      destruct (resolve_list kle p r n1) as [[[tr dt] n2] e2]. exact (res_ok_app Hx Hr).
    - intros k x r Hx Hr p n. rewrite resolve_kw_cons. specialize (Hx p n).
      destruct (resolve kle p x n) as [[[tx dx] n1] e1]. specialize (Hr p n1).
      destruct (resolve_kw kle p r n1) as [[[tr dt] n2] e2]. exact (res_ok_app Hx Hr).
  Qed.
End Invariant.

(* the order in which the records of one node can run: the lifted ones, then the node's own *)
Definition run_order (rs : list rec) : list rec :=
  match rs with [] => [] | m :: ex => ex ++ [m] end.

Lemma run_order_In : forall rs r, In r (run_order rs) <-> In r rs.
Proof. intros [|m ex] r; cbn; [tauto|]. rewrite in_app_iff. cbn. tauto. Qed.

Lemma run_order_NoDup : forall rs, NoDup (map r_key rs) -> NoDup (map r_key (run_order rs)).
Proof.
  intros [|m ex] N; [constructor|]. cbn in N |- *. inversion N as [|? ? Hm Hex]; subst. rewrite map_app.
  apply NoDup_app_intro; [exact Hex | constructor; [intros [] | constructor] |].
  intros z Hz [E|[]]. subst z. contradiction.
Qed.

(* the graph key a record key belongs to *)
Definition owner (x : rkey) : key := match x with KG k => k | KSub p _ => p end.

Section NodeFacts.
  Variable kle : rkey -> rkey -> bool.

  (* what `_records` emits for the key k bound to nd: the node's own record `KG k`, if any, and
     lifted sub-tasks `KSub k i`, i >= 1 *)
  Set Implicit Arguments.
  Record node_ok (k : key) (nd : node) (rs : list rec) : Prop := {
    no_main : rs <> [] -> In (KG k) (map r_key rs);
    no_keys : forall r, In r rs -> r_key r = KG k \/ exists i, r_key r = KSub k i /\ 1 <= i;
    no_nodup : NoDup (map r_key rs);
    (* the declared deps of every record are sorted(set(the TaskRefs embedded in it)) *)
    no_exact : data_ok_node nd = true -> forall r, In r rs -> r_deps r = sorted_deps kle (rec_refs r);
    (* every key the node references is a declared dependency of one of the records *)
    no_cover : rs <> [] -> forall d, In d (nrefs nd) -> exists r, In r rs /\ In (KG d) (r_deps r);
    (* a record depends on keys the node references and on records before it in run order *)
    no_ordered : ordered (map KG (nrefs nd)) (run_order rs) }.
  Unset Implicit Arguments.

  Lemma node_ok_nil : forall k nd, node_ok k nd [].
  Proof.
    intros k nd. constructor; try (intro H; destruct (H eq_refl)); try (intros; contradiction).
    - constructor.
    - exact I.
  Qed.

  (* the main record m consumes what was resolved for the node *)
  Lemma node_ok_cons : forall k nd m ex ds n',
    r_key m = KG k -> r_deps m = sorted_deps kle ds ->
    res_ok kle (data_ok_node nd) k (nrefs nd) 0 (rec_refs m) ds n' ex -> node_ok k nd (m :: ex).
  Proof.
    intros k nd m ex ds n' Ek Ed A.
    destruct (res_ok_consumer kle m A eq_refl Ed) as (Ce & Cc & Co). constructor.
    - intros _. left. exact Ek.
    - intros r [E|Hr]; [subst r; left; exact Ek | right].
      apply (in_map r_key), (ro_keys A) in Hr. destruct Hr as [i [E Hi]]. exists i. split; [exact E | lia].
    - cbn. constructor; [|exact (ro_nodup A)]. rewrite Ek, (ro_keys A). intros [i [E _]]. discriminate.
    - intros Hok r Hr. apply (Ce Hok). apply (run_order_In (m :: ex)). exact Hr.
    - intros _ d Hd. apply Cc, in_flat_map in Hd. destruct Hd as [r [Hr Hx]].
      exists r. split; [apply (run_order_In (m :: ex)); exact Hr | exact Hx].
    - exact Co.
  Qed.

  Theorem records_ok : forall k nd, node_ok k nd (records kle k nd).
  Proof.
    destruct (resolve_ok kle) as (Ra & Rl & Rk).
    intros k [t|v|b items|f args kwargs|]; cbn [records]; try apply node_ok_nil.
    - destruct (Pos.eqb t k); [apply node_ok_nil|].
      apply (node_ok_cons k _ _ _ [KG t] 0); [reflexivity | reflexivity|].
      apply (res_ok_nil kle _ _ [t]). reflexivity.
    - apply (node_ok_cons k _ _ _ [] 0); [reflexivity | reflexivity|].
      apply (res_ok_nil kle _ _ []). intro H. unfold rec_refs. cbn. rewrite (tref_free_nil v H). reflexivity.
    - pose proof (Ra (ASeq (if b then ContList else ContTuple) items) k 0) as A.
      destruct (resolve kle k (ASeq (if b then ContList else ContTuple) items) 0) as [[[t ds] n'] ex].
      apply (node_ok_cons k _ _ _ ds n'); [reflexivity | reflexivity|].
      unfold rec_refs. cbn [r_args r_kwargs trefs_list trefs_kw]. rewrite !app_nil_r. exact A.
    - pose proof (Rl args k 0) as A. destruct (resolve_list kle k args 0) as [[[ta d1] n1] e1].
      pose proof (Rk kwargs k n1) as B. destruct (resolve_kw kle k kwargs n1) as [[[tk d2] n2] e2].
      apply (node_ok_cons k _ _ _ (d1 ++ d2) n2); [reflexivity | reflexivity|].
      exact (res_ok_app kle A B).
  Qed.

  (* only a self-alias and an unhandled node emit nothing *)
  Lemma records_nil : forall k nd, records kle k nd = [] -> nd = NAlias k \/ nd = NOther.
  Proof.
    intros k [t|v|b items|f args kwargs|]; cbn [records]; [| discriminate | | | auto].
    - destruct (Pos.eqb t k) eqn:E; [|discriminate]. apply Pos.eqb_eq in E. subst. auto.
    - destruct (resolve kle k _ 0) as [[[t ds] n'] ex]. discriminate.
    - destruct (resolve_list kle k args 0) as [[[ta d1] n1] e1].
      destruct (resolve_kw kle k kwargs n1) as [[[tk d2] n2] e2]. discriminate.
  Qed.

  Lemma in_flatten : forall g r, In r (flatten kle g) <-> exists k nd, In (k, nd) g /\ In r (records kle k nd).
  Proof.
    intros g r. unfold flatten. rewrite in_flat_map. split.
    - intros [[k nd] [H1 H2]]. eauto.
    - intros [k [nd [H1 H2]]]. exists (k, nd). split; assumption.
  Qed.

  Lemma records_owner : forall k nd r, In r (records kle k nd) -> owner (r_key r) = k.
  Proof.
    intros k nd r Hr. destruct (no_keys (records_ok k nd) r Hr) as [E|[i [E _]]]; rewrite E; reflexivity.
  Qed.

  Lemma records_deps_bound : forall k nd r x, In r (records kle k nd) -> In x (r_deps r) ->
    (exists d, x = KG d /\ In d (nrefs nd)) \/ In x (map r_key (records kle k nd)).
  Proof.
    intros k nd r x Hr Hx. apply run_order_In in Hr. apply in_split in Hr as [e1 [e2 E]].
    pose proof (no_ordered (records_ok k nd)) as O. rewrite E in O.
    apply (ordered_split e1 r e2) in O. apply O in Hx. apply in_app_or in Hx as [Hx|Hx].
    - right. apply in_map_iff in Hx as [r' [E' Hr']]. apply in_map_iff. exists r'.
      split; [exact E'|]. apply run_order_In. rewrite E. apply in_or_app. left; exact Hr'.
    - left. apply in_map_iff in Hx as [d [E' Hd]]. eauto.
  Qed.

  Lemma supported_in : forall g k nd, supported g = true -> In (k, nd) g -> supported_node nd = true.
  Proof.
    intros g k nd H Hin. unfold supported in H. rewrite forallb_forall in H. exact (H (k, nd) Hin).
  Qed.

  Lemma data_ok_in : forall g k nd, data_ok g = true -> In (k, nd) g -> data_ok_node nd = true.
  Proof.
    intros g k nd H Hin. unfold data_ok in H. rewrite forallb_forall in H. exact (H (k, nd) Hin).
  Qed.

  (** ** C21_flatten_deps_exact *)
  Theorem flatten_deps_exact : forall g r, data_ok g = true -> In r (flatten kle g) ->
    r_deps r = sorted_deps kle (rec_refs r) /\
    NoDup (r_deps r) /\ (forall x, In x (r_deps r) <-> In x (rec_refs r)).
  Proof.
    intros g r Hok Hr. apply in_flatten in Hr as [k [nd [Hin Hr]]].
    pose proof (no_exact (records_ok k nd) (data_ok_in g k nd Hok Hin) r Hr) as E.
    split; [exact E|]. rewrite E. split; [apply sorted_deps_NoDup | intro x; apply sorted_deps_In].
  Qed.

  (** ** C21_fresh_keys_unique *)
  Theorem flatten_keys_unique : forall g, NoDup (map fst g) ->
    NoDup (map r_key (flatten kle g)) /\
    (forall r, In r (flatten kle g) ->
       (exists k, r_key r = KG k /\ In k (map fst g)) \/
       (exists p i, r_key r = KSub p i /\ In p (map fst g) /\ 1 <= i)).
  Proof.
    intros g Hnd. split.
    - unfold flatten. rewrite map_flat_map. apply (NoDup_flat_map_owner _ _ _ fst owner); [exact Hnd | |].
      + intros [k nd]. exact (no_nodup (records_ok k nd)).
      + intros [k nd] z Hz. apply in_map_iff in Hz as [r [E Hr]]. subst z. exact (records_owner k nd r Hr).
    - intros r Hr. apply in_flatten in Hr as [k [nd [Hin Hr]]].
      assert (Hk : In k (map fst g)) by exact (in_map fst _ _ Hin).
      destruct (no_keys (records_ok k nd) r Hr) as [A|[i [A Hi]]]; [left; eauto | right; exists k, i; auto].
  Qed.

  Lemma src_graph_defined : forall g k, defined (src_graph g) k <-> exists nd, In (k, nd) g.
  Proof.
    intros g k. unfold defined, keys, src_graph. rewrite map_map. cbn. rewrite in_map_iff. split.
    - intros [[k' nd] [E H]]. cbn in E. subst. eauto.
    - intros [nd H]. exists (k, nd). split; [reflexivity | exact H].
  Qed.

  Lemma src_graph_in : forall g k nd, In (k, nd) g -> In (k, nrefs nd) (src_graph g).
  Proof. intros g k nd H. unfold src_graph. apply in_map_iff. exists (k, nd). split; [reflexivity | exact H]. Qed.

  Lemma src_graph_edge : forall g k d, edge (src_graph g) k d <-> exists nd, In (k, nd) g /\ In d (nrefs nd).
  Proof.
    intros g k d. unfold edge. split.
    - intros [ds [H Hd]]. apply in_map_iff in H as [[k' nd] [E H]]. cbn in E. inversion E; subst. eauto.
    - intros [nd [H Hd]]. exists (nrefs nd). split; [apply src_graph_in; exact H | exact Hd].
  Qed.

  Lemma produced_KG : forall g d,
    In (KG d) (produced (flatten kle g)) <-> exists nd, In (d, nd) g /\ records kle d nd <> [].
  Proof.
    intros g d. unfold produced. rewrite in_map_iff. split.
    - intros [r [E Hr]]. apply in_flatten in Hr as [k [nd [Hin Hr]]].
      pose proof (records_owner _ _ _ Hr) as O. rewrite E in O. cbn in O. subst k.
      exists nd. split; [exact Hin|]. intro H0. rewrite H0 in Hr. destruct Hr.
    - intros [nd [Hin Hne]]. apply (no_main (records_ok d nd)), in_map_iff in Hne. destruct Hne as [m [Ek Hm]].
      exists m. split; [exact Ek|]. apply in_flatten. eauto.
  Qed.

  Lemma records_nonempty : forall g k nd, no_self_alias g -> supported g = true -> In (k, nd) g ->
    records kle k nd <> [].
  Proof.
    intros g k nd Hs Hsup Hin H0. destruct (records_nil k nd H0) as [E|E]; subst.
    - exact (Hs k Hin).
    - pose proof (supported_in g k NOther Hsup Hin) as F. discriminate.
  Qed.

  (* exactly the source keys are defined by the records (the output keys in particular) *)
  Theorem flatten_defines : forall g k, no_self_alias g -> supported g = true ->
    (In (KG k) (produced (flatten kle g)) <-> defined (src_graph g) k).
  Proof.
    intros g k Hs Hsup. rewrite produced_KG, src_graph_defined. split; intros [nd H]; exists nd.
    - apply H.
    - split; [exact H | exact (records_nonempty g k nd Hs Hsup H)].
  Qed.

  Theorem dangling_spec : forall g, no_self_alias g -> supported g = true ->
    forall x, In x (dangling (flatten kle g)) <->
              exists d, x = KG d /\ (exists k, edge (src_graph g) k d) /\ ~ defined (src_graph g) d.
  Proof.
    intros g Hs Hsup x. rewrite dangling_In, in_flat_map. split.
    - intros [[r [Hr Hx]] Hnp]. apply in_flatten in Hr as [k [nd [Hin Hr]]].
      destruct (records_deps_bound k nd r x Hr Hx) as [[d [E Hd]]|Hp].
      + exists d. split; [exact E|]. split; [exists k; apply src_graph_edge; eauto|].
        subst x. rewrite <- (flatten_defines g d Hs Hsup). exact Hnp.
      + exfalso. apply Hnp. apply in_map_iff in Hp as [r' [E' Hr']].
        apply in_map_iff. exists r'. split; [exact E'|]. apply in_flatten. eauto.
    - intros [d [E [[k He] Hnd]]]. subst x. apply src_graph_edge in He as [nd [Hin Hd]].
      rewrite (flatten_defines g d Hs Hsup). split; [|exact Hnd].
      destruct (no_cover (records_ok k nd) (records_nonempty g k nd Hs Hsup Hin) d Hd) as [r [Hr Hx]].
      exists r. split; [apply in_flatten; eauto | exact Hx].
  Qed.

  (** ** C21_complete: this, `dangling_spec` and `flatten_defines` *)
  Theorem check_complete_closed : forall g, no_self_alias g -> supported g = true ->
    (check_complete (flatten kle g) = true <-> closed (src_graph g)).
  Proof.
    intros g Hs Hsup. rewrite check_complete_spec. split.
    - intros Hc k ds d Hk Hd.
      destruct (in_dec Pos.eq_dec d (keys (src_graph g))) as [Hdef|Hn]; [exact Hdef|].
      destruct (Hc (KG d)). apply (dangling_spec g Hs Hsup). exists d.
      split; [reflexivity|]. split; [exists k, ds; auto | exact Hn].
    - intros Hcl x Hx. apply (dangling_spec g Hs Hsup) in Hx as [d [_ [[k [ds [Hk Hd]]] Hn]]].
      exact (Hn (Hcl k ds d Hk Hd)).
  Qed.
End NodeFacts.

(* find_node looks the pair up by its first component and hands back the second *)
Lemma find_node_find : forall g k, find_node g k = option_map snd (find (fun p => Pos.eqb (fst p) k) g).
Proof.
  intros g k. induction g as [|[k0 n0] t IH]; cbn; [reflexivity|].
  destruct (Pos.eqb k0 k); [reflexivity | exact IH].
Qed.

Lemma find_node_In : forall g k nd, find_node g k = Some nd -> In (k, nd) g.
Proof.
  intros g k nd. rewrite find_node_find.
  destruct (find (fun p => Pos.eqb (fst p) k) g) as [[k' nd']|] eqn:E; [|discriminate]. intros [= <-].
  apply (find_key_some _ _ Pos.eqb_eq) in E as [Hin <-]. exact Hin.
Qed.

Lemma find_node_NoDup : forall g k nd, NoDup (map fst g) -> In (k, nd) g -> find_node g k = Some nd.
Proof.
  intros g k nd Hnd Hin. rewrite find_node_find.
  exact (f_equal (option_map snd) (find_key_NoDup Pos.eqb fst Pos.eqb_eq g (k, nd) Hnd Hin)).
Qed.

Lemma find_rec_find : forall rs k, find_rec rs k = find (fun r => rkey_eqb (r_key r) k) rs.
Proof. intros rs k. induction rs as [|r0 t IH]; cbn; [|rewrite IH]; reflexivity. Qed.

Lemma find_rec_In : forall rs k r, find_rec rs k = Some r -> In r rs /\ r_key r = k.
Proof. intros rs k r. rewrite find_rec_find. apply (find_key_some _ _ rkey_eqb_eq). Qed.

Lemma find_rec_NoDup : forall rs r, NoDup (map r_key rs) -> In r rs -> find_rec rs (r_key r) = Some r.
Proof. intros rs r. rewrite find_rec_find. apply (find_key_NoDup _ _ rkey_eqb_eq). Qed.

Lemma no_self_alias_b_spec : forall g, no_self_alias_b g = true <-> no_self_alias g.
Proof.
  intro g. unfold no_self_alias_b, no_self_alias. rewrite forallb_forall. split.
  - intros H k Hin. specialize (H _ Hin). cbn in H. rewrite Pos.eqb_refl in H. discriminate.
  - intros H [k nd] Hin. cbn. destruct nd as [t| | | |]; try reflexivity.
    destruct (Pos.eqb t k) eqn:E; [|reflexivity]. apply Pos.eqb_eq in E. subst. exfalso. exact (H k Hin).
Qed.

(** * A topological order of the records always exists (given one of the source) *)

(* a list of records with distinct keys, each depending on earlier ones only, is a
   topological order of itself *)
Lemma ordered_rtopological : forall rs,
  NoDup (map r_key rs) -> ordered [] rs -> rtopological (rec_graph rs) (map r_key rs).
Proof.
  intros rs Hnd Ho. split; [exact Hnd|]. split.
  - intro k. unfold rec_graph. rewrite map_map. reflexivity.
  - intros pre k post ds E Hin. apply in_map_iff in Hin as [r [Er Hr]]. inversion Er; subst k ds.
    apply in_split in Hr as [e1 [e2 Ee]]. subst rs. rewrite map_app in E, Hnd.
    rewrite <- (NoDup_split_unique _ _ _ _ _ Hnd E), <- (app_nil_r (map r_key e1)).
    exact (ordered_split e1 r e2 [] Ho).
Qed.

(* being a topological order depends on the dependency graph as a set only *)
Lemma rtopological_ext : forall dg dg' o,
  (forall e, In e dg <-> In e dg') -> rtopological dg o -> rtopological dg' o.
Proof.
  intros dg dg' o H (Hnd & Hk & Hd). split; [exact Hnd|]. split.
  - intro k. rewrite Hk, !in_map_iff. split; intros [e [E He]]; exists e; (split; [exact E | apply H; exact He]).
  - intros pre k post ds E Hin. apply (Hd pre k post ds E). apply H. exact Hin.
Qed.

Lemma ordered_flat_map : forall A (f : A -> list rec) os av,
  (forall pre k post, os = pre ++ k :: post -> ordered (map r_key (flat_map f pre) ++ av) (f k)) ->
  ordered av (flat_map f os).
Proof.
  induction os as [|k t IH]; intros av H; [exact I|]. cbn.
  apply ordered_app; [exact (H [] k t eq_refl)|]. apply IH. intros pre k' post E.
  specialize (H (k :: pre) k' post (f_equal (cons k) E)). revert H. apply ordered_mono.
  intro x. cbn. rewrite map_app, !in_app_iff. tauto.
Qed.

Section FlatOrder.
  Variable kle : rkey -> rkey -> bool.

  (* the records of key k, in run order *)
  Definition block (g : sgraph) (k : key) : list rec :=
    match find_node g k with Some nd => run_order (records kle k nd) | None => [] end.

  Lemma flat_order_blocks : forall g os, flat_order kle g os = map r_key (flat_map (block g) os).
  Proof.
    intros g os. rewrite map_flat_map. apply flat_map_ext. intro k. unfold block.
    destruct (find_node g k) as [nd|]; [|reflexivity].
    destruct (records kle k nd) as [|m ex]; [reflexivity|]. cbn. rewrite map_app. reflexivity.
  Qed.

  Lemma block_in : forall g k r, NoDup (map fst g) ->
    (In r (block g k) <-> exists nd, In (k, nd) g /\ In r (records kle k nd)).
  Proof.
    intros g k r Hnd. unfold block. split.
    - destruct (find_node g k) as [nd|] eqn:E; [|intros []]. rewrite run_order_In.
      exists nd. split; [apply find_node_In; exact E | assumption].
    - intros [nd [Hin Hr]]. rewrite (find_node_NoDup g k nd Hnd Hin). apply run_order_In. exact Hr.
  Qed.

  Lemma block_owner : forall g k r, In r (block g k) -> owner (r_key r) = k.
  Proof.
    intros g k r. unfold block. destruct (find_node g k) as [nd|]; [|intros []].
    rewrite run_order_In. apply records_owner.
  Qed.

  Lemma topo_no_self_alias : forall g os, topological (src_graph g) os -> no_self_alias g.
  Proof.
    intros g os (Hnd & Hkeys & Hdeps) k Hin.
    assert (Hk : In k os) by (apply Hkeys; apply src_graph_defined; eauto).
    apply in_split in Hk as [pre [post E]].
    assert (Hp : In k pre).
    { apply (Hdeps pre k post [k] E); [exact (src_graph_in g k _ Hin) | left; reflexivity]. }
    rewrite E in Hnd. apply NoDup_remove_2 in Hnd. apply Hnd. apply in_or_app. left; exact Hp.
  Qed.

  (* the blocks in a topological order of the source: a graph key a record refers to has its
     block earlier, a lifted key stands earlier in the same block *)
  Theorem flat_order_topological : forall g os,
    NoDup (map fst g) -> supported g = true -> topological (src_graph g) os ->
    rtopological (rec_graph (flatten kle g)) (flat_order kle g os).
  Proof.
    intros g os Hndg Hsup T. pose proof (topo_no_self_alias g os T) as Hns.
    destruct T as (Hndo & Hkeys & Hdeps). rewrite flat_order_blocks.
    assert (Hos : forall k, In k os <-> exists nd, In (k, nd) g).
    { intro k. rewrite Hkeys. apply src_graph_defined. }
    apply (rtopological_ext (rec_graph (flat_map (block g) os))).
    { intro e. unfold rec_graph. rewrite !in_map_iff.
      split; intros [r [E Hr]]; exists r; (split; [exact E|]).
      - apply in_flat_map in Hr as [k [_ Hr]]. apply block_in in Hr; [|exact Hndg].
        apply in_flatten. eauto.
      - apply in_flatten in Hr as [k [nd [Hin Hr]]]. apply in_flat_map.
        exists k. split; [apply Hos; eauto | apply block_in; eauto]. }
    apply ordered_rtopological.
    - rewrite map_flat_map.
      apply (NoDup_flat_map_owner _ _ _ (fun k => k) owner); [rewrite map_id; exact Hndo | |].
      + intro k. unfold block. destruct (find_node g k) as [nd|]; [|constructor].
        exact (run_order_NoDup _ (no_nodup (records_ok kle k nd))).
      + intros k z Hz. apply in_map_iff in Hz as [r [E Hr]]. subst z. exact (block_owner g k r Hr).
    - apply ordered_flat_map. intros pre k post E. rewrite app_nil_r. unfold block at 2.
      destruct (find_node g k) as [nd|] eqn:Hf; [|exact I]. apply find_node_In in Hf.
      generalize (no_ordered (records_ok kle k nd)). apply ordered_mono.
      intros x Hx. apply in_map_iff in Hx as [dd [Ex Hdd]]. subst x.
      apply (Hdeps pre k post (nrefs nd) E (src_graph_in g k nd Hf)) in Hdd.
      rewrite map_flat_map. apply in_flat_map. exists dd. split; [exact Hdd|].
      assert (Hddo : In dd os) by (rewrite E; apply in_or_app; left; exact Hdd).
      apply Hos in Hddo as [nd' Hin'].
      pose proof (no_main (records_ok kle dd nd') (records_nonempty kle g dd nd' Hns Hsup Hin')) as Hm.
      apply in_map_iff in Hm as [m [Em Hm]]. apply in_map_iff. exists m.
      split; [exact Em | apply block_in; eauto].
  Qed.
End FlatOrder.

(** * Running a graph of defining equations in a topological order
      (the argument of GraphFacts.run_satisfies / satisfies_unique / run_confluent for an
      arbitrary key type and option-valued stores; instantiated below for the source graph and
      for the records) *)

Section EqGraph.
  Context {A N V : Type}.
  Variable eqb : A -> A -> bool.
  Hypothesis eqb_eq : forall a b, eqb a b = true <-> a = b.
  Variable find : A -> option N.          (* the node bound to a key *)
  Variable deps : N -> list A.
  Variable ev : (A -> option V) -> N -> option V.

  Definition gstep (s : A -> option V) (k : A) : A -> option V :=
    match find k with Some n => supd V eqb s k (ev s n) | None => s end.
  Definition grun (o : list A) : A -> option V := fold_left gstep o (fun _ => None).

  Definition gtopo (o : list A) : Prop :=
    NoDup o /\ (forall k, In k o <-> exists n, find k = Some n) /\
    (forall pre k post n, o = pre ++ k :: post -> find k = Some n -> incl (deps n) pre).
  Definition gsat (s : A -> option V) : Prop := forall k n, find k = Some n -> s k = ev s n.
  Definition gext : Prop :=
    forall k n, find k = Some n -> forall s s', (forall d, In d (deps n) -> s d = s' d) -> ev s n = ev s' n.

  Lemma gstep_other : forall s k k', k' <> k -> gstep s k k' = s k'.
  Proof.
    intros s k k' H. unfold gstep. destruct (find k); [|reflexivity].
    unfold supd. destruct (eqb k' k) eqn:E; [apply eqb_eq in E; contradiction | reflexivity].
  Qed.

  Lemma gfold_other : forall o s k', ~ In k' o -> fold_left gstep o s k' = s k'.
  Proof.
    induction o as [|k t IH]; cbn; intros s k' H; [reflexivity|].
    rewrite IH by (intro Hin; apply H; right; exact Hin).
    apply gstep_other. intro E. apply H. left. symmetry; exact E.
  Qed.

  Lemma grun_undefined : forall o k, ~ In k o -> grun o k = None.
  Proof. intros o k H. unfold grun. rewrite gfold_other by exact H. reflexivity. Qed.

  Lemma grun_at : forall pre k post n, NoDup (pre ++ k :: post) -> find k = Some n ->
    grun (pre ++ k :: post) k = ev (grun pre) n.
  Proof.
    intros pre k post n Hnd Hf. unfold grun. rewrite fold_left_app. cbn.
    rewrite gfold_other by (apply NoDup_remove_2 in Hnd; intro Hin; apply Hnd, in_or_app; right; exact Hin).
    unfold gstep. rewrite Hf. unfold supd. rewrite (proj2 (eqb_eq k k) eq_refl). reflexivity.
  Qed.

  Lemma grun_stable : forall pre post k, NoDup (pre ++ post) -> In k pre -> grun (pre ++ post) k = grun pre k.
  Proof.
    intros pre post k Hnd Hin. unfold grun. rewrite fold_left_app. apply gfold_other.
    apply NoDup_app_iff in Hnd. apply Hnd. exact Hin.
  Qed.

  Theorem grun_sat : forall o, gtopo o -> gext -> gsat (grun o).
  Proof.
    intros o (Hnd & Hkeys & Hdeps) Hext k n Hf.
    assert (Hk : In k o) by (apply Hkeys; eauto).
    apply in_split in Hk as [pre [post E]]. subst o.
    rewrite (grun_at pre k post n Hnd Hf).
    apply (Hext k n Hf). intros d Hd. symmetry.
    exact (grun_stable pre (k :: post) d Hnd (Hdeps pre k post n eq_refl Hf d Hd)).
  Qed.

  (* induction along a topological order: a key after its dependencies *)
  Lemma gtopo_ind : forall o (Q : A -> Prop), gtopo o ->
    (forall k n, find k = Some n -> (forall d, In d (deps n) -> Q d) -> Q k) ->
    forall k, In k o -> Q k.
  Proof.
    intros o Q (Hnd & Hkeys & Hdeps) Hstep.
    assert (Hpre : forall pre post, o = pre ++ post -> forall k, In k pre -> Q k).
    { induction pre as [|x pre IH] using rev_ind; intros post E k Hk; [contradiction|].
      rewrite <- app_assoc in E.
      apply in_app_or in Hk as [Hk|[Hk|[]]]; [exact (IH _ E k Hk)|]. subst x.
      destruct (proj1 (Hkeys k)) as [n Hf]; [rewrite E; apply in_elt|].
      apply (Hstep k n Hf). intros d Hd. apply (IH _ E). exact (Hdeps pre k post n E Hf d Hd). }
    intros k Hk. exact (Hpre o [] (eq_sym (app_nil_r o)) k Hk).
  Qed.

  Theorem gsat_unique : forall o s1 s2, gtopo o -> gext -> gsat s1 -> gsat s2 ->
    forall k, In k o -> s1 k = s2 k.
  Proof.
    intros o s1 s2 T Hext H1 H2. apply (gtopo_ind o (fun k => s1 k = s2 k) T).
    intros k n Hf IH. rewrite (H1 k n Hf), (H2 k n Hf). exact (Hext k n Hf s1 s2 IH).
  Qed.

  (* CONFLUENCE: every topological order computes the same store *)
  Theorem grun_confluent : forall o1 o2, gtopo o1 -> gtopo o2 -> gext -> forall k, grun o1 k = grun o2 k.
  Proof.
    intros o1 o2 T1 T2 Hext k.
    assert (Hiff : In k o1 <-> In k o2).
    { destruct T1 as (_ & K1 & _). destruct T2 as (_ & K2 & _). rewrite K1, K2. tauto. }
    assert (Hdec : In k o1 \/ ~ In k o1).
    { destruct T1 as (_ & K1 & _). destruct (find k) as [n|] eqn:E.
      - left. apply K1. eauto.
      - right. intro H. apply K1 in H as [n H]. congruence. }
    destruct Hdec as [Hin|Hn].
    - apply (gsat_unique o1); auto using grun_sat.
    - rewrite (grun_undefined o1 k Hn). symmetry. apply grun_undefined. tauto.
  Qed.

  (* nothing is stuck *)
  Theorem grun_total : forall o,
    (forall k n, find k = Some n -> forall s, (forall d, In d (deps n) -> s d <> None) -> ev s n <> None) ->
    gtopo o -> gext -> forall k, In k o -> grun o k <> None.
  Proof.
    intros o Hsome T Hext. pose proof (grun_sat o T Hext) as Hsat.
    apply (gtopo_ind o _ T). intros k n Hf IH. rewrite (Hsat k n Hf). exact (Hsome k n Hf _ IH).
  Qed.
End EqGraph.

Section SemFacts.
  Variable V : Type.
  Variable apply : tag -> list V -> list (tag * V) -> V.
  Variable vlit : tag -> V.
  Variable vlist vtuple : list V -> V.
  Variable vdict : list (tag * V) -> V.
  Hypothesis apply_ident : forall v, apply ident_fn [v] [] = v.      (* toolz.identity *)
  Variable kle : rkey -> rkey -> bool.

  Notation teval := (teval V vlit vlist vtuple vdict).
  Notation teval_list := (teval_list V vlit vlist vtuple vdict).
  Notation teval_kw := (teval_kw V vlit vlist vtuple vdict).
  Notation rec_eval := (rec_eval V apply vlit vlist vtuple vdict).
  Notation aeval := (aeval V apply vlit vlist vtuple vdict).
  Notation aeval_list := (aeval_list V apply vlit vlist vtuple vdict).
  Notation aeval_kw := (aeval_kw V apply vlit vlist vtuple vdict).
  Notation neval := (neval V apply vlit vlist vtuple vdict).
  Notation src_run := (src_run V apply vlit vlist vtuple vdict).
  Notation rec_run := (rec_run V apply vlit vlist vtuple vdict).

  Lemma teval_TList : forall s l, teval s (TList l) = option_map vlist (teval_list s l).
  Proof.
    intros s l. cbn. f_equal. induction l as [|x r IH]; [reflexivity|]. cbn. rewrite IH. reflexivity.
  Qed.
  Lemma teval_TTuple : forall s l, teval s (TTuple l) = option_map vtuple (teval_list s l).
  Proof.
    intros s l. cbn. f_equal. induction l as [|x r IH]; [reflexivity|]. cbn. rewrite IH. reflexivity.
  Qed.
  Lemma teval_TDict : forall s l, teval s (TDict l) = option_map vdict (teval_kw s l).
  Proof.
    intros s l. cbn. f_equal. induction l as [|[k x] r IH]; [reflexivity|]. cbn. rewrite IH. reflexivity.
  Qed.

  Lemma aeval_al : forall s l,
    (fix al (l : list arg) : option (list V) :=
       match l with
       | [] => Some []
       | x :: r => match aeval s x, al r with Some v, Some vs => Some (v :: vs) | _, _ => None end
       end) l = aeval_list s l.
  Proof. intros s l. induction l as [|x r IH]; [reflexivity|]. cbn. rewrite IH. reflexivity. Qed.
  Lemma aeval_ak : forall s l,
    (fix ak (l : list (tag * arg)) : option (list (tag * V)) :=
       match l with
       | [] => Some []
       | (k, x) :: r => match aeval s x, ak r with Some v, Some vs => Some ((k, v) :: vs) | _, _ => None end
       end) l = aeval_kw s l.
  Proof. intros s l. induction l as [|[k x] r IH]; [reflexivity|]. cbn. rewrite IH. reflexivity. Qed.

  Lemma aeval_ASeq : forall s sk l,
    aeval s (ASeq sk l) = option_map (if seq_is_list sk then vlist else vtuple) (aeval_list s l).
  Proof. intros s sk l. cbn. rewrite aeval_al. reflexivity. Qed.
  Lemma aeval_ADict : forall s l, aeval s (ADict l) = option_map vdict (aeval_kw s l).
  Proof. intros s l. cbn. rewrite aeval_ak. reflexivity. Qed.
  Lemma aeval_ATask : forall s f a k,
    aeval s (ATask f a k) =
    match aeval_list s a, aeval_kw s k with Some vs, Some kvs => Some (apply f vs kvs) | _, _ => None end.
  Proof. intros s f a k. cbn. rewrite aeval_al, aeval_ak. reflexivity. Qed.

  (* evaluation only looks at the referenced keys *)
  Lemma teval_ext :
    (forall t s s', (forall x, In x (trefs t) -> s x = s' x) -> teval s t = teval s' t) /\
    (forall l s s', (forall x, In x (trefs_list l) -> s x = s' x) -> teval_list s l = teval_list s' l) /\
    (forall l s s', (forall x, In x (trefs_kw l) -> s x = s' x) -> teval_kw s l = teval_kw s' l).
  Proof.
    apply targ_mutind; try reflexivity.
    - intros k s s' H. apply H. left; reflexivity.
    - intros l IH s s' H. rewrite !teval_TList, (IH s s' H). reflexivity.
    - intros l IH s s' H. rewrite !teval_TTuple, (IH s s' H). reflexivity.
    - intros l IH s s' H. rewrite !teval_TDict, (IH s s' H). reflexivity.
    - intros x r Hx Hr s s' H. apply forall_in_app in H as [H1 H2].
      cbn. rewrite (Hx s s' H1), (Hr s s' H2). reflexivity.
    - intros k x r Hx Hr s s' H. apply forall_in_app in H as [H1 H2].
      cbn. rewrite (Hx s s' H1), (Hr s s' H2). reflexivity.
  Qed.

  Lemma rec_eval_ext : forall r s s', (forall x, In x (rec_refs r) -> s x = s' x) -> rec_eval s r = rec_eval s' r.
  Proof.
    intros r s s' H. apply forall_in_app in H as [H1 H2]. unfold Records.rec_eval.
    rewrite (proj1 (proj2 teval_ext) _ s s' H1), (proj2 (proj2 teval_ext) _ s s' H2). reflexivity.
  Qed.

  Lemma aeval_ext :
    (forall a s s', (forall d, In d (arefs a) -> s d = s' d) -> aeval s a = aeval s' a) /\
    (forall l s s', (forall d, In d (arefs_list l) -> s d = s' d) -> aeval_list s l = aeval_list s' l) /\
    (forall l s s', (forall d, In d (arefs_kw l) -> s d = s' d) -> aeval_kw s l = aeval_kw s' l).
  Proof.
    apply arg_mutind; try reflexivity.
    1, 2: intros k s s' H; apply H; left; reflexivity.
    - intros sk items IH s s' H. rewrite !aeval_ASeq, (IH s s' H). reflexivity.
    - intros f args kwargs IHa IHk s s' H. apply forall_in_app in H as [H1 H2].
      rewrite !aeval_ATask, (IHa s s' H1), (IHk s s' H2). reflexivity.
    - intros items IH s s' H. rewrite !aeval_ADict, (IH s s' H). reflexivity.
    - intros x r Hx Hr s s' H. apply forall_in_app in H as [H1 H2].
      cbn. rewrite (Hx s s' H1), (Hr s s' H2). reflexivity.
    - intros k x r Hx Hr s s' H. apply forall_in_app in H as [H1 H2].
      cbn. rewrite (Hx s s' H1), (Hr s s' H2). reflexivity.
  Qed.

  Lemma neval_ext : forall nd s s', (forall d, In d (nrefs nd) -> s d = s' d) -> neval s nd = neval s' nd.
  Proof.
    destruct aeval_ext as (_ & Xl & Xk). intros [t|v|b items|f args kwargs|] s s' H; cbn in *.
    - apply H. left; reflexivity.
    - reflexivity.
    - rewrite (Xl items s s' H). reflexivity.
    - apply forall_in_app in H as [H1 H2].
      rewrite (Xl args s s' H1), (Xk kwargs s s' H2). reflexivity.
    - reflexivity.
  Qed.

  (* nothing is stuck when every referenced key has a value *)
  Lemma teval_some :
    (forall t s, (forall x, In x (trefs t) -> s x <> None) -> teval s t <> None) /\
    (forall l s, (forall x, In x (trefs_list l) -> s x <> None) -> teval_list s l <> None) /\
    (forall l s, (forall x, In x (trefs_kw l) -> s x <> None) -> teval_kw s l <> None).
  Proof.
    apply targ_mutind; try discriminate.
    - intros k s H. apply H. left; reflexivity.
    - intros l IH s H. rewrite teval_TList. exact (option_map_some _ _ _ _ (IH s H)).
    - intros l IH s H. rewrite teval_TTuple. exact (option_map_some _ _ _ _ (IH s H)).
    - intros l IH s H. rewrite teval_TDict. exact (option_map_some _ _ _ _ (IH s H)).
    - intros x r Hx Hr s H. apply forall_in_app in H as [H1 H2].
      cbn. apply lift2_some; [exact (Hx s H1) | exact (Hr s H2)].
    - intros k x r Hx Hr s H. apply forall_in_app in H as [H1 H2].
      cbn. apply lift2_some; [exact (Hx s H1) | exact (Hr s H2)].
  Qed.

  Lemma data_eval_some : forall v s, tref_free v = true -> teval s v <> None.
  Proof. intros v s H. apply (proj1 teval_some). rewrite (tref_free_nil v H). intros x []. Qed.

  Lemma aeval_some :
    (forall a s, supported_arg a = true -> data_ok_arg a = true ->
                 (forall d, In d (arefs a) -> s d <> None) -> aeval s a <> None) /\
    (forall l s, supported_list l = true -> data_ok_list l = true ->
                 (forall d, In d (arefs_list l) -> s d <> None) -> aeval_list s l <> None) /\
    (forall l s, supported_kw l = true -> data_ok_kw l = true ->
                 (forall d, In d (arefs_kw l) -> s d <> None) -> aeval_kw s l <> None).
  Proof.
    apply arg_mutind; try discriminate.
    1, 2: intros k s _ _ H; apply H; left; reflexivity.
    - intros v s _ Hd _. exact (data_eval_some v _ Hd).
    - intros sk items IH s Hs Hd H. rewrite aeval_ASeq. exact (option_map_some _ _ _ _ (IH s Hs Hd H)).
    - intros f args kwargs IHa IHk s Hs Hd H. rewrite aeval_ATask.
      apply andb_true_iff in Hs as [Hs1 Hs2]. apply andb_true_iff in Hd as [Hd1 Hd2].
      apply forall_in_app in H as [H1 H2].
      apply lift2_some; [exact (IHa s Hs1 Hd1 H1) | exact (IHk s Hs2 Hd2 H2)].
    - intros items IH s Hs Hd H. rewrite aeval_ADict. exact (option_map_some _ _ _ _ (IH s Hs Hd H)).
    - intros x r Hx Hr s Hs Hd H.
      apply andb_true_iff in Hs as [Hs1 Hs2]. apply andb_true_iff in Hd as [Hd1 Hd2].
      apply forall_in_app in H as [H1 H2].
      cbn. apply lift2_some; [exact (Hx s Hs1 Hd1 H1) | exact (Hr s Hs2 Hd2 H2)].
    - intros k x r Hx Hr s Hs Hd H.
      apply andb_true_iff in Hs as [Hs1 Hs2]. apply andb_true_iff in Hd as [Hd1 Hd2].
      apply forall_in_app in H as [H1 H2].
      cbn. apply lift2_some; [exact (Hx s Hs1 Hd1 H1) | exact (Hr s Hs2 Hd2 H2)].
  Qed.

  Lemma neval_some : forall nd s, supported_node nd = true -> data_ok_node nd = true ->
    (forall d, In d (nrefs nd) -> s d <> None) -> neval s nd <> None.
  Proof.
    destruct aeval_some as (_ & Sl & Sk). intros [t|v|b items|f args kwargs|] s Hs Hd H; cbn in *.
    - apply H. left; reflexivity.
    - exact (data_eval_some v _ Hd).
    - exact (option_map_some _ _ _ _ (Sl items s Hs Hd H)).
    - apply andb_true_iff in Hs as [Hs1 Hs2]. apply andb_true_iff in Hd as [Hd1 Hd2].
      apply forall_in_app in H as [H1 H2].
      apply lift2_some; [exact (Sl args s Hs1 Hd1 H1) | exact (Sk kwargs s Hs2 Hd2 H2)].
    - discriminate.
  Qed.

  (* SIMULATION: if the store satisfies the equations of the lifted records, the resolved
     argument evaluates to what the source argument evaluates to *)
  Definition rsat (rs : rkey -> option V) (ex : list rec) : Prop :=
    forall r, In r ex -> rs (r_key r) = rec_eval rs r.

  Lemma rsat_app : forall rs e1 e2, rsat rs (e1 ++ e2) -> rsat rs e1 /\ rsat rs e2.
  Proof. intros rs e1 e2. apply forall_in_app. Qed.

  (* the simulation, said of the result of a call *)
  Definition sim_of {T W} (te : (rkey -> option V) -> T -> option W) (rs : rkey -> option V)
                    (r : T * list rkey * nat * list rec) (w : option W) : Prop :=
    let '(t, _, _, ex) := r in rsat rs ex -> te rs t = w.

  Theorem resolve_sim :
    (forall a p n rs, supported_arg a = true -> data_ok_arg a = true ->
       sim_of teval rs (resolve kle p a n) (aeval (fun k => rs (KG k)) a)) /\
    (forall l p n rs, supported_list l = true -> data_ok_list l = true ->
       sim_of teval_list rs (resolve_list kle p l n) (aeval_list (fun k => rs (KG k)) l)) /\
    (forall l p n rs, supported_kw l = true -> data_ok_kw l = true ->
       sim_of teval_kw rs (resolve_kw kle p l n) (aeval_kw (fun k => rs (KG k)) l)).
  Proof.
    (* a reference or a literal is resolved to itself *)
    apply arg_mutind; try discriminate; try (intros; intro; reflexivity).
    - intros v p n rs _ Hd _. apply (proj1 teval_ext). rewrite (tref_free_nil v Hd). intros x [].
    - intros sk items IH p n rs Hs Hd. rewrite resolve_ASeq, aeval_ASeq. specialize (IH p n rs Hs Hd).
      destruct (resolve_list kle p items n) as [[[ts ds] n1] e1]. intro Hsat. rewrite <- (IH Hsat).
      destruct (seq_is_list sk); [apply teval_TList | apply teval_TTuple].
    - intros f args kwargs IHa IHk p n rs Hs Hd. rewrite resolve_ATask, aeval_ATask.
      apply andb_true_iff in Hs as [Hs1 Hs2]. apply andb_true_iff in Hd as [Hd1 Hd2].
      specialize (IHa p (S n) rs Hs1 Hd1). destruct (resolve_list kle p args (S n)) as [[[ta d1] n1] e1].
      specialize (IHk p n1 rs Hs2 Hd2). destruct (resolve_kw kle p kwargs n1) as [[[tk d2] n2] e2].
      intro Hsat. apply rsat_app in Hsat as [S1 S23]. apply rsat_app in S23 as [S2 S3].
      rewrite <- (IHa S1), <- (IHk S2). exact (S3 _ (or_introl eq_refl)).
    - intros items IH p n rs Hs Hd. rewrite resolve_ADict, aeval_ADict. specialize (IH p n rs Hs Hd).
      destruct (resolve_kw kle p items n) as [[[tk ds] n1] e1]. intro Hsat. rewrite <- (IH Hsat).
      apply teval_TDict.
    - intros x r Hx Hr p n rs Hs Hd. rewrite resolve_list_cons.
      apply andb_true_iff in Hs as [Hs1 Hs2]. apply andb_true_iff in Hd as [Hd1 Hd2].
      specialize (Hx p n rs Hs1 Hd1). destruct (resolve kle p x n) as [[[tx dx] n1] e1].
      specialize (Hr p n1 rs Hs2 Hd2). destruct (resolve_list kle p r n1) as [[[tr dt] n2] e2].
      intro Hsat. apply rsat_app in Hsat as [S1 S2]. cbn. rewrite (Hx S1), (Hr S2). reflexivity.
    - intros k x r Hx Hr p n rs Hs Hd. rewrite resolve_kw_cons.
      apply andb_true_iff in Hs as [Hs1 Hs2]. apply andb_true_iff in Hd as [Hd1 Hd2].
      specialize (Hx p n rs Hs1 Hd1). destruct (resolve kle p x n) as [[[tx dx] n1] e1].
      specialize (Hr p n1 rs Hs2 Hd2). destruct (resolve_kw kle p r n1) as [[[tr dt] n2] e2].
      intro Hsat. apply rsat_app in Hsat as [S1 S2]. cbn. rewrite (Hx S1), (Hr S2). reflexivity.
  Qed.

  Lemma ident_eval : forall rs k t ds,
    rec_eval rs (mkrec k ident_fn [t] [] ds) = teval rs t.
  Proof.
    intros rs k t ds. unfold Records.rec_eval. cbn.
    destruct (teval rs t) as [v|]; [|reflexivity]. rewrite apply_ident. reflexivity.
  Qed.

  (* one graph node: a store that satisfies the equations of the node's records satisfies the
     node's own defining equation *)
  Theorem records_sim : forall k nd rs,
    supported_node nd = true -> data_ok_node nd = true -> rsat rs (records kle k nd) ->
    rs (KG k) = neval (fun k => rs (KG k)) nd.
  Proof.
    destruct resolve_sim as (Ma & Ml & Mk).
    intros k [t|v|b items|f args kwargs|] rs Hs Hd Hsat; cbn [records] in Hsat; try discriminate.
    - destruct (Pos.eqb t k) eqn:E; [apply Pos.eqb_eq in E; subst; reflexivity|].
      refine (eq_trans (Hsat _ (or_introl eq_refl)) _). apply ident_eval.
    - refine (eq_trans (Hsat _ (or_introl eq_refl)) _). rewrite ident_eval. apply (proj1 teval_ext).
      rewrite (tref_free_nil v Hd). intros x [].
    - pose proof (Ma (ASeq (if b then ContList else ContTuple) items) k 0 rs Hs Hd) as A.
      destruct (resolve kle k (ASeq (if b then ContList else ContTuple) items) 0) as [[[t ds] n'] ex].
      refine (eq_trans (Hsat _ (or_introl eq_refl)) _).
      rewrite ident_eval, (A (fun r Hr => Hsat r (or_intror Hr))), aeval_ASeq. destruct b; reflexivity.
    - apply andb_true_iff in Hs as [Hs1 Hs2]. apply andb_true_iff in Hd as [Hd1 Hd2].
      pose proof (Ml args k 0 rs Hs1 Hd1) as A. destruct (resolve_list kle k args 0) as [[[ta d1] n1] e1].
      pose proof (Mk kwargs k n1 rs Hs2 Hd2) as B. destruct (resolve_kw kle k kwargs n1) as [[[tk d2] n2] e2].
      refine (eq_trans (Hsat _ (or_introl eq_refl)) _).
      destruct (rsat_app rs e1 e2 (fun r Hr => Hsat r (or_intror Hr))) as [S1 S2].
      unfold Records.rec_eval. cbn [r_args r_kwargs r_fn]. rewrite (A S1), (B S2). reflexivity.
  Qed.

  (* the two graphs as instances of EqGraph *)
  Lemma src_topo : forall g o, NoDup (map fst g) -> topological (src_graph g) o ->
    gtopo (find_node g) nrefs o.
  Proof.
    intros g o Hnd (Ho & Hkeys & Hdeps). split; [exact Ho|]. split.
    - intro k. rewrite Hkeys, src_graph_defined. split; intros [nd H]; exists nd.
      + apply find_node_NoDup; assumption.
      + apply find_node_In; assumption.
    - intros pre k post nd E Hf. apply (Hdeps pre k post (nrefs nd) E).
      apply src_graph_in, find_node_In. exact Hf.
  Qed.

  Lemma rec_topo : forall rs o, NoDup (map r_key rs) -> rtopological (rec_graph rs) o ->
    gtopo (find_rec rs) r_deps o.
  Proof.
    intros rs o Hnd (Ho & Hkeys & Hdeps). split; [exact Ho|]. split.
    - intro k. rewrite Hkeys. unfold rec_graph. rewrite map_map. cbn. rewrite in_map_iff. split.
      + intros [r [E Hr]]. exists r. subst k. apply find_rec_NoDup; assumption.
      + intros [r Hf]. apply find_rec_In in Hf as [Hr E]. eauto.
    - intros pre k post r E Hf. apply (Hdeps pre k post (r_deps r) E).
      apply find_rec_In in Hf as [Hr Ek]. subst k. exact (in_map _ _ _ Hr).
  Qed.

  (* records whose declared deps contain every embedded ref: evaluation looks at the deps only *)
  Lemma rec_gext : forall rs, (forall r, In r rs -> incl (rec_refs r) (r_deps r)) ->
    gext (find_rec rs) r_deps rec_eval.
  Proof.
    intros rs H k r Hf s s' Hs. apply find_rec_In in Hf as [Hr _].
    apply rec_eval_ext. intros x Hx. apply Hs. exact (H r Hr x Hx).
  Qed.

  Lemma flatten_refs_declared : forall g, data_ok g = true ->
    forall r, In r (flatten kle g) -> incl (rec_refs r) (r_deps r).
  Proof. intros g Hd r Hr x Hx. apply (flatten_deps_exact kle g r Hd Hr). exact Hx. Qed.

  (** ** C21_flatten_sound *)
  Theorem flatten_sound : forall g os ot,
    NoDup (map fst g) -> supported g = true -> data_ok g = true ->
    topological (src_graph g) os ->
    rtopological (rec_graph (flatten kle g)) ot ->
    forall k, In k (map fst g) ->
      rec_run (flatten kle g) ot (KG k) = src_run g os k /\ exists v, src_run g os k = Some v.
  Proof.
    intros g os ot Hnd Hsup Hdok Tos Tot k Hk.
    set (F := flatten kle g).
    assert (HndF : NoDup (map r_key F)) by (apply flatten_keys_unique; exact Hnd).
    pose proof (src_topo g os Hnd Tos) as Gs.
    assert (Xs : gext (find_node g) nrefs neval).
    { intros k0 nd _ s s' H. apply neval_ext. exact H. }
    (* both runs (`src_run` and `rec_run` are `grun`) satisfy their equations *)
    assert (Ss : gsat (find_node g) neval (src_run g os))
      by exact (grun_sat Pos.eqb Pos.eqb_eq _ _ _ os Gs Xs).
    assert (St : gsat (find_rec F) rec_eval (rec_run F ot))
      by exact (grun_sat rkey_eqb rkey_eqb_eq _ _ _ ot (rec_topo F ot HndF Tot)
                         (rec_gext F (flatten_refs_declared g Hdok))).
    set (rs := rec_run F ot) in *.
    (* the records store, read at the graph keys, satisfies the source equations *)
    assert (Ss' : gsat (find_node g) neval (fun k => rs (KG k))).
    { intros k0 nd Hf. apply find_node_In in Hf.
      apply (records_sim k0 nd rs (supported_in g k0 nd Hsup Hf) (data_ok_in g k0 nd Hdok Hf)).
      intros r Hr. apply (St (r_key r) r). apply find_rec_NoDup; [exact HndF|]. apply in_flatten. eauto. }
    assert (Hko : In k os).
    { destruct Tos as (_ & Hkeys & _). apply Hkeys. unfold defined, keys, src_graph. rewrite map_map. exact Hk. }
    split.
    - symmetry. exact (gsat_unique (find_node g) nrefs neval os _ _ Gs Xs Ss Ss' k Hko).
    - assert (Hne : src_run g os k <> None).
      { apply (grun_total Pos.eqb Pos.eqb_eq (find_node g) nrefs neval os); auto.
        intros k0 nd Hf s H. apply find_node_In in Hf.
        apply neval_some; [exact (supported_in g k0 nd Hsup Hf) | exact (data_ok_in g k0 nd Hdok Hf) | exact H]. }
      destruct (src_run g os k) as [v|]; [eauto | contradiction].
  Qed.

  (* order independence of any list of records with distinct keys that declare their refs *)
  Theorem records_confluent : forall rs o1 o2,
    NoDup (map r_key rs) -> (forall r, In r rs -> incl (rec_refs r) (r_deps r)) ->
    rtopological (rec_graph rs) o1 -> rtopological (rec_graph rs) o2 ->
    forall x, rec_run rs o1 x = rec_run rs o2 x.
  Proof.
    intros rs o1 o2 Hnd Hd T1 T2.
    apply (grun_confluent rkey_eqb rkey_eqb_eq (find_rec rs) r_deps rec_eval);
      [apply rec_topo; assumption | apply rec_topo; assumption | exact (rec_gext rs Hd)].
  Qed.

  Theorem rec_run_confluent : forall g o1 o2,
    NoDup (map fst g) -> data_ok g = true ->
    rtopological (rec_graph (flatten kle g)) o1 -> rtopological (rec_graph (flatten kle g)) o2 ->
    forall x, rec_run (flatten kle g) o1 x = rec_run (flatten kle g) o2 x.
  Proof.
    intros g o1 o2 Hnd Hdok. apply records_confluent;
      [apply flatten_keys_unique; exact Hnd | exact (flatten_refs_declared g Hdok)].
  Qed.
End SemFacts.

(** * dask's reading of raw containers agrees with the traversing one on `raw_ok` graphs *)

Lemma raw_lit_ASeq : forall s l, raw_lit (ASeq s l) = seq_is_raw s && raw_lit_list l.
Proof. reflexivity. Qed.
Lemma raw_lit_ADict : forall l, raw_lit (ADict l) = raw_lit_kw l.
Proof. reflexivity. Qed.
Lemma raw_ok_ASeq : forall s l,
  raw_ok_arg (ASeq s l) = if seq_is_raw s then raw_lit_list l else raw_ok_list l.
Proof. reflexivity. Qed.
Lemma raw_ok_ATask : forall f a k, raw_ok_arg (ATask f a k) = raw_ok_list a && raw_ok_kw k.
Proof. reflexivity. Qed.

Section DaskSem.
  Variable V : Type.
  Variable apply : tag -> list V -> list (tag * V) -> V.
  Variable vlit : tag -> V.
  Variable vlist vtuple : list V -> V.
  Variable vdict : list (tag * V) -> V.
  Variable vquote : arg -> V.

  Notation aeval := (aeval V apply vlit vlist vtuple vdict).
  Notation aeval_list := (aeval_list V apply vlit vlist vtuple vdict).
  Notation aeval_kw := (aeval_kw V apply vlit vlist vtuple vdict).
  Notation neval := (neval V apply vlit vlist vtuple vdict).
  Notation src_run := (src_run V apply vlit vlist vtuple vdict).
  Notation rawval := (rawval V vlit vlist vtuple vdict vquote).
  Notation aeval_dask := (aeval_dask V apply vlit vlist vtuple vdict vquote).
  Notation aeval_dask_list := (aeval_dask_list V apply vlit vlist vtuple vdict vquote).
  Notation aeval_dask_kw := (aeval_dask_kw V apply vlit vlist vtuple vdict vquote).
  Notation neval_dask := (neval_dask V apply vlit vlist vtuple vdict vquote).
  Notation src_run_dask := (src_run_dask V apply vlit vlist vtuple vdict vquote).

  Lemma rawval_ASeq : forall s l, seq_is_raw s = true ->
    rawval (ASeq s l) = (if seq_is_list s then vlist else vtuple) (map rawval l).
  Proof. intros s l H. cbn. rewrite H. reflexivity. Qed.
  Lemma rawval_ADict : forall l, rawval (ADict l) = vdict (map (fun kv => (fst kv, rawval (snd kv))) l).
  Proof.
    intro l. cbn. f_equal; induction l as [|[k x] r IH]; cbn; try rewrite IH; reflexivity.
  Qed.

  (* a raw literal structure evaluates, by traversal, to itself *)
  Lemma raw_lit_eval :
    (forall a, raw_lit a = true -> forall s, aeval s a = Some (rawval a)) /\
    (forall l, raw_lit_list l = true -> forall s, aeval_list s l = Some (map rawval l)) /\
    (forall l, raw_lit_kw l = true ->
               forall s, aeval_kw s l = Some (map (fun kv => (fst kv, rawval (snd kv))) l)).
  Proof.
    apply arg_mutind; try discriminate; try reflexivity.
    - intros sk items IH H s. apply andb_true_iff in H as [Hr Hl].
      rewrite (aeval_ASeq V apply vlit vlist vtuple vdict), (rawval_ASeq _ _ Hr), (IH Hl s). reflexivity.
    - intros items IH H s.
      rewrite (aeval_ADict V apply vlit vlist vtuple vdict), rawval_ADict, (IH H s). reflexivity.
    - intros x r Hx Hr H s. apply andb_true_iff in H as [H1 H2].
      cbn. rewrite (Hx H1 s), (Hr H2 s). reflexivity.
    - intros k x r Hx Hr H s. apply andb_true_iff in H as [H1 H2].
      cbn. rewrite (Hx H1 s), (Hr H2 s). reflexivity.
  Qed.

  Lemma aeval_dask_al : forall s l,
    (fix al (l : list arg) : option (list V) :=
       match l with
       | [] => Some []
       | x :: r => match aeval_dask s x, al r with Some v, Some vs => Some (v :: vs) | _, _ => None end
       end) l = aeval_dask_list s l.
  Proof. intros s l. induction l as [|x r IH]; [reflexivity|]. cbn. rewrite IH. reflexivity. Qed.
  Lemma aeval_dask_ak : forall s l,
    (fix ak (l : list (tag * arg)) : option (list (tag * V)) :=
       match l with
       | [] => Some []
       | (k, x) :: r => match aeval_dask s x, ak r with Some v, Some vs => Some ((k, v) :: vs) | _, _ => None end
       end) l = aeval_dask_kw s l.
  Proof. intros s l. induction l as [|[k x] r IH]; [reflexivity|]. cbn. rewrite IH. reflexivity. Qed.

  Theorem aeval_dask_eq :
    (forall a, raw_ok_arg a = true -> forall s, aeval_dask s a = aeval s a) /\
    (forall l, raw_ok_list l = true -> forall s, aeval_dask_list s l = aeval_list s l) /\
    (forall l, raw_ok_kw l = true -> forall s, aeval_dask_kw s l = aeval_kw s l).
  Proof.
    apply arg_mutind; try reflexivity.
    - intros sk items IH H s. rewrite raw_ok_ASeq in H. cbn [Records.aeval_dask].
      destruct (seq_is_raw sk) eqn:Er.
      + symmetry. apply (proj1 raw_lit_eval). rewrite raw_lit_ASeq, Er. exact H.
      + rewrite (aeval_ASeq V apply vlit vlist vtuple vdict), aeval_dask_al, (IH H s). reflexivity.
    - intros f args kwargs IHa IHk H s. apply andb_true_iff in H as [H1 H2].
      rewrite (aeval_ATask V apply vlit vlist vtuple vdict). cbn [Records.aeval_dask].
      rewrite aeval_dask_al, aeval_dask_ak, (IHa H1 s), (IHk H2 s). reflexivity.
    - intros items _ H s. symmetry. exact (proj1 raw_lit_eval (ADict items) H s).
    - intros x r Hx Hr H s. apply andb_true_iff in H as [H1 H2].
      cbn. rewrite (Hx H1 s), (Hr H2 s). reflexivity.
    - intros k x r Hx Hr H s. apply andb_true_iff in H as [H1 H2].
      cbn. rewrite (Hx H1 s), (Hr H2 s). reflexivity.
  Qed.

  Lemma neval_dask_eq : forall nd, raw_ok_node nd = true -> forall s, neval_dask s nd = neval s nd.
  Proof.
    destruct aeval_dask_eq as (_ & Dl & Dk). intros [t|v|b items|f args kwargs|] H s; try reflexivity; cbn in *.
    - rewrite (Dl items H s). reflexivity.
    - apply andb_true_iff in H as [H1 H2]. rewrite (Dl args H1 s), (Dk kwargs H2 s). reflexivity.
  Qed.

  Theorem src_run_dask_eq : forall g o, raw_ok g = true -> forall k, src_run_dask g o k = src_run g o k.
  Proof.
    intros g o H k. unfold Records.src_run_dask, Records.src_run.
    assert (Hstep : forall s k0, src_step_dask V apply vlit vlist vtuple vdict vquote g s k0
                               = src_step V apply vlit vlist vtuple vdict g s k0).
    { intros s k0. unfold src_step_dask, src_step. destruct (find_node g k0) as [nd|] eqn:E; [|reflexivity].
      apply find_node_In in E. unfold raw_ok in H. rewrite forallb_forall in H.
      rewrite (neval_dask_eq nd (H (k0, nd) E) s). reflexivity. }
    generalize (fun _ : key => @None V). induction o as [|x t IH]; intro s0; cbn; [reflexivity|].
    rewrite Hstep. apply IH.
  Qed.
End DaskSem.

(* C21_flatten_sound against dask's own reading of raw containers *)
Section DaskSound.
  Variable V : Type.
  Variable apply : tag -> list V -> list (tag * V) -> V.
  Variable vlit : tag -> V.
  Variable vlist vtuple : list V -> V.
  Variable vdict : list (tag * V) -> V.
  Variable vquote : arg -> V.
  Hypothesis apply_ident : forall v, apply ident_fn [v] [] = v.

  Theorem flatten_sound_dask : forall kle g os ot,
    NoDup (map fst g) -> supported g = true -> data_ok g = true -> raw_ok g = true ->
    topological (src_graph g) os ->
    rtopological (rec_graph (flatten kle g)) ot ->
    forall k, In k (map fst g) ->
      rec_run V apply vlit vlist vtuple vdict (flatten kle g) ot (KG k)
      = src_run_dask V apply vlit vlist vtuple vdict vquote g os k /\
      exists v, src_run_dask V apply vlit vlist vtuple vdict vquote g os k = Some v.
  Proof.
    intros kle g os ot H1 H2 H3 Hraw H4 H5 k Hk.
    rewrite (src_run_dask_eq V apply vlit vlist vtuple vdict vquote g os Hraw k).
    exact (flatten_sound V apply vlit vlist vtuple vdict apply_ident kle g os ot H1 H2 H3 H4 H5 k Hk).
  Qed.
End DaskSound.

(** * _walk_records with a shared `seen` set *)

Section WalkFacts.
  Variable d : dag.

  (* names reachable from the roots through `dependencies()` *)
  Inductive reach (roots : list positive) : positive -> Prop :=
  | reach_root : forall r, In r roots -> reach roots r
  | reach_step : forall a b, reach roots a -> In b (deps_of d a) -> reach roots b.

  Lemma reach_trans : forall roots roots' x,
    (forall r, In r roots' -> reach roots r) -> reach roots' x -> reach roots x.
  Proof.
    intros roots roots' x H R. induction R as [r Hr|a b Ra IH Hb]; [exact (H r Hr)|].
    exact (reach_step roots a b IH Hb).
  Qed.

  Lemma reach_incl : forall roots roots' x, incl roots' roots -> reach roots' x -> reach roots x.
  Proof. intros roots roots' x H. apply reach_trans. intros r Hr. apply reach_root. exact (H r Hr). Qed.

  (* a set of names closed under `dependencies()` *)
  Definition closed_set (S : list positive) : Prop := forall x y, In x S -> In y (deps_of d x) -> In y S.

  Lemma closed_reach : forall S roots, closed_set S -> incl roots S -> forall x, reach roots x -> In x S.
  Proof.
    intros S roots Hc Hr x R. induction R as [r H|a b Ra IH Hb]; [exact (Hr r H) | exact (Hc a b IH Hb)].
  Qed.

  (* what a walk from `roots` that started with `seen` has done when it returns seen' and has
     emitted em: the new names, each once, all reachable; the roots and the dependencies of
     every new name are seen *)
  Record walked (roots seen seen' em : list positive) : Prop := {
    wk_seen : seen' = rev em ++ seen;
    wk_nodup : NoDup em;
    wk_new : forall x, In x em -> ~ In x seen;
    wk_reach : forall x, In x em -> reach roots x;
    wk_roots : incl roots seen';
    wk_deps : forall x y, In x em -> In y (deps_of d x) -> In y seen' }.

  Lemma walked_nil : forall seen, walked [] seen seen [].
  Proof.
    intro seen. constructor; [reflexivity | constructor | intros x [] .. | intros x y []].
  Qed.

  (* the top of the stack is new: it is emitted and its dependencies are pushed *)
  Lemma walked_visit : forall e rest seen seen' new,
    ~ In e seen -> walked (rev (deps_of d e) ++ rest) (e :: seen) seen' new ->
    walked (e :: rest) seen seen' (e :: new).
  Proof.
    intros e rest seen seen' new He [E Hnd Hns Hr Hi Hc]. constructor.
    - rewrite E. cbn. rewrite <- app_assoc. reflexivity.
    - constructor; [intro Hin; apply (Hns e Hin); left; reflexivity | exact Hnd].
    - intros x [Ex|Hx]; [subst; exact He | intro Hs; apply (Hns x Hx); right; exact Hs].
    - intros x [Ex|Hx]; [subst; apply reach_root; left; reflexivity|].
      apply (reach_trans _ (rev (deps_of d e) ++ rest)); [|exact (Hr x Hx)].
      intros r Hin. apply in_app_or in Hin as [Hin|Hin].
      + apply in_rev in Hin. apply (reach_step _ e); [apply reach_root; left; reflexivity | exact Hin].
      + apply reach_root. right; exact Hin.
    - intros x [Ex|Hx]; [|apply Hi, in_or_app; right; exact Hx].
      subst x. rewrite E. apply in_or_app. right. left; reflexivity.
    - intros x y [Ex|Hx] Hy; [|exact (Hc x y Hx Hy)].
      subst x. apply Hi. apply in_or_app. left. apply in_rev in Hy. exact Hy.
  Qed.

  (* other roots: none lost, and each new one is an old one or was seen before *)
  Lemma walked_roots : forall roots roots' seen seen' em,
    incl roots roots' -> (forall x, In x roots' -> In x roots \/ In x seen) ->
    walked roots seen seen' em -> walked roots' seen seen' em.
  Proof.
    intros roots roots' seen seen' em H H' [E Hnd Hns Hr Hi Hc]. constructor; try assumption.
    - intros x Hx. exact (reach_incl _ roots x H (Hr x Hx)).
    - intros x Hx. destruct (H' x Hx) as [Hx'|Hx']; [exact (Hi x Hx')|].
      rewrite E. apply in_or_app. right; exact Hx'.
  Qed.

  (* two walks one after the other, the second starting with what the first has seen *)
  Lemma walked_app : forall r1 r2 seen s1 s2 e1 e2,
    walked r1 seen s1 e1 -> walked r2 s1 s2 e2 -> walked (r1 ++ r2) seen s2 (e1 ++ e2).
  Proof.
    intros r1 r2 seen s1 s2 e1 e2 [E1 Hnd1 Hns1 Hr1 Hi1 Hc1] [E2 Hnd2 Hns2 Hr2 Hi2 Hc2].
    assert (Hs1 : forall x, In x e1 \/ In x seen -> In x s1).
    { intro x. rewrite E1, in_app_iff, <- in_rev. tauto. }
    assert (Hs2 : forall x, In x s1 -> In x s2).
    { intros x Hx. rewrite E2. apply in_or_app. right; exact Hx. }
    constructor.
    - rewrite E2, E1, rev_app_distr, app_assoc. reflexivity.
    - apply NoDup_app_intro; [exact Hnd1 | exact Hnd2 |].
      intros z Hz1 Hz2. apply (Hns2 z Hz2), Hs1. left; exact Hz1.
    - intros x Hx Hs. apply in_app_or in Hx as [Hx|Hx]; [exact (Hns1 x Hx Hs)|].
      apply (Hns2 x Hx), Hs1. right; exact Hs.
    - intros x Hx. apply in_app_or in Hx as [Hx|Hx].
      + apply (reach_incl _ r1); [apply incl_appl, incl_refl | exact (Hr1 x Hx)].
      + apply (reach_incl _ r2); [apply incl_appr, incl_refl | exact (Hr2 x Hx)].
    - intros x Hx. apply in_app_or in Hx as [Hx|Hx]; [exact (Hs2 x (Hi1 x Hx)) | exact (Hi2 x Hx)].
    - intros x y Hx Hy. apply in_app_or in Hx as [Hx|Hx]; [exact (Hs2 y (Hc1 x y Hx Hy)) | exact (Hc2 x y Hx Hy)].
  Qed.

  Lemma walked_closed : forall roots seen seen' em,
    walked roots seen seen' em -> closed_set seen -> closed_set seen'.
  Proof.
    intros roots seen seen' em [E _ _ _ _ Hc] Hcl x y Hx Hy.
    rewrite E in Hx. apply in_app_or in Hx as [Hx|Hx].
    - apply in_rev in Hx. exact (Hc x y Hx Hy).
    - rewrite E. apply in_or_app. right. exact (Hcl x y Hx Hy).
  Qed.

  (* from a closed `seen`, exactly the reachable names that were not seen are emitted *)
  Theorem walked_exact : forall roots seen seen' em,
    walked roots seen seen' em -> closed_set seen ->
    forall x, In x em <-> reach roots x /\ ~ In x seen.
  Proof.
    intros roots seen seen' em W Hcl x. pose proof (walked_closed _ _ _ _ W Hcl) as Hcl'.
    destruct W as [E _ Hns Hr Hi _]. split.
    - intro Hx. split; [exact (Hr x Hx) | exact (Hns x Hx)].
    - intros [R Hn]. pose proof (closed_reach seen' roots Hcl' Hi x R) as Hin.
      rewrite E in Hin. apply in_app_or in Hin as [Hin|Hin]; [apply in_rev; exact Hin | contradiction].
  Qed.

  (* with a fresh `seen`: each reachable layer exactly once *)
  Corollary walked_fresh : forall roots seen' em,
    walked roots [] seen' em -> NoDup em /\ (forall x, In x em <-> reach roots x).
  Proof.
    intros roots seen' em W. split; [exact (wk_nodup _ _ _ _ W)|]. intro x.
    assert (Hc : closed_set []) by (intros a b []).
    rewrite (walked_exact _ _ _ _ W Hc). cbn. tauto.
  Qed.

  Lemma walk_loop_spec : forall fuel stack seen em seen' em',
    walk_loop fuel d stack seen em = Some (seen', em') ->
    exists new, em' = em ++ new /\ walked stack seen seen' new.
  Proof.
    induction fuel as [|f IH]; intros [|e rest] seen em seen' em' H; try discriminate H.
    1, 2: cbn in H; inversion H; subst; exists []; split; [symmetry; apply app_nil_r | apply walked_nil].
    cbn [walk_loop] in H. destruct (mem_b e seen) eqn:Em; apply IH in H; destruct H as (new & E & W).
    - exists new. split; [exact E|]. apply mem_b_In in Em. revert W. apply walked_roots.
      + apply incl_tl, incl_refl.
      + intros x [Ex|Hx]; [right; subst x; exact Em | left; exact Hx].
    - exists (e :: new). split; [rewrite E, <- app_assoc; reflexivity|].
      apply walked_visit; [|exact W]. intro Hin. apply mem_b_In in Hin. congruence.
  Qed.

  (* the fuel of `walk` always suffices: the stack length plus the number of dependency
     entries of the layers not yet seen decreases at every step *)
  Definition wgt (seen : list positive) (ln : lnode) : nat :=
    if mem_b (ln_name ln) seen then 0 else length (ln_deps ln).
  Fixpoint phi (l : dag) (seen : list positive) : nat :=
    match l with [] => 0 | ln :: t => wgt seen ln + phi t seen end.

  Lemma wgt_cons : forall e seen ln,
    wgt (e :: seen) ln = if Pos.eqb (ln_name ln) e then 0 else wgt seen ln.
  Proof. intros e seen ln. unfold wgt. cbn [mem_b]. destruct (Pos.eqb (ln_name ln) e); reflexivity. Qed.

  Lemma phi_le_total : forall l seen, phi l seen <= total_deps l.
  Proof.
    intros l seen. unfold total_deps. induction l as [|ln t IH]; cbn [phi fold_right]; [lia|].
    unfold wgt. destruct (mem_b (ln_name ln) seen); lia.
  Qed.

  Lemma phi_mono : forall l e seen, phi l (e :: seen) <= phi l seen.
  Proof.
    induction l as [|ln t IH]; intros e seen; cbn [phi]; [lia|].
    rewrite wgt_cons. pose proof (IH e seen). destruct (Pos.eqb (ln_name ln) e); lia.
  Qed.

  Lemma phi_step : forall l e seen, mem_b e seen = false ->
    phi l (e :: seen) + length (deps_of l e) <= phi l seen.
  Proof.
    intros l e seen Hm. unfold deps_of. induction l as [|ln t IH]; cbn [phi find_layer]; [cbn; lia|].
    rewrite wgt_cons. destruct (Pos.eqb (ln_name ln) e) eqn:E.
    - apply Pos.eqb_eq in E. unfold wgt. rewrite E, Hm. pose proof (phi_mono t e seen). lia.
    - lia.
  Qed.

  Lemma walk_loop_fuel : forall fuel stack seen em,
    length stack + phi d seen < fuel -> walk_loop fuel d stack seen em <> None.
  Proof.
    induction fuel as [|f IH]; intros stack seen em Hlt; [lia|].
    destruct stack as [|e rest]; [discriminate|]. cbn [walk_loop]. cbn [length] in Hlt.
    destruct (mem_b e seen) eqn:Em; apply IH; [lia|].
    pose proof (phi_step d e seen Em). rewrite app_length, rev_length. unfold key in *. lia.
  Qed.

  Theorem walk_total : forall roots seen, exists r, walk d roots seen = Some r.
  Proof.
    intros roots seen. unfold walk.
    destruct (walk_loop (walk_fuel d (rev roots)) d (rev roots) seen []) as [r|] eqn:E; [eauto|].
    exfalso. revert E. apply walk_loop_fuel. unfold walk_fuel. pose proof (phi_le_total d seen). lia.
  Qed.

  Theorem walk_spec : forall roots seen seen' em,
    walk d roots seen = Some (seen', em) -> walked roots seen seen' em.
  Proof.
    intros roots seen seen' em H. apply walk_loop_spec in H as (new & E & W).
    cbn in E. subst new. revert W.
    apply walked_roots; intros x Hx; [apply in_rev | left; apply in_rev in Hx]; exact Hx.
  Qed.

  (* several roots, one shared `seen` (the names only) *)
  Fixpoint walk_shared (roots seen : list positive) : option (list positive * list positive) :=
    match roots with
    | [] => Some (seen, [])
    | r :: t =>
      match walk d [r] seen with
      | None => None
      | Some (s1, e1) =>
        match walk_shared t s1 with
        | None => None
        | Some (s2, e2) => Some (s2, e1 ++ e2)
        end
      end
    end.

  (* ... does what one walk over all the roots does *)
  Theorem walk_shared_spec : forall roots seen seen' em,
    walk_shared roots seen = Some (seen', em) -> walked roots seen seen' em.
  Proof.
    induction roots as [|r t IH]; intros seen seen' em H.
    - inversion H; subst. apply walked_nil.
    - cbn [walk_shared] in H. destruct (walk d [r] seen) as [[s1 e1]|] eqn:W; [|discriminate].
      destruct (walk_shared t s1) as [[s2 e2]|] eqn:W2; [|discriminate]. inversion H; subst.
      exact (walked_app [r] t _ _ _ _ _ (walk_spec _ _ _ _ W) (IH _ _ _ W2)).
  Qed.
End WalkFacts.

(** * collect_task_records: one collection, and several with a shared `seen` *)

Section CollectFacts.
  Variable kle : rkey -> rkey -> bool.
  Variable d : dag.

  Lemma flatten_flat_map : forall A (f : A -> sgraph) l,
    flatten kle (flat_map f l) = flat_map (fun x => flatten kle (f x)) l.
  Proof.
    intros A f l. unfold flatten. induction l as [|x t IH]; cbn; [reflexivity|].
    rewrite flat_map_app, IH. reflexivity.
  Qed.

  Lemma supported_flat_map : forall A (f : A -> sgraph) l,
    supported (flat_map f l) = forallb (fun x => supported (f x)) l.
  Proof.
    intros A f l. unfold supported. induction l as [|x t IH]; cbn; [reflexivity|].
    rewrite forallb_app, IH. reflexivity.
  Qed.

  (* the combined source graph of the emitted layers *)
  Definition combined (em : list positive) : sgraph := flat_map (graph_of d) em.

  Lemma emitted_records_spec : forall em,
    emitted_records kle d em =
    if supported (combined em) then Some (flatten kle (combined em)) else None.
  Proof.
    intro em. unfold emitted_records, combined, layer_records.
    rewrite supported_flat_map, flatten_flat_map. reflexivity.
  Qed.

  (* ONE collection, fresh `seen`, completeness checked *)
  Theorem collect_single_spec : forall root,
    exists seen' em,
      walk d [root] [] = Some (seen', em) /\
      NoDup em /\ (forall nm, In nm em <-> reach d [root] nm) /\
      collect kle d root None =
      (if supported (combined em) && check_complete (flatten kle (combined em))
       then Some (seen', flatten kle (combined em)) else None).
  Proof.
    intro root. destruct (walk_total d [root] []) as [[seen' em] W].
    exists seen', em. split; [exact W|].
    destruct (walked_fresh d _ _ _ (walk_spec d _ _ _ _ W)) as [Hnd Hiff]. split; [exact Hnd|]. split; [exact Hiff|].
    unfold collect. rewrite W, emitted_records_spec.
    destruct (supported (combined em)); cbn; [|reflexivity].
    destruct (check_complete (flatten kle (combined em))); reflexivity.
  Qed.

  (* SEVERAL collections, one shared `seen`: the records are those of the layers that
     walk_shared emits *)
  Lemma collect_shared_walk : forall roots seen seen' rs,
    collect_shared kle d roots seen = Some (seen', rs) ->
    exists em, walk_shared d roots seen = Some (seen', em) /\
               supported (combined em) = true /\ rs = flatten kle (combined em).
  Proof.
    induction roots as [|r t IH]; intros seen seen' rs H.
    - cbn in H. inversion H; subst. exists []. cbn. auto.
    - cbn [collect_shared] in H. unfold collect in H. cbn [walk_shared].
      destruct (walk d [r] seen) as [[s1 e1]|] eqn:W; [|discriminate].
      rewrite emitted_records_spec in H. destruct (supported (combined e1)) eqn:S1; [|discriminate].
      cbn [orb] in H.
      destruct (collect_shared kle d t s1) as [[s2 rs2]|] eqn:C; [|discriminate]. inversion H; subst.
      destruct (IH _ _ _ C) as (e2 & W2 & S2 & E2). rewrite W2. exists (e1 ++ e2).
      split; [reflexivity|]. unfold combined in *. rewrite flat_map_app.
      split.
      + unfold supported in *. rewrite forallb_app, S1, S2. reflexivity.
      + unfold flatten in *. rewrite flat_map_app, E2. reflexivity.
  Qed.

  Theorem collect_shared_spec : forall roots seen' rs,
    collect_shared kle d roots [] = Some (seen', rs) ->
    exists em,
      (* each layer reachable from some root is emitted exactly once *)
      NoDup em /\ (forall nm, In nm em <-> reach d roots nm) /\
      (* the union of the records is the translation of the combined source graph ... *)
      rs = flatten kle (combined em) /\ supported (combined em) = true /\
      (* ... the same records, as a set, as walking all the roots in one go *)
      (forall seen1 em1, walk d roots [] = Some (seen1, em1) ->
         forall r, In r rs <-> In r (flatten kle (combined em1))) /\
      (* hence complete exactly when the combined source graph is closed *)
      (no_self_alias (combined em) -> (check_complete rs = true <-> closed (src_graph (combined em)))).
  Proof.
    intros roots seen' rs H. destruct (collect_shared_walk _ _ _ _ H) as (em & W & S & E).
    destruct (walked_fresh d _ _ _ (walk_shared_spec d _ _ _ _ W)) as (Hnd & Hiff).
    exists em. split; [exact Hnd|]. split; [exact Hiff|]. split; [exact E|]. split; [exact S|]. split.
    - intros seen1 em1 W1 r. destruct (walked_fresh d _ _ _ (walk_spec d _ _ _ _ W1)) as [_ Hiff1].
      rewrite E. unfold combined. rewrite !flatten_flat_map, !in_flat_map.
      split; intros [nm [Hn Hr]]; exists nm; (split; [|exact Hr]).
      + apply Hiff1. apply Hiff. exact Hn.
      + apply Hiff. apply Hiff1. exact Hn.
    - intro Hs. rewrite E. apply check_complete_closed; assumption.
  Qed.

  (* the shared walk never runs out of fuel: it declines only when a reachable layer is not
     translatable *)
  Theorem collect_shared_total : forall roots seen,
    (forall nm, reach d roots nm -> supported (graph_of d nm) = true) ->
    exists res, collect_shared kle d roots seen = Some res.
  Proof.
    induction roots as [|r t IH]; intros seen Hsup; [cbn; eauto|].
    cbn [collect_shared]. unfold collect.
    destruct (walk_total d [r] seen) as [[s1 e1] W]. rewrite W.
    pose proof (wk_reach d _ _ _ _ (walk_spec d _ _ _ _ W)) as Hr.
    unfold emitted_records.
    assert (S1 : forallb (fun nm => supported (graph_of d nm)) e1 = true).
    { apply forallb_forall. intros nm Hn. apply Hsup.
      apply (reach_incl d _ [r]); [intros y [E|[]]; subst; left; reflexivity | exact (Hr nm Hn)]. }
    rewrite S1. cbn [orb].
    destruct (IH s1) as [[s2 rs2] C].
    { intros nm R. apply Hsup. apply (reach_incl d _ t); [intros y Hy; right; exact Hy | exact R]. }
    rewrite C. eauto.
  Qed.
End CollectFacts.
