(* C18 — _accept_slice_impl: the index mapping of a slice pushed through a reduction. *)
From DA Require Import PyBase PyBaseFacts TreeReduce TreeReduceFacts TreeReduceND.
Open Scope Z_scope.

(* the entries of l on the axes that are not reduced, in order; positions count from a *)
Definition kept_proj_from (a : Z) (reduced : list Z) (l : list idx) : list idx :=
  map snd (filter (fun ia => negb (zmem (fst ia) reduced)) (enumerate_from a l)).
Definition kept_proj := kept_proj_from 0.

(* number of kept axes among a, a+1, ..., a+n-1 *)
Fixpoint ckept (reduced : list Z) (a : Z) (n : nat) : nat :=
  match n with O => O | S n' => ((if zmem a reduced then 0 else 1) + ckept reduced (a + 1) n')%nat end.

Lemma enumerate_from_length {A} (l : list A) : forall a, length (enumerate_from a l) = length l.
Proof. induction l as [|x t IH]; intros a; cbn; [reflexivity|]. rewrite IH. reflexivity. Qed.

Lemma enumerate_from_nth {A} (l : list A) : forall a i d, (i < length l)%nat ->
  nth i (enumerate_from a l) (0, d) = (a + Z.of_nat i, nth i l d).
Proof.
  induction l as [|x t IH]; intros a i d H; [cbn in H; lia|].
  destruct i as [|i]; cbn [enumerate_from nth].
  - f_equal. lia.
  - rewrite IH by (cbn in H; lia). f_equal. lia.
Qed.

Lemma filter_range_ckept reduced n : forall a,
  length (filter (fun i => negb (zmem i reduced)) (map (fun i => a + Z.of_nat i) (seq 0 n))) = ckept reduced a n.
Proof.
  induction n as [|n IH]; intros a; [reflexivity|].
  cbn [seq map filter ckept]. rewrite <- seq_shift, map_map.
  rewrite (map_ext _ (fun i => (a + 1) + Z.of_nat i)) by (intros i; lia).
  replace (a + Z.of_nat 0) with a by lia.
  destruct (zmem a reduced); cbn [negb length Nat.add]; rewrite IH; reflexivity.
Qed.

Lemma out_ndim_ckept reduced n :
  length (filter (fun i => negb (zmem i reduced)) (zrange0 (Z.of_nat n))) = ckept reduced 0 n.
Proof.
  rewrite zrange0_seq, Nat2Z.id. rewrite <- (filter_range_ckept reduced n 0).
  reflexivity.
Qed.

(* the input index for keepdims=True *)
Definition input_index_keep (a : Z) (reduced : list Z) (slice_index : list idx) : list idx :=
  map (fun ai => if zmem (fst ai) reduced then icolon else snd ai) (enumerate_from a slice_index).

Lemma input_index_keep_length a reduced sl : length (input_index_keep a reduced sl) = length sl.
Proof. unfold input_index_keep. rewrite map_length, enumerate_from_length. reflexivity. Qed.

Lemma input_index_keep_reduced reduced sl : forall a i, (i < length sl)%nat ->
  zmem (a + Z.of_nat i) reduced = true -> nth i (input_index_keep a reduced sl) icolon = icolon.
Proof.
  induction sl as [|s t IH]; intros a i Hi Hm; [cbn in Hi; lia|].
  destruct i as [|i]; cbn [input_index_keep enumerate_from map nth fst snd].
  - replace (a + Z.of_nat 0) with a in Hm by lia. rewrite Hm. reflexivity.
  - apply (IH (a + 1) i); [cbn in Hi; lia|]. rewrite <- Hm. f_equal. lia.
Qed.

Lemma input_index_keep_kept reduced sl : forall a,
  kept_proj_from a reduced (input_index_keep a reduced sl) = kept_proj_from a reduced sl.
Proof.
  induction sl as [|s t IH]; intros a; [reflexivity|].
  unfold kept_proj_from, input_index_keep in *. cbn [enumerate_from map filter fst snd].
  destruct (zmem a reduced) eqn:E; cbn [negb map snd]; rewrite (IH (a + 1)); reflexivity.
Qed.

Lemma input_index_drop_length reduced n : forall a sl, length (input_index_drop a n reduced sl) = n.
Proof.
  induction n as [|n IH]; intros a sl; [reflexivity|]. cbn [input_index_drop].
  destruct (zmem a reduced); [cbn; rewrite IH; reflexivity|].
  destruct sl; cbn; rewrite IH; reflexivity.
Qed.

Lemma input_index_drop_reduced reduced n : forall a sl i, (i < n)%nat ->
  zmem (a + Z.of_nat i) reduced = true -> nth i (input_index_drop a n reduced sl) icolon = icolon.
Proof.
  induction n as [|n IH]; intros a sl i Hi Hm; [lia|]. cbn [input_index_drop].
  destruct i as [|i].
  - replace (a + Z.of_nat 0) with a in Hm by lia. rewrite Hm. reflexivity.
  - assert (zmem (a + 1 + Z.of_nat i) reduced = true) as Hm' by (rewrite <- Hm; f_equal; lia).
    destruct (zmem a reduced); [cbn [nth]; apply IH; [lia | assumption]|].
    destruct sl; cbn [nth]; apply IH; try lia; assumption.
Qed.

Lemma input_index_drop_kept reduced n : forall a sl, length sl = ckept reduced a n ->
  kept_proj_from a reduced (input_index_drop a n reduced sl) = sl.
Proof.
  induction n as [|n IH]; intros a sl Hlen.
  - cbn in *. destruct sl; [reflexivity | discriminate].
  - cbn [input_index_drop ckept] in *. unfold kept_proj_from in *.
    destruct (zmem a reduced) eqn:E.
    + cbn [enumerate_from filter fst]. rewrite E. cbn [negb]. apply IH. lia.
    + destruct sl as [|s rest]; [cbn in Hlen; lia|].
      cbn [enumerate_from filter fst]. rewrite E. cbn [negb map snd]. f_equal. apply IH. cbn in Hlen. lia.
Qed.

Definition full_index_of (index : list idx) (out_ndim : nat) : list idx :=
  index ++ repeat icolon (out_ndim - length index)%nat.

(* what a successful accept_slice returns, branch by branch *)
Lemma accept_slice_some index shape reduced keepdims input_index final :
  accept_slice index shape reduced keepdims = Some (input_index, final) ->
  let ndim := length shape in
  let out_ndim := if keepdims then ndim else ckept reduced 0 ndim in
  let full := full_index_of index out_ndim in
  let final_index :=
    if keepdims then map (fun ai => if zmem (fst ai) reduced then snd ai
                                    else if idx_is_int (snd ai) then IInt 0 else icolon) (enumerate full)
    else map (fun i => if idx_is_int i then IInt 0 else icolon) full in
  existsb idx_is_none index = false /\
  input_index = (if keepdims then input_index_keep 0 reduced (map int_to_slice full)
                 else input_index_drop 0 ndim reduced (map int_to_slice full)) /\
  forallb idx_is_colon input_index = false /\
  final = if existsb (fun i => negb (idx_is_colon i)) final_index then Some final_index else None.
Proof.
  unfold accept_slice. rewrite out_ndim_ckept. intros H.
  destruct (existsb idx_is_none index); [discriminate|].
  match type of H with (if ?c then _ else _) = _ => destruct c eqn:Ecolon; [discriminate|] end.
  match type of H with (if ?c then _ else _) = _ => destruct c; [discriminate|] end.
  injection H as <- <-. repeat split. exact Ecolon.
Qed.

(* the statement behind C18_slice_through_reduction *)
Theorem accept_slice_mapping index shape reduced keepdims input_index final :
  accept_slice index shape reduced keepdims = Some (input_index, final) ->
  let ndim := length shape in
  let out_ndim := if keepdims then ndim else ckept reduced 0 ndim in
  (length index <= out_ndim)%nat ->
  let slice_index := map int_to_slice (full_index_of index out_ndim) in
  (* never an index with None; the input index addresses every input axis *)
  existsb idx_is_none index = false /\
  length input_index = ndim /\
  (* reduced axes are never forwarded *)
  (forall ax, (ax < ndim)%nat -> zmem (Z.of_nat ax) reduced = true -> nth ax input_index icolon = icolon) /\
  (* kept axes map in order *)
  kept_proj reduced input_index = (if keepdims then kept_proj reduced slice_index else slice_index) /\
  (* something is pushed *)
  forallb idx_is_colon input_index = false.
Proof.
  intros H. destruct (accept_slice_some _ _ _ _ _ _ H) as (Hnone & -> & Hcolon & _). clear H.
  cbv zeta. intros Hlen.
  set (sl := map int_to_slice _) in *.
  assert (length sl = if keepdims then length shape else ckept reduced 0 (length shape)) as Hsl.
  { unfold sl, full_index_of. rewrite map_length, app_length, repeat_length. lia. }
  split; [assumption|]. destruct keepdims.
  - split; [rewrite input_index_keep_length; exact Hsl|].
    split; [|split; [apply input_index_keep_kept | assumption]].
    intros ax Hax Hm. apply input_index_keep_reduced; [rewrite Hsl|]; assumption.
  - split; [apply input_index_drop_length|].
    split; [|split; [apply input_index_drop_kept; exact Hsl | assumption]].
    intros ax Hax Hm. apply input_index_drop_reduced; assumption.
Qed.

Lemma sel_colon n : sel colon n = zrange0 n.
Proof. reflexivity. Qed.

Lemma sel_colon_identity (pos : list Z) :
  map (fun j => nthZ pos j) (sel colon (Z.of_nat (length pos))) = pos.
Proof. apply map_nth_zrange0. Qed.

Lemma zrange_one k b : k < b -> b <= k + 1 -> zrange k b 1 = [k].
Proof.
  intros H1 H2. unfold zrange.
  assert (range_len k b 1 = 1) as ->.
  { unfold range_len. change (1 >? 0) with true. cbv iota. replace (k <? b) with true by lia.
    rewrite Z.div_1_r. lia. }
  change (Z.to_nat 1) with 1%nat. cbn [seq map]. f_equal. lia.
Qed.

Lemma sel_int_slice k n : 0 <= k < n -> sel (mkslice (Some k) (Some (k + 1)) None) n = [k].
Proof.
  intros H. unfold sel, indices, step_of, adjust_endpoint. cbn [s_start s_stop s_step].
  replace (k <? 0) with false by lia. replace (k >=? n) with false by lia.
  replace (k + 1 <? 0) with false by lia. change (1 <? 0) with false. cbv iota.
  destruct (k + 1 >=? n) eqn:E; apply zrange_one; lia.
Qed.

Definition idx_in_range (i : idx) (n : Z) : Prop :=
  match i with IInt k => 0 <= k < n | ISlice _ => True | INone => False end.

(* what stays on the output: an integer became slice(i, i+1) on the input and [0] on the
   output; a slice is pushed whole and the output keeps [:].  Together they select what the
   original index selects. *)
Theorem int_slice_roundtrip (i : idx) (n : Z) : idx_in_range i n ->
  idx_sel_compose (int_to_slice i) (if idx_is_int i then IInt 0 else icolon) n = idx_sel i n.
Proof.
  destruct i as [|k|s]; cbn [idx_in_range]; intros H; [contradiction| |].
  - cbn [int_to_slice idx_is_int idx_sel_compose idx_sel].
    rewrite sel_int_slice by assumption.
    reflexivity.
  - cbn [int_to_slice idx_is_int idx_sel_compose idx_sel icolon].
    rewrite sel_colon_identity. reflexivity.
Qed.
