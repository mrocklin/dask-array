(* C08 — facts about the rewrite system of Rewrite.v: every step decreases [mu], rewrite sequences are bounded by [mu],
   the relation is well-founded, [applicable] decides reducibility, the strategy [simplify_model] only takes steps of
   the relation, always reaches a normal form with fuel [mu e], and is idempotent. *)
From Coq Require Import ZArith List Bool Lia Wf_nat.
From DA Require Import PyBase Slicing NdArray ExprRules ExprRulesFacts ExprRulesFacts2 Rewrite.
Import ListNotations.
Open Scope Z_scope.

(* The children of a node, and the node with other children.  [rstep] is a rule at the root or a step in one child, and
   [applicable], [simplify_pass], [all_steps] descend into the children in the same way, so every fact below is proved
   for a node and the list of its children, not constructor by constructor. *)
Definition kids (e : expr) : list expr :=
  match e with
  | ESlice x _ _ | ETranspose x _ | ERechunk x _ _ _ _ _ | EExpandDims x _ | EBroadcastTo x _ _ | ETasksRechunk x _ _ => [x]
  | EElemwise _ args => args
  | EConcat a _ rest | EStack a _ rest => a :: rest
  | _ => []
  end.

Definition rebuild (e : expr) (l : list expr) : expr :=
  match e with
  | ESlice x ix o => ESlice (hd x l) ix o
  | ETranspose x axes => ETranspose (hd x l) axes
  | ERechunk x s c p b pp => ERechunk (hd x l) s c p b pp
  | EExpandDims x axes => EExpandDims (hd x l) axes
  | EBroadcastTo x shp c => EBroadcastTo (hd x l) shp c
  | ETasksRechunk x c p => ETasksRechunk (hd x l) c p
  | EElemwise op _ => EElemwise op l
  | EConcat a axis _ => EConcat (hd a l) axis (tl l)
  | EStack a axis _ => EStack (hd a l) axis (tl l)
  | _ => e
  end.

Lemma rebuild_kids e : rebuild e (kids e) = e.
Proof. destruct e; reflexivity. Qed.

Lemma expr_kids_ind (P : expr -> Prop) : (forall e, Forall P (kids e) -> P e) -> forall e, P e.
Proof. intros H e. induction e using expr_ind'; apply H; cbn [kids]; repeat constructor; assumption. Qed.

Lemma applicable_kids e :
  applicable e = (match root_step e with Some _ => true | None => false end) || existsb applicable (kids e).
Proof. destruct e; cbn [applicable kids existsb]; rewrite ?orb_false_r; reflexivity. Qed.

Lemma simplify_pass_kids e :
  simplify_pass e = match root_step e with Some e' => e' | None => rebuild e (map simplify_pass (kids e)) end.
Proof. destruct e; reflexivity. Qed.

Lemma all_steps_kids e : all_steps e = root_steps simp_rules e ++ map (rebuild e) (list_steps all_steps (kids e)).
Proof. destruct e; cbn [all_steps kids list_steps map]; rewrite ?app_nil_r, ?map_app, ?map_map; reflexivity. Qed.

(* a step in one child is a step of the node *)
Lemma rstep_rebuild e l1 a b l2 :
  length (l1 ++ a :: l2) = length (kids e) -> rstep a b -> rstep (rebuild e (l1 ++ a :: l2)) (rebuild e (l1 ++ b :: l2)).
Proof.
  rewrite app_length. cbn [length]. rewrite Nat.add_succ_r. intros Hl Hs.
  destruct e; cbn [kids length] in Hl; try discriminate Hl.
  (* one child: l1 = [] *)
  all: try (destruct l1; [constructor; exact Hs | discriminate Hl]).
  - apply rs_elemwise. exact Hs.
  - destruct l1; [apply rs_concat_head | apply rs_concat_rest]; exact Hs.
  - destruct l1; [apply rs_stack_head | apply rs_stack_rest]; exact Hs.
Qed.

Lemma rstep_kid e l1 x x' l2 : kids e = l1 ++ x :: l2 -> rstep x x' -> rstep e (rebuild e (l1 ++ x' :: l2)).
Proof.
  intros Hk Hs. rewrite <- (rebuild_kids e) at 1. rewrite Hk. apply rstep_rebuild; [rewrite Hk; reflexivity | exact Hs].
Qed.

(* ... and there are no other steps *)
Lemma rstep_kids_ind (P : expr -> expr -> Prop) :
  (forall r e e', In r simp_rules -> r e = Some e' -> P e e') ->
  (forall e l1 x x' l2, kids e = l1 ++ x :: l2 -> rstep x x' -> P x x' -> P e (rebuild e (l1 ++ x' :: l2))) ->
  forall e e', rstep e e' -> P e e'.
Proof.
  intros Hroot Hkid e e' H.
  induction H as [r e e' Hin Hr | e e' ix o H IH | e e' axes H IH | e e' s c p b pp H IH | e e' axes H IH
                  | e e' shp c H IH | e e' c p H IH | op l1 e e' l2 H IH | e e' axis rest H IH
                  | a axis l1 e e' l2 H IH | e e' axis rest H IH | a axis l1 e e' l2 H IH].
  - exact (Hroot r e e' Hin Hr).
  - exact (Hkid (ESlice e ix o) [] e e' [] eq_refl H IH).
  - exact (Hkid (ETranspose e axes) [] e e' [] eq_refl H IH).
  - exact (Hkid (ERechunk e s c p b pp) [] e e' [] eq_refl H IH).
  - exact (Hkid (EExpandDims e axes) [] e e' [] eq_refl H IH).
  - exact (Hkid (EBroadcastTo e shp c) [] e e' [] eq_refl H IH).
  - exact (Hkid (ETasksRechunk e c p) [] e e' [] eq_refl H IH).
  - exact (Hkid (EElemwise op (l1 ++ e :: l2)) l1 e e' l2 eq_refl H IH).
  - exact (Hkid (EConcat e axis rest) [] e e' rest eq_refl H IH).
  - exact (Hkid (EConcat a axis (l1 ++ e :: l2)) (a :: l1) e e' l2 eq_refl H IH).
  - exact (Hkid (EStack e axis rest) [] e e' rest eq_refl H IH).
  - exact (Hkid (EStack a axis (l1 ++ e :: l2)) (a :: l1) e e' l2 eq_refl H IH).
Qed.

(* [mu] is strictly monotone in the children *)
Lemma mu_rebuild_lt e l :
  length l = length (kids e) -> (mu_sum l < mu_sum (kids e))%nat -> (mu (rebuild e l) < mu e)%nat.
Proof.
  destruct e; cbn [kids length mu_sum]; intros Hl Hs; try (destruct (Nat.nlt_0_r _ Hs)).
  all: try (destruct l as [|y [|z l]]; try discriminate Hl; cbn [rebuild hd mu mu_sum] in *; lia).
  - cbn [rebuild]. rewrite !mu_elemwise. lia.
  - destruct l as [|y l]; [discriminate Hl|]. cbn [rebuild hd tl]. rewrite !mu_concat. cbn [mu_sum length] in *. lia.
  - destruct l as [|y l]; [discriminate Hl|]. cbn [rebuild hd tl]. rewrite !mu_stack. cbn [mu_sum length] in *. lia.
Qed.

(* every rule of the system decreases the measure, hence every step does *)
Lemma simp_rules_mu : Forall (fun r => forall e e', r e = Some e' -> (mu e' < mu e)%nat) simp_rules.
Proof.
  repeat apply Forall_cons;
    [ exact rule_slice_identity_mu | exact rule_slice_slice_mu | exact rule_transpose_transpose_mu
    | exact rule_transpose_identity_mu | exact rule_rechunk_noop_mu
    | exact rule_slice_elemwise_mu | exact rule_slice_transpose_mu | exact rule_slice_arange_mu
    | exact rule_slice_expand_dims_mu | exact rule_slice_concat_mu | exact rule_slice_stack_mu | exact rule_slice_full_mu
    | exact rule_slice_broadcast_to_mu | exact rule_rechunk_rechunk_mu | exact rule_rechunk_elemwise_mu
    | exact rule_rechunk_fromarray_mu | exact rule_rechunk_expand_dims_mu | exact rule_rechunk_transpose_mu
    | apply Forall_nil ].
Qed.

Theorem rstep_mu e e' : rstep e e' -> (mu e' < mu e)%nat.
Proof.
  intros H. induction H as [r e e' Hin Hr | e l1 x x' l2 Hk _ IH] using rstep_kids_ind.
  - exact (proj1 (Forall_forall _ _) simp_rules_mu r Hin e e' Hr).
  - apply mu_rebuild_lt; rewrite Hk, ?app_length, ?mu_sum_app; cbn [length mu_sum]; [reflexivity | lia].
Qed.

Lemma rsteps_mu_le a b : rsteps a b -> (mu b <= mu a)%nat.
Proof.
  intros H. induction H as [e | e e1 e2 H1 _ IH]; [lia|]. pose proof (rstep_mu _ _ H1). lia.
Qed.

Lemma rsteps_mu_lt a b : rsteps a b -> a = b \/ (mu b < mu a)%nat.
Proof.
  intros H. destruct H as [e | e e1 e2 H1 H2]; [left; reflexivity|]. right.
  pose proof (rstep_mu _ _ H1). pose proof (rsteps_mu_le _ _ H2). lia.
Qed.

(* a rewrite sequence from e has fewer than mu e steps *)
Theorem chain_length_lt es : forall e, chain e es -> (S (length es) <= mu e)%nat.
Proof.
  induction es as [|x t IH]; intros e H; cbn [length].
  - apply mu_pos.
  - destruct H as [H1 H2]. specialize (IH x H2). pose proof (rstep_mu _ _ H1). lia.
Qed.

Theorem chain_length es e : chain e es -> (length es <= mu e)%nat.
Proof. intros H. pose proof (chain_length_lt es e H). lia. Qed.

Theorem rstep_well_founded : well_founded (fun a b => rstep b a).
Proof.
  apply (well_founded_lt_compat expr mu). intros x y H. apply rstep_mu. exact H.
Qed.

Theorem rstep_irreflexive e : ~ rstep e e.
Proof. intros H. pose proof (rstep_mu _ _ H). lia. Qed.

Lemma first_rule_some rs e e' : first_rule rs e = Some e' -> exists r, In r rs /\ r e = Some e'.
Proof.
  induction rs as [|r t IH]; cbn [first_rule]; [discriminate|].
  destruct (r e) as [y|] eqn:E.
  - intros H. injection H as <-. exists r. split; [left; reflexivity | exact E].
  - intros H. destruct (IH H) as [r' [Hin Hr]]. exists r'. split; [right; exact Hin | exact Hr].
Qed.

Lemma first_rule_none rs e : first_rule rs e = None -> forall r, In r rs -> r e = None.
Proof.
  induction rs as [|r t IH]; cbn [first_rule]; intros H r' Hin; [destruct Hin|].
  destruct (r e) as [y|] eqn:E; [discriminate|].
  destruct Hin as [<-|Hin]; [exact E | exact (IH H r' Hin)].
Qed.

Lemma root_step_rstep e e' : root_step e = Some e' -> rstep e e'.
Proof.
  intros H. destruct (first_rule_some _ _ _ H) as [r [Hin Hr]]. exact (rs_root r e e' Hin Hr).
Qed.

Lemma root_rule_root_step r e e' : In r simp_rules -> r e = Some e' -> exists e'', root_step e = Some e''.
Proof.
  intros Hin Hr. destruct (root_step e) as [y|] eqn:E; [exists y; reflexivity|].
  unfold root_step in E. rewrite (first_rule_none _ _ E r Hin) in Hr. discriminate.
Qed.

(* [applicable] decides reducibility *)
Lemma rstep_applicable e e' : rstep e e' -> applicable e = true.
Proof.
  intros H. induction H as [r e e' Hin Hr | e l1 x x' l2 Hk _ IH] using rstep_kids_ind; rewrite applicable_kids.
  - destruct (root_rule_root_step r e e' Hin Hr) as [y Hy]. rewrite Hy. reflexivity.
  - rewrite Hk, existsb_app. cbn [existsb]. rewrite IH, !orb_true_r. reflexivity.
Qed.

Lemma existsb_applicable_step (l : list expr) :
  Forall (fun x => applicable x = true -> exists x', rstep x x') l ->
  existsb applicable l = true -> exists l1 x x' l2, l = l1 ++ x :: l2 /\ rstep x x'.
Proof.
  intros HF H. apply existsb_exists in H. destruct H as [x [Hin Hx]].
  rewrite Forall_forall in HF. destruct (HF x Hin Hx) as [x' Hs].
  destruct (in_split _ _ Hin) as [l1 [l2 ->]]. exists l1, x, x', l2. split; [reflexivity | exact Hs].
Qed.

Lemma applicable_rstep e : applicable e = true -> exists e', rstep e e'.
Proof.
  induction e as [e IH] using expr_kids_ind. rewrite applicable_kids. intros H.
  apply orb_true_iff in H. destruct H as [H|H].
  - destruct (root_step e) as [y|] eqn:E; [exists y; apply root_step_rstep; exact E | discriminate].
  - destruct (existsb_applicable_step (kids e) IH H) as (l1 & x & x' & l2 & Hk & Hs).
    exists (rebuild e (l1 ++ x' :: l2)). exact (rstep_kid e l1 x x' l2 Hk Hs).
Qed.

Theorem applicable_iff e : applicable e = true <-> exists e', rstep e e'.
Proof.
  split; [apply applicable_rstep|]. intros [e' H]. exact (rstep_applicable e e' H).
Qed.

Theorem applicable_false_normal e : applicable e = false <-> normal e.
Proof.
  split.
  - intros H e' Hs. rewrite (rstep_applicable e e' Hs) in H. discriminate.
  - intros H. destruct (applicable e) eqn:E; [|reflexivity].
    destruct (applicable_rstep e E) as [e' Hs]. destruct (H e' Hs).
Qed.

(* the sweep only takes steps of the relation *)
Lemma rsteps_trans a b c : rsteps a b -> rsteps b c -> rsteps a c.
Proof.
  intros H. induction H as [e | e e1 e2 H1 _ IH]; intros H2; [exact H2|].
  exact (rss_step e e1 c H1 (IH H2)).
Qed.

Lemma rsteps_ctx (C : expr -> expr) :
  (forall a b, rstep a b -> rstep (C a) (C b)) -> forall a b, rsteps a b -> rsteps (C a) (C b).
Proof.
  intros HC a b H. induction H as [e | e e1 e2 H1 _ IH]; [apply rss_refl|].
  exact (rss_step _ _ _ (HC _ _ H1) IH).
Qed.

(* rewriting every child, one after the other *)
Lemma rsteps_rebuild e (f : expr -> expr) l : Forall (fun x => rsteps x (f x)) l ->
  forall l1, length (l1 ++ l) = length (kids e) -> rsteps (rebuild e (l1 ++ l)) (rebuild e (l1 ++ map f l)).
Proof.
  intros HF. induction HF as [|x t Hx _ IH]; intros l1 Hl; cbn [map]; [apply rss_refl|].
  apply rsteps_trans with (b := rebuild e (l1 ++ f x :: t)).
  - apply (rsteps_ctx (fun a => rebuild e (l1 ++ a :: t))); [|exact Hx].
    intros a b Hab. apply rstep_rebuild; [|exact Hab]. rewrite app_length in Hl |- *. exact Hl.
  - specialize (IH (l1 ++ [f x])). rewrite <- !app_assoc in IH. apply IH.
    rewrite !app_length in Hl |- *. exact Hl.
Qed.

Theorem simplify_pass_rsteps e : rsteps e (simplify_pass e).
Proof.
  induction e as [e IH] using expr_kids_ind. rewrite simplify_pass_kids.
  destruct (root_step e) as [y|] eqn:E; [exact (rss_step _ _ _ (root_step_rstep _ _ E) (rss_refl y))|].
  rewrite <- (rebuild_kids e) at 1. exact (rsteps_rebuild e simplify_pass (kids e) IH [] eq_refl).
Qed.

Lemma simplify_pass_mu_le e : (mu (simplify_pass e) <= mu e)%nat.
Proof. apply rsteps_mu_le. apply simplify_pass_rsteps. Qed.

Lemma mu_sum_map_le (l : list expr) : (mu_sum (map simplify_pass l) <= mu_sum l)%nat.
Proof.
  induction l as [|x t IH]; cbn [map mu_sum]; [lia|]. pose proof (simplify_pass_mu_le x). lia.
Qed.

Lemma mu_sum_map_lt (l : list expr) :
  Forall (fun x => applicable x = true -> (mu (simplify_pass x) < mu x)%nat) l ->
  existsb applicable l = true -> (mu_sum (map simplify_pass l) < mu_sum l)%nat.
Proof.
  intros HF. induction HF as [|x t Hx _ IH]; cbn [existsb map mu_sum]; [discriminate|].
  intros H. apply orb_true_iff in H. destruct H as [H|H].
  - specialize (Hx H). pose proof (mu_sum_map_le t). lia.
  - specialize (IH H). pose proof (simplify_pass_mu_le x). lia.
Qed.

(* a sweep over a reducible expression makes progress *)
Theorem simplify_pass_mu_lt e : applicable e = true -> (mu (simplify_pass e) < mu e)%nat.
Proof.
  induction e as [e IH] using expr_kids_ind. rewrite applicable_kids, simplify_pass_kids.
  destruct (root_step e) as [y|] eqn:E; [intros _; exact (rstep_mu _ _ (root_step_rstep _ _ E))|].
  cbn [orb]. intros H. apply mu_rebuild_lt; [apply map_length | exact (mu_sum_map_lt (kids e) IH H)].
Qed.

Lemma map_pass_id (l : list expr) :
  Forall (fun x => applicable x = false -> simplify_pass x = x) l ->
  existsb applicable l = false -> map simplify_pass l = l.
Proof.
  intros HF. induction HF as [|x t Hx _ IH]; cbn [existsb map]; [reflexivity|].
  intros H. apply orb_false_iff in H. destruct H as [H1 H2]. rewrite (Hx H1), (IH H2). reflexivity.
Qed.

(* a sweep over a normal form changes nothing *)
Theorem simplify_pass_normal e : applicable e = false -> simplify_pass e = e.
Proof.
  induction e as [e IH] using expr_kids_ind. rewrite applicable_kids, simplify_pass_kids. intros H.
  apply orb_false_iff in H. destruct H as [H0 H]. destruct (root_step e); [discriminate|].
  rewrite (map_pass_id (kids e) IH H). apply rebuild_kids.
Qed.

Theorem simplify_fuel_rsteps n : forall e, rsteps e (simplify_fuel n e).
Proof.
  induction n as [|n IH]; intros e; cbn [simplify_fuel]; [apply rss_refl|].
  destruct (applicable e); [|apply rss_refl].
  exact (rsteps_trans _ _ _ (simplify_pass_rsteps e) (IH (simplify_pass e))).
Qed.

(* with fuel >= mu e the result is a normal form *)
Theorem simplify_fuel_normal n : forall e, (mu e <= n)%nat -> applicable (simplify_fuel n e) = false.
Proof.
  induction n as [|n IH]; intros e Hn.
  - pose proof (mu_pos e). lia.
  - cbn [simplify_fuel]. destruct (applicable e) eqn:E; [|exact E].
    apply IH. pose proof (simplify_pass_mu_lt e E). lia.
Qed.

(* more fuel than mu e changes nothing *)
Theorem simplify_fuel_stable n : forall m e, (mu e <= n)%nat -> (mu e <= m)%nat -> simplify_fuel n e = simplify_fuel m e.
Proof.
  induction n as [|n IH]; intros m e Hn Hm.
  - pose proof (mu_pos e). lia.
  - destruct m as [|m]; [pose proof (mu_pos e); lia|].
    cbn [simplify_fuel]. destruct (applicable e) eqn:E; [|reflexivity].
    pose proof (simplify_pass_mu_lt e E). apply IH; lia.
Qed.

Theorem simplify_model_rsteps e : rsteps e (simplify_model e).
Proof. apply simplify_fuel_rsteps. Qed.

Theorem simplify_model_normal e : applicable (simplify_model e) = false.
Proof. apply simplify_fuel_normal. lia. Qed.

Theorem simplify_model_of_normal e : applicable e = false -> simplify_model e = e.
Proof.
  intros H. unfold simplify_model. pose proof (mu_pos e). destruct (mu e) as [|k]; [lia|].
  cbn [simplify_fuel]. rewrite H. reflexivity.
Qed.

Theorem simplify_model_idempotent e : simplify_model (simplify_model e) = simplify_model e.
Proof. apply simplify_model_of_normal. apply simplify_model_normal. Qed.

Theorem simplify_model_mu_le e : (mu (simplify_model e) <= mu e)%nat.
Proof. apply rsteps_mu_le. apply simplify_model_rsteps. Qed.

(* [all_steps] enumerates successors of the relation (soundness: what the confluence search explores are rewrite
   sequences of the relation) *)
Lemma root_steps_in rs e e' : In e' (root_steps rs e) -> exists r, In r rs /\ r e = Some e'.
Proof.
  induction rs as [|r t IH]; cbn [root_steps]; [intros []|].
  destruct (r e) as [y|] eqn:E.
  - intros [<-|H].
    + exists r. split; [left; reflexivity | exact E].
    + destruct (IH H) as [r' [Hin Hr]]. exists r'. split; [right; exact Hin | exact Hr].
  - intros H. destruct (IH H) as [r' [Hin Hr]]. exists r'. split; [right; exact Hin | exact Hr].
Qed.

Lemma list_steps_in (f : expr -> list expr) (l l' : list expr) :
  In l' (list_steps f l) -> exists l1 x x' l2, l = l1 ++ x :: l2 /\ l' = l1 ++ x' :: l2 /\ In x' (f x).
Proof.
  revert l'. induction l as [|x t IH]; intros l'; cbn [list_steps]; [intros []|].
  intros H. apply in_app_or in H. destruct H as [H|H].
  - apply in_map_iff in H. destruct H as [x' [<- Hx']]. exists [], x, x', t. repeat split; assumption.
  - apply in_map_iff in H. destruct H as [t' [<- Ht']].
    destruct (IH t' Ht') as [l1 [y [y' [l2 [-> [-> Hy]]]]]]. exists (x :: l1), y, y', l2. repeat split; assumption.
Qed.

Theorem all_steps_sound e : forall e', In e' (all_steps e) -> rstep e e'.
Proof.
  induction e as [e IH] using expr_kids_ind. intros e' H. rewrite all_steps_kids in H.
  apply in_app_or in H. destruct H as [H|H].
  - destruct (root_steps_in _ _ _ H) as [r [Hin Hr]]. exact (rs_root r _ _ Hin Hr).
  - apply in_map_iff in H. destruct H as [l' [<- Hl']].
    destruct (list_steps_in _ _ _ Hl') as (l1 & x & x' & l2 & Hk & -> & Hx).
    apply (rstep_kid e l1 x x' l2 Hk). rewrite Forall_forall in IH. apply (IH x); [rewrite Hk; apply in_elt | exact Hx].
Qed.

(* the confluence search: every element of [normal_forms e] is a normal form reachable from e *)
Lemma rsteps_snoc a b c : rsteps a b -> rstep b c -> rsteps a c.
Proof. intros H1 H2. exact (rsteps_trans a b c H1 (rss_step b c c H2 (rss_refl c))). Qed.

Lemma add_new_in x y l : In x (add_new y l) -> x = y \/ In x l.
Proof.
  unfold add_new. destruct (existsb (expr_eqb y) l); intros H; [right; exact H|].
  apply in_app_or in H. destruct H as [H|[H|[]]]; [right; exact H | left; symmetry; exact H].
Qed.

Lemma union_new_in xs : forall l x, In x (union_new xs l) -> In x xs \/ In x l.
Proof.
  induction xs as [|y t IH]; intros l x H; cbn [union_new] in H; [right; exact H|].
  destruct (IH _ _ H) as [H1|H1]; [left; right; exact H1|].
  destruct (add_new_in _ _ _ H1) as [->|H2]; [left; left; reflexivity | right; exact H2].
Qed.

Lemma normal_forms_from_sound e n : forall frontier nfs,
  (forall x, In x frontier -> rsteps e x) ->
  (forall x, In x nfs -> rsteps e x /\ applicable x = false) ->
  forall a, In a (normal_forms_from n frontier nfs) -> rsteps e a /\ applicable a = false.
Proof.
  induction n as [|n IH]; intros frontier nfs HF HN a H; cbn [normal_forms_from] in H; [exact (HN a H)|].
  destruct frontier as [|f0 ft]; [exact (HN a H)|].
  revert H. apply IH.
  - intros x Hx. destruct (union_new_in _ _ _ Hx) as [H1|[]].
    apply in_concat in H1. destruct H1 as [l [Hl Hxl]]. apply in_map_iff in Hl. destruct Hl as [y [<- Hy]].
    exact (rsteps_snoc e y x (HF y Hy) (all_steps_sound y x Hxl)).
  - intros x Hx. destruct (union_new_in _ _ _ Hx) as [H1|H1]; [|exact (HN x H1)].
    apply filter_In in H1. destruct H1 as [H1 H2]. split; [exact (HF x H1)|].
    destruct (applicable x); [discriminate | reflexivity].
Qed.

Theorem normal_forms_sound e a : In a (normal_forms e) -> rsteps e a /\ normal a.
Proof.
  intros H. destruct (normal_forms_from_sound e (mu e) [e] [] ) with (a := a) as [H1 H2].
  - intros x [<-|[]]. apply rss_refl.
  - intros x [].
  - exact H.
  - split; [exact H1 | apply applicable_false_normal; exact H2].
Qed.

(* [all_steps] is complete: every step of the relation is enumerated *)
Lemma root_steps_complete rs r e e' : In r rs -> r e = Some e' -> In e' (root_steps rs e).
Proof.
  induction rs as [|r0 t IH]; intros Hin Hr; [destruct Hin|]. cbn [root_steps].
  destruct Hin as [->|Hin].
  - rewrite Hr. left. reflexivity.
  - destruct (r0 e); [right|]; exact (IH Hin Hr).
Qed.

Lemma list_steps_complete (f : expr -> list expr) l1 x x' l2 :
  In x' (f x) -> In (l1 ++ x' :: l2) (list_steps f (l1 ++ x :: l2)).
Proof.
  intros H. induction l1 as [|y t IH]; cbn [app list_steps]; apply in_or_app.
  - left. apply in_map_iff. exists x'. split; [reflexivity | exact H].
  - right. apply in_map_iff. exists (t ++ x' :: l2). split; [reflexivity | exact IH].
Qed.

Theorem all_steps_complete e e' : rstep e e' -> In e' (all_steps e).
Proof.
  intros H. induction H as [r e e' Hin Hr | e l1 x x' l2 Hk _ IH] using rstep_kids_ind;
    rewrite all_steps_kids; apply in_or_app.
  - left. exact (root_steps_complete _ r _ _ Hin Hr).
  - right. rewrite Hk. apply in_map. apply list_steps_complete. exact IH.
Qed.

(* proves [In r simp_rules] for a rule constant [r] *)
Ltac in_rules := unfold simp_rules, down_rules, up_rules; cbn [app In]; tauto.

(* the system is NOT confluent: a well-formed expression with two different normal forms *)

Theorem confluence_refuted :
  exists e a b, wfb e = true /\ rsteps e a /\ rsteps e b /\ normal a /\ normal b /\ a <> b.
Proof.
  exists cp_raw, cp_nf1, cp_nf2. split; [|split; [|split; [|split; [|split]]]].
  - vm_compute. reflexivity.
  - eapply rss_step; [|eapply rss_step; [|apply rss_refl]].
    + apply (rs_root rule_slice_slice); [in_rules | vm_compute; reflexivity].
    + apply (rs_root rule_slice_elemwise); [in_rules | vm_compute; reflexivity].
  - eapply rss_step; [|eapply rss_step; [|apply rss_refl]].
    + apply rs_slice. apply (rs_root rule_slice_elemwise); [in_rules | vm_compute; reflexivity].
    + apply (rs_root rule_slice_elemwise); [in_rules | vm_compute; reflexivity].
  - apply applicable_false_normal. vm_compute. reflexivity.
  - apply applicable_false_normal. vm_compute. reflexivity.
  - intros H. discriminate H.
Qed.

(* non-vacuity of the sequence bound: a rewrite sequence of length 3 *)
Lemma chain_example :
  let x := ELeaf 1 [4; 3] [[4]; [3]] in let y := ELeaf 2 [3] [[3]] in
  let e0 := ESlice (ETranspose (ETranspose (EElemwise 1 [x; y]) [1; 0]%nat) [1; 0]%nat)
              [ISlice (mkslice (Some 1) None None); IInt 0] true in
  exists e1 e2 e3, chain e0 [e1; e2; e3] /\ mu e0 = 21%nat /\ applicable e3 = false.
Proof.
  eexists. eexists. eexists. split; [|split]; [cbn [chain]; repeat split | vm_compute; reflexivity |].
  - apply rs_slice. apply (rs_root rule_transpose_transpose); [in_rules | vm_compute; reflexivity].
  - apply rs_slice. apply (rs_root rule_transpose_identity); [in_rules | vm_compute; reflexivity].
  - apply (rs_root rule_slice_elemwise); [in_rules | vm_compute; reflexivity].
  - vm_compute. reflexivity.
Qed.
