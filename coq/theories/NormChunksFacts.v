(* normalize_chunks / auto_chunks / blockdims_from_blockshape (NormChunks.v).
   All statements quantify over every value of the float oracle [sizes]; the byte-limit theorems
   (normalize_auto_limit and its variants) assume the defining inequality of the k-th root for the
   LAST oracle value that the recursion consumes (see [auto_last]). *)
From DA Require Import PyBase PyBaseFacts NormChunks AutoPrev.
Open Scope Z_scope.

Lemma forallb_repeat {A} (f : A -> bool) c k : f c = true -> forallb f (repeat c k) = true.
Proof. intros H. induction k as [|k IH]; cbn [repeat forallb]; [reflexivity|]. rewrite H, IH. reflexivity. Qed.

Lemma nth_error_combine {A B} (l1 : list A) (l2 : list B) i :
  nth_error (combine l1 l2) i =
  match nth_error l1 i, nth_error l2 i with
  | Some a, Some b => Some (a, b)
  | _, _ => None
  end.
Proof.
  revert l2 i. induction l1 as [|a l1 IH]; intros [|b l2] [|i]; cbn [combine nth_error]; try reflexivity.
  - destruct (nth_error l1 i); reflexivity.
  - apply IH.
Qed.

Lemma nth_error_same_length {A B} (l1 : list A) (l2 : list B) i b :
  length l1 = length l2 -> nth_error l2 i = Some b -> exists a, nth_error l1 i = Some a.
Proof.
  intros Hl Hb. destruct (nth_error l1 i) as [a|] eqn:E; [eauto|].
  apply nth_error_None in E.
  assert (i < length l2)%nat by (apply nth_error_Some; congruence). lia.
Qed.

Lemma combine_map_r {A B} (g : A -> B) (l : list A) : combine l (map g l) = map (fun x => (x, g x)) l.
Proof. induction l as [|x l IH]; cbn [map combine]; [reflexivity|]. rewrite IH. reflexivity. Qed.

Lemma existsb_id_map_false {A} (g : A -> bool) l :
  Forall (fun x => g x = false) l -> existsb (fun b => b) (map g l) = false.
Proof. induction 1 as [|x l Hx _ IH]; cbn [map existsb]; [reflexivity|]. rewrite Hx, IH. reflexivity. Qed.

Lemma fold_max_le b l B : b <= B -> Forall (fun x => x <= B) l -> fold_right Z.max b l <= B.
Proof. intros Hb H. induction H as [|x l Hx _ IH]; cbn [fold_right]; lia. Qed.

Lemma fold_max_base_mono l a b : a <= b -> fold_right Z.max a l <= fold_right Z.max b l.
Proof. intros H. induction l as [|x l IH]; cbn [fold_right]; lia. Qed.

Lemma no_neg_all_nonneg l : existsb (fun x => x <? 0) l = false -> all_nonneg l = true.
Proof.
  unfold all_nonneg. induction l as [|x l IH]; cbn [existsb forallb]; [reflexivity|].
  intros H. apply orb_false_iff in H as [Hx Hl]. rewrite IH by exact Hl.
  apply andb_true_iff. split; [lia|reflexivity].
Qed.

Lemma no_neg_Forall l : existsb (fun x => x <? 0) l = false -> Forall (fun x => 0 <= x) l.
Proof.
  induction l as [|x l IH]; cbn [existsb]; intros H; constructor;
    apply orb_false_iff in H as [Hx Hl]; [lia|auto].
Qed.

Theorem blockdims_axis_ok d bd cs :
  0 <= d -> blockdims_axis d bd = Ok cs -> 0 < bd -> axis_layout_ok cs d = true.
Proof.
  intros Hd H Hbd. unfold blockdims_axis in H.
  destruct (d =? 0) eqn:Ed.
  - injection H as <-. assert (d = 0) as -> by lia. reflexivity.
  - destruct (bd =? 0) eqn:Eb; [lia|]. injection H as <-.
    assert (0 <= d / bd) as Hq by (apply Z.div_pos; lia).
    pose proof (Z.div_mod d bd ltac:(lia)) as Hdm.
    unfold axis_layout_ok. apply andb_true_iff. split; [apply andb_true_iff; split|].
    + destruct (Z.to_nat (d / bd)) eqn:En; cbn [repeat app]; [|reflexivity].
      destruct (d mod bd =? 0) eqn:Em; [|reflexivity].
      exfalso. assert (d / bd = 0) by lia. nia.
    + unfold all_nonneg. rewrite forallb_app. apply andb_true_iff. split.
      * apply forallb_repeat. lia.
      * destruct (d mod bd =? 0) eqn:Em; cbn [forallb]; [reflexivity|].
        pose proof (Z.mod_pos_bound d bd Hbd). apply andb_true_iff. split; [lia|reflexivity].
    + rewrite zsum_app, zsum_repeat, Z2Nat.id by assumption.
      destruct (d mod bd =? 0) eqn:Em; cbn [zsum]; lia.
Qed.

(* blockdims_axis fails exactly on a zero block size for a non-empty axis
   (Python: ZeroDivisionError from d // bd) *)
Theorem blockdims_axis_err d bd e :
  blockdims_axis d bd = Err e <-> (e = EZeroDiv /\ d <> 0 /\ bd = 0).
Proof.
  unfold blockdims_axis. split.
  - destruct (d =? 0) eqn:Ed; [discriminate|].
    destruct (bd =? 0) eqn:Eb; [|discriminate].
    intros H. injection H as <-. repeat split; lia.
  - intros (-> & Hd & ->).
    destruct (d =? 0) eqn:Ed; [lia|]. reflexivity.
Qed.

(* What an accepted (non-empty, non-negative) result of blockdims_axis looks
   like — for ANY d, bd (negative ones included). *)
Lemma blockdims_axis_checked d bd cs :
  blockdims_axis d bd = Ok cs -> is_nil cs = false -> existsb (fun x => x <? 0) cs = false ->
  (d = 0 /\ cs = [0]) \/ (d <> 0 /\ 0 < bd /\ Forall (fun x => 0 < x <= bd) cs).
Proof.
  intros H Hnil Hneg. unfold blockdims_axis in H.
  destruct (d =? 0) eqn:Ed.
  - injection H as <-. left. split; [lia|reflexivity].
  - destruct (bd =? 0) eqn:Eb; [discriminate|]. injection H as <-.
    right. split; [lia|].
    assert (0 < bd) as Hbd.
    { destruct (Z_lt_le_dec 0 bd) as [Hp|Hn]; [exact Hp|exfalso].
      pose proof (Z.mod_neg_bound d bd ltac:(lia)).
      destruct (Z.to_nat (d / bd)); cbn [repeat app existsb] in Hneg, Hnil.
      - destruct (d mod bd =? 0) eqn:Em; cbn [is_nil existsb] in Hneg, Hnil; [discriminate|].
        apply orb_false_iff in Hneg as [Hneg _]. lia.
      - apply orb_false_iff in Hneg as [Hneg _]. lia. }
    split; [exact Hbd|]. apply Forall_app. split.
    + apply Forall_forall. intros x Hx. apply repeat_spec in Hx. lia.
    + pose proof (Z.mod_pos_bound d bd Hbd). destruct (d mod bd =? 0) eqn:Em; constructor; [lia|constructor].
Qed.

Lemma blockdims_axis_sum d bd cs :
  0 <= d -> blockdims_axis d bd = Ok cs -> is_nil cs = false -> existsb (fun x => x <? 0) cs = false ->
  zsum cs = d.
Proof.
  intros Hd H Hnil Hneg.
  destruct (blockdims_axis_checked d bd cs H Hnil Hneg) as [[-> ->] | (Hd0 & Hbd & _)]; [reflexivity|].
  pose proof (blockdims_axis_ok d bd cs Hd H Hbd) as Hok.
  unfold axis_layout_ok in Hok. apply andb_true_iff in Hok as [_ Hs]. lia.
Qed.

Lemma blockdims_axis_pos d bd cs :
  0 < d -> blockdims_axis d bd = Ok cs -> is_nil cs = false -> existsb (fun x => x <? 0) cs = false ->
  Forall (fun c => 0 < c) cs.
Proof.
  intros Hd H Hnil Hneg.
  destruct (blockdims_axis_checked d bd cs H Hnil Hneg) as [[-> _] | (_ & _ & HF)]; [lia|].
  eapply Forall_impl; [|exact HF]. cbn beta. lia.
Qed.

Lemma blockdims_axis_max d bd cs :
  blockdims_axis d bd = Ok cs -> is_nil cs = false -> existsb (fun x => x <? 0) cs = false ->
  fold_right Z.max 0 cs = 0 \/ fold_right Z.max 0 cs <= bd.
Proof.
  intros H Hnil Hneg.
  destruct (blockdims_axis_checked d bd cs H Hnil Hneg) as [[-> ->] | (_ & Hbd & HF)]; [left; reflexivity|].
  right. apply fold_max_le; [lia|]. eapply Forall_impl; [|exact HF]. cbn beta. lia.
Qed.

Definition subst_all (specs : list aspec) (shape : list Z) : list aspec :=
  map (fun p => subst_full (fst p) (snd p)) (combine specs shape).

Lemma subst_all_length specs shape :
  length specs = length shape -> length (subst_all specs shape) = length shape.
Proof. intros H. unfold subst_all. rewrite map_length, combine_length. lia. Qed.

Lemma subst_all_nth specs shape i sp n :
  nth_error specs i = Some sp -> nth_error shape i = Some n ->
  nth_error (subst_all specs shape) i = Some (subst_full sp n).
Proof.
  intros Hs Hn. unfold subst_all. rewrite nth_error_map, nth_error_combine, Hs, Hn. reflexivity.
Qed.

(* normalize_chunks is the length test, auto_chunks, and the tail that AutoPrev.v names *)
Lemma normalize_chunks_tail sizes specs shape :
  normalize_chunks sizes specs shape =
  if negb (Nat.eqb (length specs) (length shape)) then Err EValue else
  match auto_chunks (S (length (subst_all specs shape))) sizes (subst_all specs shape) shape with
  | Err e => Err e
  | Ok specs' => normalize_tail specs' shape
  end.
Proof. reflexivity. Qed.

Lemma normalize_tail_inv specs shape cs :
  normalize_tail specs shape = Ok cs ->
  convert_all specs shape = Ok cs /\
  existsb is_nil cs = false /\
  existsb (fun c => existsb (fun x => x <? 0) c) cs = false /\
  (forallb is_int_spec specs = true \/
   forallb (fun p => zsum (fst p) =? snd p) (combine cs shape) = true).
Proof.
  unfold normalize_tail.
  destruct (convert_all specs shape) as [chunks|] eqn:Hc; [|discriminate].
  destruct (existsb is_nil chunks) eqn:Hnil; [discriminate|].
  destruct (existsb (fun c => existsb (fun x => x <? 0) c) chunks) eqn:Hneg; [discriminate|].
  destruct (forallb is_int_spec specs) eqn:Hint; cbn [negb andb].
  - intros H. injection H as <-. auto.
  - destruct (forallb (fun p => zsum (fst p) =? snd p) (combine chunks shape)) eqn:Hsum; cbn [negb]; [|discriminate].
    intros H. injection H as <-. auto.
Qed.

Lemma normalize_chunks_inv sizes specs shape cs :
  normalize_chunks sizes specs shape = Ok cs ->
  length specs = length shape /\
  exists specs',
    auto_chunks (S (length (subst_all specs shape))) sizes (subst_all specs shape) shape = Ok specs' /\
    normalize_tail specs' shape = Ok cs.
Proof.
  rewrite normalize_chunks_tail.
  destruct (Nat.eqb (length specs) (length shape)) eqn:El; cbn [negb]; [|discriminate].
  destruct (auto_chunks _ sizes (subst_all specs shape) shape) as [specs'|]; [|discriminate].
  intros H. split; [apply Nat.eqb_eq; exact El|]. exists specs'. auto.
Qed.

Lemma convert_all_cons sp specs n shape cs :
  convert_all (sp :: specs) (n :: shape) = Ok cs ->
  exists c r, cs = c :: r /\ convert_axis sp n = Ok c /\ convert_all specs shape = Ok r.
Proof.
  cbn [convert_all]. destruct (convert_axis sp n) as [c|], (convert_all specs shape) as [r|];
    intros H; try discriminate. injection H as <-. eauto.
Qed.

Lemma convert_all_nth specs : forall shape cs,
  convert_all specs shape = Ok cs ->
  length cs = length shape /\ length specs = length shape /\
  forall i sp n, nth_error specs i = Some sp -> nth_error shape i = Some n ->
    exists l, nth_error cs i = Some l /\ convert_axis sp n = Ok l.
Proof.
  induction specs as [|sp specs IH]; intros [|n shape] cs H; try (cbn in H; discriminate).
  - cbn in H. injection H as <-. repeat split. intros [|i] sp n; cbn; discriminate.
  - apply convert_all_cons in H as (c & r & -> & Hc & Hr).
    destruct (IH shape r Hr) as (L1 & L2 & Hn).
    cbn [length]. repeat split; try lia.
    intros [|i] sp' n' Hs Hsh; cbn [nth_error] in *.
    + injection Hs as <-. injection Hsh as <-. eauto.
    + eauto.
Qed.

(* one axis of an accepted result *)
Lemma normalize_tail_nth specs shape cs i sp n :
  normalize_tail specs shape = Ok cs -> nth_error specs i = Some sp -> nth_error shape i = Some n ->
  exists l, nth_error cs i = Some l /\ convert_axis sp n = Ok l /\
    is_nil l = false /\ existsb (fun x => x <? 0) l = false.
Proof.
  intros H Hs Hn. apply normalize_tail_inv in H as (Hc & Hnil & Hneg & _).
  destruct (convert_all_nth specs shape cs Hc) as (_ & _ & Hcn).
  destruct (Hcn i sp n Hs Hn) as (l & Hl & Hcl). exists l. repeat split; try assumption.
  - exact (existsb_false_In _ _ _ Hnil (nth_error_In _ _ Hl)).
  - exact (existsb_false_In _ _ _ Hneg (nth_error_In _ _ Hl)).
Qed.

Lemma convert_all_int_sums specs : forall shape cs,
  Forall (fun n => 0 <= n) shape ->
  convert_all specs shape = Ok cs ->
  existsb is_nil cs = false ->
  existsb (fun c => existsb (fun x => x <? 0) c) cs = false ->
  forallb is_int_spec specs = true ->
  forallb (fun p => zsum (fst p) =? snd p) (combine cs shape) = true.
Proof.
  induction specs as [|sp specs IH]; intros [|n shape] cs Hsh H Hnil Hneg Hint; try (cbn in H; discriminate).
  - cbn in H. injection H as <-. reflexivity.
  - apply convert_all_cons in H as (c & r & -> & Hc & Hr).
    cbn [existsb] in Hnil, Hneg. apply orb_false_iff in Hnil as [Hnil1 Hnil2].
    apply orb_false_iff in Hneg as [Hneg1 Hneg2].
    cbn [forallb] in Hint. apply andb_true_iff in Hint as [Hi1 Hi2].
    inversion Hsh as [|? ? Hn Hsh']; subst.
    cbn [combine forallb fst snd]. apply andb_true_iff. split.
    + destruct sp as [c0| | |]; cbn in Hi1; try discriminate. cbn [convert_axis] in Hc.
      pose proof (blockdims_axis_sum n c0 c Hn Hc Hnil1 Hneg1). lia.
    + apply IH; assumption.
Qed.

Lemma checks_layout cs : forall shape,
  length cs = length shape ->
  existsb is_nil cs = false ->
  existsb (fun c => existsb (fun x => x <? 0) c) cs = false ->
  forallb (fun p => zsum (fst p) =? snd p) (combine cs shape) = true ->
  forallb (fun p => axis_layout_ok (fst p) (snd p)) (combine cs shape) = true.
Proof.
  induction cs as [|c cs IH]; intros [|n shape] Hl Hnil Hneg Hsum; cbn in Hl; try discriminate; [reflexivity|].
  cbn [existsb] in Hnil, Hneg. apply orb_false_iff in Hnil as [Hnil1 Hnil2].
  apply orb_false_iff in Hneg as [Hneg1 Hneg2].
  cbn [combine forallb fst snd] in *. apply andb_true_iff in Hsum as [Hs1 Hs2].
  apply andb_true_iff. split.
  - unfold axis_layout_ok. rewrite Hnil1, (no_neg_all_nonneg c Hneg1), Hs1. reflexivity.
  - apply IH; [lia|assumption..].
Qed.

(* the sums hold whichever way the tail checked them *)
Lemma normalize_tail_sums specs shape cs :
  Forall (fun n => 0 <= n) shape ->
  normalize_tail specs shape = Ok cs ->
  forallb (fun p => zsum (fst p) =? snd p) (combine cs shape) = true.
Proof.
  intros Hsh H. apply normalize_tail_inv in H as (Hc & Hnil & Hneg & Hsum).
  destruct Hsum as [Hint|Hsum]; [|exact Hsum].
  eapply convert_all_int_sums; eassumption.
Qed.

Lemma normalize_tail_layout specs shape cs :
  Forall (fun n => 0 <= n) shape ->
  normalize_tail specs shape = Ok cs -> layout_ok cs shape = true.
Proof.
  intros Hsh H. pose proof (normalize_tail_sums _ _ _ Hsh H) as Hsum.
  apply normalize_tail_inv in H as (Hc & Hnil & Hneg & _).
  destruct (convert_all_nth specs shape cs Hc) as (L1 & L2 & _).
  unfold layout_ok. apply andb_true_iff. split; [apply Nat.eqb_eq; exact L1|].
  apply checks_layout; assumption.
Qed.

Theorem normalize_valid_layout : forall sizes specs shape cs,
  Forall (fun n => 0 <= n) shape ->
  normalize_chunks sizes specs shape = Ok cs ->
  layout_ok cs shape = true.
Proof.
  intros sizes specs shape cs Hsh H.
  apply normalize_chunks_inv in H as (_ & specs' & _ & Ht).
  eapply normalize_tail_layout; eassumption.
Qed.

(* which axes are "small" at a level with oracle num/den: shape[i] < size *)
Definition small_flags (num den : Z) (specs : list aspec) (shape : list Z) : list bool :=
  map (fun p => is_auto (fst p) && (snd p * den <? num)) (combine specs shape).

(* chunks[i] = (shape[i],) for the small axes *)
Definition fix_small (specs : list aspec) (shape : list Z) (small : list bool) : list aspec :=
  map (fun p => let '(sp, n, sm) := p in if (sm : bool) then ATuple [n] else sp)
      (combine (combine specs shape) small).

(* chunks[i] = round_to(size, shape[i]) for the remaining autos *)
Definition resolve (c : Z) (sp : aspec) : aspec := if is_auto sp then AInt c else sp.

Lemma auto_chunks_done fuel sizes specs shape :
  count_autos specs =? 0 = true -> auto_chunks fuel sizes specs shape = Ok specs.
Proof. intros H. destruct fuel; cbn [auto_chunks]; rewrite H; reflexivity. Qed.

Lemma auto_chunks_step f num den sizes specs shape :
  count_autos specs =? 0 = false ->
  auto_chunks (S f) ((num, den) :: sizes) specs shape =
  if existsb (fun b => b) (small_flags num den specs shape)
  then auto_chunks f sizes (fix_small specs shape (small_flags num den specs shape)) shape
  else Ok (map (resolve (round_to_le num den)) specs).
Proof. intros H. cbn [auto_chunks]. rewrite H. reflexivity. Qed.

Lemma auto_chunks_nofuel sizes specs shape :
  count_autos specs =? 0 = false -> auto_chunks 0 sizes specs shape = Err EValue.
Proof. intros H. cbn [auto_chunks]. rewrite H. reflexivity. Qed.

Lemma auto_chunks_nosizes fuel specs shape :
  count_autos specs =? 0 = false -> auto_chunks fuel [] specs shape = Err EValue.
Proof. intros H. destruct fuel; cbn [auto_chunks]; rewrite H; reflexivity. Qed.

Lemma count_autos_nil : count_autos [] = 0.
Proof. reflexivity. Qed.

Lemma count_autos_cons sp l :
  count_autos (sp :: l) = if is_auto sp then count_autos l + 1 else count_autos l.
Proof. unfold count_autos. cbn [filter]. destruct (is_auto sp); cbn [length]; lia. Qed.

Lemma count_autos_nonneg l : 0 <= count_autos l.
Proof. unfold count_autos. lia. Qed.

Lemma count_autos_le l : count_autos l <= Z.of_nat (length l).
Proof.
  induction l as [|sp l IH]; [reflexivity|]. rewrite count_autos_cons. cbn [length]. destruct (is_auto sp); lia.
Qed.

Lemma count_autos_zero_In specs sp :
  count_autos specs =? 0 = true -> In sp specs -> is_auto sp = false.
Proof.
  unfold count_autos. intros H Hin.
  destruct (is_auto sp) eqn:E; [|reflexivity].
  assert (In sp (filter is_auto specs)) as Hf by (apply filter_In; auto).
  destruct (filter is_auto specs); [destruct Hf|]. cbn [length] in H. lia.
Qed.

Lemma resolve_no_autos c specs : count_autos specs =? 0 = true -> map (resolve c) specs = specs.
Proof.
  intros H. rewrite <- (map_id specs) at 2. apply map_ext_in. intros sp Hin.
  unfold resolve. rewrite (count_autos_zero_In specs sp H Hin). reflexivity.
Qed.

(* fix_small as a single map over (spec, length) pairs *)
Definition small_spec (num den : Z) (p : aspec * Z) : aspec :=
  if is_auto (fst p) && (snd p * den <? num) then ATuple [snd p] else fst p.

Lemma fix_small_map num den specs shape :
  fix_small specs shape (small_flags num den specs shape) =
  map (small_spec num den) (combine specs shape).
Proof.
  unfold fix_small, small_flags. rewrite combine_map_r, map_map.
  apply map_ext. intros [sp n]. reflexivity.
Qed.

Lemma fix_small_length num den specs shape :
  length specs = length shape ->
  length (fix_small specs shape (small_flags num den specs shape)) = length shape.
Proof. intros H. rewrite fix_small_map, map_length, combine_length. lia. Qed.

Lemma fix_small_nth num den specs shape i sp n :
  nth_error specs i = Some sp -> nth_error shape i = Some n ->
  nth_error (fix_small specs shape (small_flags num den specs shape)) i =
  Some (if is_auto sp && (n * den <? num) then ATuple [n] else sp).
Proof.
  intros Hs Hn. rewrite fix_small_map, nth_error_map, nth_error_combine, Hs, Hn. reflexivity.
Qed.

Lemma fix_small_none num den specs shape :
  length specs = length shape -> existsb (fun b => b) (small_flags num den specs shape) = false ->
  fix_small specs shape (small_flags num den specs shape) = specs.
Proof.
  intros Hlen Es. rewrite fix_small_map. rewrite <- (map_fst_combine specs shape Hlen) at 2.
  apply map_ext_in. intros p Hin. unfold small_spec.
  rewrite (existsb_false_In _ _ _ Es (in_map _ _ _ Hin)). reflexivity.
Qed.

(* The last recursion level of auto_chunks at which an oracle value is
   consumed: returns that oracle value and the specs AT that level (the axes
   fixed to (shape[i],) at earlier levels are ATuple [n] in it, so
   [largest_fixed] of it is Python's largest_block at that level, and
   [count_autos] of it is len(autos)).  The level is last when either no axis
   is small (the remaining autos get round_to(size, ..)) or fixing the small
   axes leaves no auto axis. *)
Fixpoint auto_last (fuel : nat) (sizes : list (Z * Z)) (specs : list aspec) (shape : list Z)
  : option (Z * Z * list aspec) :=
  if count_autos specs =? 0 then None else
  match fuel, sizes with
  | S f, (num, den) :: sizes' =>
      let specs1 := fix_small specs shape (small_flags num den specs shape) in
      if existsb (fun b => b) (small_flags num den specs shape) && negb (count_autos specs1 =? 0)
      then auto_last f sizes' specs1 shape
      else Some (num, den, specs)
  | _, _ => None
  end.

(* what the last level does to the pair (spec, axis length) *)
Definition final_spec (num den : Z) (p : aspec * Z) : aspec :=
  if is_auto (fst p)
  then (if snd p * den <? num then ATuple [snd p] else AInt (round_to_le num den))
  else fst p.

(* whichever way the level is last, it fixes its small axes and resolves the other autos *)
Lemma final_spec_map num den specs shape :
  map (final_spec num den) (combine specs shape) =
  map (resolve (round_to_le num den)) (fix_small specs shape (small_flags num den specs shape)).
Proof.
  rewrite fix_small_map, map_map. apply map_ext. intros [sp n].
  unfold final_spec, resolve, small_spec; cbn [fst snd].
  destruct (is_auto sp) eqn:Ea; cbn [andb]; [destruct (n * den <? num); [reflexivity|]|]; rewrite Ea; reflexivity.
Qed.

(* auto_chunks in terms of its last level *)
Lemma auto_chunks_by_last fuel : forall sizes specs shape,
  length specs = length shape ->
  match auto_last fuel sizes specs shape with
  | Some (num, den, specsL) =>
      length specsL = length shape /\
      auto_chunks fuel sizes specs shape = Ok (map (final_spec num den) (combine specsL shape))
  | None => auto_chunks fuel sizes specs shape = if count_autos specs =? 0 then Ok specs else Err EValue
  end.
Proof.
  induction fuel as [|f IH]; intros sizes specs shape Hlen; destruct (count_autos specs =? 0) eqn:Ec.
  - (* no auto axis *) destruct sizes; cbn [auto_last]; rewrite Ec; apply auto_chunks_done, Ec.
  - cbn [auto_last]. rewrite Ec. apply auto_chunks_nofuel, Ec.
  - (* no auto axis *) destruct sizes; cbn [auto_last]; rewrite Ec; apply auto_chunks_done, Ec.
  - destruct sizes as [|[num den] sizes]; cbn [auto_last]; rewrite Ec; [apply auto_chunks_nosizes, Ec|].
    cbv zeta. rewrite auto_chunks_step by exact Ec.
    destruct (existsb (fun b => b) (small_flags num den specs shape)) eqn:Es; cbn [andb].
    + destruct (count_autos (fix_small specs shape (small_flags num den specs shape)) =? 0) eqn:Ec1; cbn [negb].
      * rewrite final_spec_map, resolve_no_autos, auto_chunks_done by exact Ec1. auto.
      * specialize (IH sizes _ shape (fix_small_length num den specs shape Hlen)). rewrite Ec1 in IH. exact IH.
    + rewrite final_spec_map, fix_small_none by assumption. auto.
Qed.

(* the specs at the last level versus the specs the recursion started from *)
Lemma auto_last_nth fuel : forall sizes specs shape num den specsL,
  length specs = length shape ->
  auto_last fuel sizes specs shape = Some (num, den, specsL) ->
  forall i sp n, nth_error specs i = Some sp -> nth_error shape i = Some n ->
    exists spL, nth_error specsL i = Some spL /\
      (if is_auto sp then spL = sp \/ spL = ATuple [n] else spL = sp).
Proof.
  induction fuel as [|f IH]; intros sizes specs shape num den specsL Hlen HL;
    cbn [auto_last] in HL; destruct (count_autos specs =? 0) eqn:Ec; try discriminate.
  destruct sizes as [|[num0 den0] sizes]; [discriminate|]. cbv zeta in HL.
  destruct (existsb (fun b => b) (small_flags num0 den0 specs shape) &&
            negb (count_autos (fix_small specs shape (small_flags num0 den0 specs shape)) =? 0)).
  - intros i sp n Hs Hn.
    destruct (IH _ _ _ _ _ _ (fix_small_length num0 den0 specs shape Hlen) HL i _ n
                (fix_small_nth num0 den0 specs shape i sp n Hs Hn) Hn) as (spL & HspL & Hrel).
    exists spL. split; [exact HspL|].
    destruct (is_auto sp) eqn:Ea; cbn [andb] in Hrel.
    + destruct (n * den0 <? num0); cbn [is_auto] in Hrel; [right; exact Hrel|].
      rewrite Ea in Hrel. exact Hrel.
    + rewrite Ea in Hrel. exact Hrel.
  - injection HL as <- <- <-. intros i sp n Hs Hn. exists sp. split; [exact Hs|].
    destruct (is_auto sp); auto.
Qed.

(* How auto_chunks transforms the spec of an axis of length n:
   non-auto specs are untouched; an auto spec becomes either the single full
   chunk (n,) or a uniform size c >= 1. *)
Definition auto_rel (n : Z) (sp sp' : aspec) : Prop :=
  if is_auto sp then sp' = ATuple [n] \/ exists c, 1 <= c /\ sp' = AInt c else sp' = sp.

Lemma auto_chunks_nth fuel sizes specs shape specs' i sp n :
  length specs = length shape ->
  auto_chunks fuel sizes specs shape = Ok specs' ->
  nth_error specs i = Some sp -> nth_error shape i = Some n ->
  exists sp', nth_error specs' i = Some sp' /\ auto_rel n sp sp'.
Proof.
  intros Hlen H Hs Hn. pose proof (auto_chunks_by_last fuel sizes specs shape Hlen) as HB.
  unfold auto_rel. destruct (auto_last fuel sizes specs shape) as [[[num den] specsL]|] eqn:HL; rewrite H in HB.
  - destruct HB as [_ HB]. injection HB as ->.
    destruct (auto_last_nth _ _ _ _ _ _ _ Hlen HL i sp n Hs Hn) as (spL & HspL & Hrel).
    exists (final_spec num den (spL, n)).
    split; [rewrite nth_error_map, nth_error_combine, HspL, Hn; reflexivity|].
    unfold final_spec; cbn [fst snd]. destruct (is_auto sp) eqn:Ea; [|subst spL; rewrite Ea; reflexivity].
    destruct Hrel as [-> | ->]; [rewrite Ea|left; reflexivity].
    destruct (n * den <? num); [left; reflexivity|right].
    exists (round_to_le num den). split; [unfold round_to_le; lia|reflexivity].
  - destruct (count_autos specs =? 0) eqn:Ec; [|discriminate]. injection HB as ->.
    exists sp. split; [exact Hs|]. rewrite (count_autos_zero_In specs sp Ec (nth_error_In _ _ Hs)). reflexivity.
Qed.

(* one axis of normalize_chunks: the final spec and its conversion *)
Lemma normalize_axis sizes specs shape cs i sp n :
  normalize_chunks sizes specs shape = Ok cs ->
  nth_error specs i = Some sp -> nth_error shape i = Some n ->
  exists sp' l, auto_rel n (subst_full sp n) sp' /\ convert_axis sp' n = Ok l /\
    nth_error cs i = Some l /\ is_nil l = false /\ existsb (fun x => x <? 0) l = false.
Proof.
  intros H Hs Hn.
  apply normalize_chunks_inv in H as (Hlen & specs' & Ha & Ht).
  destruct (auto_chunks_nth _ _ _ _ _ i _ n (subst_all_length specs shape Hlen) Ha
              (subst_all_nth specs shape i sp n Hs Hn) Hn) as (sp' & Hsp' & Hrel).
  destruct (normalize_tail_nth _ _ _ i sp' n Ht Hsp' Hn) as (l & Hl & Hcl & Hnil & Hneg).
  exists sp', l. repeat split; assumption.
Qed.

Theorem normalize_uniform : forall sizes specs shape cs i c n,
  nth_error specs i = Some (AInt c) -> 0 < c ->
  nth_error shape i = Some n -> 0 < n ->
  normalize_chunks sizes specs shape = Ok cs ->
  nth_error cs i = Some (repeat c (Z.to_nat (n / c)) ++ (if n mod c =? 0 then [] else [n mod c])).
Proof.
  intros sizes specs shape cs i c n Hs Hc Hn Hn0 H.
  destruct (normalize_axis _ _ _ _ i _ n H Hs Hn) as (sp' & l & Hrel & Hcv & Hl & _ & _).
  cbn [subst_full] in Hrel. destruct (c =? -1) eqn:Ec1; [lia|].
  unfold auto_rel in Hrel. cbn [is_auto] in Hrel. subst sp'.
  cbn [convert_axis] in Hcv. unfold blockdims_axis in Hcv.
  destruct (n =? 0) eqn:En; [lia|]. destruct (c =? 0) eqn:Ec; [lia|].
  injection Hcv as <-. exact Hl.
Qed.

(* None / -1: the whole axis in one chunk ([0] for an empty axis) *)
Theorem normalize_full : forall sizes specs shape cs i sp n,
  nth_error specs i = Some sp -> sp = AFull \/ sp = AInt (-1) ->
  nth_error shape i = Some n ->
  normalize_chunks sizes specs shape = Ok cs ->
  nth_error cs i = Some [n].
Proof.
  intros sizes specs shape cs i sp n Hs Hsp Hn H.
  destruct (normalize_axis _ _ _ _ i _ n H Hs Hn) as (sp' & l & Hrel & Hcv & Hl & _ & _).
  assert (subst_full sp n = AInt n) as E by (destruct Hsp as [-> | ->]; reflexivity).
  rewrite E in Hrel. unfold auto_rel in Hrel. cbn [is_auto] in Hrel. subst sp'.
  cbn [convert_axis] in Hcv. unfold blockdims_axis in Hcv.
  destruct (n =? 0) eqn:En.
  - injection Hcv as <-. rewrite Hl. do 2 f_equal. lia.
  - rewrite Z.div_same, Z.mod_same in Hcv by lia. cbn in Hcv. injection Hcv as <-. exact Hl.
Qed.

Corollary normalize_full_cases : forall sizes specs shape cs i sp n,
  nth_error specs i = Some sp -> sp = AFull \/ sp = AInt (-1) ->
  nth_error shape i = Some n ->
  normalize_chunks sizes specs shape = Ok cs ->
  (0 < n -> nth_error cs i = Some [n]) /\ (n = 0 -> nth_error cs i = Some [0]).
Proof.
  intros sizes specs shape cs i sp n Hs Hsp Hn H.
  pose proof (normalize_full _ _ _ _ _ _ _ Hs Hsp Hn H) as Hr.
  split; [intros _; exact Hr | intros ->; exact Hr].
Qed.

Lemma nonneg_nozero_pos l :
  existsb (fun x => x <? 0) l = false -> ~ In 0 l -> Forall (fun c => 0 < c) l.
Proof.
  intros Hneg Hz. apply Forall_forall. intros x Hx.
  pose proof (existsb_false_In _ _ _ Hneg Hx) as Hx0. cbn beta in Hx0.
  assert (x <> 0) by (intros ->; auto). lia.
Qed.

Theorem normalize_zero_only_on_empty_axes : forall sizes specs shape cs,
  (forall l, In (ATuple l) specs -> ~ In 0 l) ->
  normalize_chunks sizes specs shape = Ok cs ->
  forall i n l, nth_error shape i = Some n -> 0 < n -> nth_error cs i = Some l ->
    Forall (fun c => 0 < c) l.
Proof.
  intros sizes specs shape cs Hz H i n l Hn Hn0 Hl.
  pose proof (normalize_chunks_inv _ _ _ _ H) as (Hlen & _).
  destruct (nth_error_same_length specs shape i n Hlen Hn) as (sp & Hs).
  destruct (normalize_axis _ _ _ _ i _ n H Hs Hn) as (sp' & l' & Hrel & Hcv & Hl' & Hnil & Hneg).
  rewrite Hl in Hl'. injection Hl' as <-.
  assert (forall c, sp' = AInt c -> Forall (fun c => 0 < c) l) as Hint.
  { intros c ->. cbn [convert_axis] in Hcv. eapply blockdims_axis_pos; eassumption. }
  unfold auto_rel in Hrel.
  destruct sp as [c|l0| |]; cbn [subst_full] in Hrel.
  - destruct (c =? -1); cbn [is_auto] in Hrel; eapply Hint; exact Hrel.
  - cbn [is_auto] in Hrel. subst sp'. cbn [convert_axis] in Hcv. injection Hcv as <-.
    apply nonneg_nozero_pos; [exact Hneg|]. apply Hz. exact (nth_error_In _ _ Hs).
  - cbn [is_auto] in Hrel. eapply Hint; exact Hrel.
  - cbn [is_auto] in Hrel. destruct Hrel as [-> | (c & _ & ->)]; [|eapply Hint; reflexivity].
    cbn [convert_axis] in Hcv. injection Hcv as <-. constructor; [lia|constructor].
Qed.

(* Known finding (F4): an explicit zero-size chunk on a non-empty axis is
   accepted. *)
Theorem normalize_explicit_zero_refuted :
  exists sizes specs shape cs,
    normalize_chunks sizes specs shape = Ok cs /\
    exists i n l, nth_error shape i = Some n /\ 0 < n /\ nth_error cs i = Some l /\ In 0 l.
Proof.
  exists [], [ATuple [5; 5; 0]], [10], [[5; 5; 0]].
  split; [vm_compute; reflexivity|].
  exists 0%nat, 10, [5; 5; 0]. repeat split; cbn; auto.
Qed.

Lemma largest_fixed_nil : largest_fixed [] = 1.
Proof. reflexivity. Qed.

Lemma largest_fixed_cons sp l :
  largest_fixed (sp :: l) = if is_auto sp then largest_fixed l else fixed_extent sp * largest_fixed l.
Proof. unfold largest_fixed. cbn [filter]. destruct (is_auto sp); cbn [negb map fold_right]; reflexivity. Qed.

Lemma max_block_cons c r : max_block (c :: r) = fold_right Z.max 0 c * max_block r.
Proof. reflexivity. Qed.

(* per-axis: the largest chunk is 0 or bounded by the factor the axis
   contributes to largest_block *)
Lemma convert_axis_max sp n l :
  convert_axis sp n = Ok l -> is_nil l = false -> existsb (fun x => x <? 0) l = false ->
  fold_right Z.max 0 l = 0 \/ (is_auto sp = false /\ fold_right Z.max 0 l <= fixed_extent sp).
Proof.
  intros H Hnil Hneg. destruct sp as [c|cs| |]; cbn [convert_axis] in H; try discriminate.
  - destruct (blockdims_axis_max n c l H Hnil Hneg) as [Hm|Hm]; [left; exact Hm|right].
    split; [reflexivity|exact Hm].
  - injection H as ->. right. split; [reflexivity|]. cbn [fixed_extent].
    destruct l as [|x l]; [discriminate|]. cbn [hd].
    apply fold_max_base_mono. cbn [existsb] in Hneg. apply orb_false_iff in Hneg as [Hx _]. lia.
Qed.

Lemma convert_all_max specs : forall shape cs,
  convert_all specs shape = Ok cs ->
  existsb is_nil cs = false ->
  existsb (fun c => existsb (fun x => x <? 0) c) cs = false ->
  max_block cs = 0 \/
  (0 < max_block cs <= largest_fixed specs /\
   Forall (fun sp => is_auto sp = false /\ 0 < fixed_extent sp) specs).
Proof.
  induction specs as [|sp specs IH]; intros [|n shape] cs H Hnil Hneg; try (cbn in H; discriminate).
  - cbn in H. injection H as <-. right. rewrite largest_fixed_nil.
    change (max_block []) with 1. split; [lia|constructor].
  - apply convert_all_cons in H as (c & r & -> & Hc & Hr).
    cbn [existsb] in Hnil, Hneg. apply orb_false_iff in Hnil as [Hnil1 Hnil2].
    apply orb_false_iff in Hneg as [Hneg1 Hneg2].
    rewrite max_block_cons.
    pose proof (fold_max_nonneg c) as Hm0.
    destruct (convert_axis_max sp n c Hc Hnil1 Hneg1) as [Hm|[Ha Hm]]; [left; rewrite Hm; lia|].
    destruct (IH shape r Hr Hnil2 Hneg2) as [HM|[HM HF]]; [left; rewrite HM; lia|].
    destruct (Z.eq_dec (fold_right Z.max 0 c) 0) as [Hz|Hz]; [left; rewrite Hz; lia|right].
    rewrite largest_fixed_cons, Ha. split; [nia|].
    constructor; [split; [exact Ha|lia]|exact HF].
Qed.

(* what the last level does to a spec: an auto axis gets a positive extent of at most
   q = max(1, int(size)), the other axes are left alone *)
Definition level_rel (q : Z) (sp sp' : aspec) : Prop :=
  if is_auto sp
  then is_auto sp' = false /\ 0 < fixed_extent sp' <= q
  else sp' = sp /\ 0 < fixed_extent sp.

(* final_spec satisfies level_rel once the tail has accepted its result (no auto left, positive
   extent); and no axis is small when int(size) < 1 *)
Lemma final_spec_level num den sp n :
  0 < den -> is_auto (final_spec num den (sp, n)) = false -> 0 < fixed_extent (final_spec num den (sp, n)) ->
  level_rel (round_to_le num den) sp (final_spec num den (sp, n)) /\
  (num / den < 1 -> is_auto sp && (n * den <? num) = false).
Proof.
  intros Hden Hna He. unfold level_rel, final_spec, round_to_le in *; cbn [fst snd] in *.
  destruct (is_auto sp) eqn:Ea; cbn [andb]; [|auto].
  destruct (n * den <? num) eqn:Esm; cbn [fixed_extent hd fold_right] in *.
  - (* a small axis has length n with 0 < n and n * den < num *)
    assert (n <= num / den) by (apply Z.div_le_lower_bound; lia).
    split; [split; [reflexivity|lia]|lia].
  - split; [split; [reflexivity|lia]|reflexivity].
Qed.

(* under level_rel largest_block grows by at most q^k, k the number of auto axes *)
Lemma level_bound q ps finals :
  Forall2 (level_rel q) ps finals ->
  0 < largest_fixed finals <= largest_fixed ps * q ^ count_autos ps.
Proof.
  induction 1 as [|sp sp' ps finals Hh _ IH].
  - rewrite largest_fixed_nil, count_autos_nil, Z.pow_0_r. lia.
  - pose proof (count_autos_nonneg ps) as Hk.
    rewrite count_autos_cons, !largest_fixed_cons. unfold level_rel in Hh.
    destruct (is_auto sp) eqn:Ea.
    + destruct Hh as (-> & He). rewrite Z.pow_add_r, Z.pow_1_r by lia.
      split; [apply Z.mul_pos_pos; lia|].
      replace (largest_fixed ps * (q ^ count_autos ps * q)) with (q * (largest_fixed ps * q ^ count_autos ps)) by ring.
      apply Z.mul_le_mono_nonneg; lia.
    + destruct Hh as (-> & He). rewrite Ea, <- Z.mul_assoc.
      split; [apply Z.mul_pos_pos; lia|apply Z.mul_le_mono_nonneg_l; lia].
Qed.

(* size^k <= limit / itemsize / largest_block with int(size) = q >= 1 bounds a block of at most
   largest_block * q^k elements by the limit *)
Lemma limit_arith i F F' q num den k limit :
  0 < i -> 0 < den -> 0 <= k -> 1 <= q -> q * den <= num -> 0 < F' <= F * q ^ k ->
  num ^ k * i * F <= limit * den ^ k -> i * F' <= limit.
Proof.
  intros Hi Hden Hk Hq Hqd HF Hor.
  assert (q ^ k * den ^ k <= num ^ k) as HP by (rewrite <- Z.pow_mul_l; apply Z.pow_le_mono_l; lia).
  assert (0 < den ^ k) as HX by (apply Z.pow_pos_nonneg; lia).
  assert (0 < q ^ k) as HQ by (apply Z.pow_pos_nonneg; lia).
  assert (0 < F) as HF0 by nia.
  assert (i * F * (q ^ k * den ^ k) <= i * F * num ^ k) as H1 by (apply Z.mul_le_mono_nonneg_l; nia).
  assert (i * F' * den ^ k <= i * (F * q ^ k) * den ^ k) as H2
    by (apply Z.mul_le_mono_nonneg_r; [lia|apply Z.mul_le_mono_nonneg_l; lia]).
  apply Z.mul_le_mono_pos_r with (p := den ^ k); [exact HX|]. lia.
Qed.

(* normalize_chunks in terms of the last level of its auto_chunks *)
Lemma normalize_chunks_last sizes specs shape cs num den specsL :
  normalize_chunks sizes specs shape = Ok cs ->
  auto_last (S (length (subst_all specs shape))) sizes (subst_all specs shape) shape
    = Some (num, den, specsL) ->
  length specsL = length shape /\
  normalize_tail (map (final_spec num den) (combine specsL shape)) shape = Ok cs.
Proof.
  intros H HL. apply normalize_chunks_inv in H as (Hlen & specs' & Ha & Ht).
  pose proof (auto_chunks_by_last (S (length (subst_all specs shape))) sizes _ shape
                (subst_all_length specs shape Hlen)) as HB.
  rewrite HL, Ha in HB. destruct HB as [LenL HB]. injection HB as ->. auto.
Qed.

(* three cases: some axis has only zero-size chunks (max_block = 0); int(size) >= 1, where limit_arith
   gives the byte limit; int(size) < 1, where no axis is small and the remaining autos get chunk size 1 *)
Lemma normalize_auto_limit_core limit itemsize sizes specs shape cs num den specsL :
  0 < itemsize ->
  normalize_chunks sizes specs shape = Ok cs ->
  auto_last (S (length (subst_all specs shape))) sizes (subst_all specs shape) shape
    = Some (num, den, specsL) ->
  0 < den ->
  num ^ count_autos specsL * itemsize * largest_fixed specsL <= limit * den ^ count_autos specsL ->
  max_block cs = 0 \/
  (1 <= num / den /\ 0 < max_block cs /\ itemsize * max_block cs <= limit) \/
  (num / den < 1 /\ existsb (fun b => b) (small_flags num den specsL shape) = false /\
   0 < max_block cs <= largest_fixed specsL).
Proof.
  intros Hs H HL Hden Hor.
  destruct (normalize_chunks_last _ _ _ _ _ _ _ H HL) as [LenL Ht].
  remember (map (final_spec num den) (combine specsL shape)) as specs' eqn:Hspecs'.
  apply normalize_tail_inv in Ht as (Hc & Hnil & Hneg & _).
  destruct (convert_all_max specs' shape cs Hc Hnil Hneg) as [HM|[HM HF]]; [left; exact HM|right].
  rewrite Hspecs' in HF. apply Forall_map in HF.
  pose proof (count_autos_nonneg specsL) as Hk.
  assert (0 < largest_fixed specs' <= largest_fixed specsL * round_to_le num den ^ count_autos specsL) as HF1.
  { rewrite <- (map_fst_combine specsL shape LenL). rewrite Hspecs'. apply level_bound, Forall2_maps.
    eapply Forall_impl; [|exact HF]. intros [sp n] [Hna He]. apply final_spec_level; assumption. }
  unfold round_to_le in HF1. destruct (Z_le_gt_dec 1 (num / den)) as [Hq|Hq].
  - left. split; [exact Hq|]. split; [lia|]. rewrite Z.max_r in HF1 by lia.
    pose proof (Z.mul_div_le num den Hden).
    assert (itemsize * largest_fixed specs' <= limit) by (eapply limit_arith; try eassumption; lia). nia.
  - right. split; [lia|]. rewrite Z.max_l, Z.pow_1_l in HF1 by lia. split; [|lia].
    unfold small_flags. apply existsb_id_map_false.
    eapply Forall_impl; [|exact HF]. intros [sp n] [Hna He]. apply (final_spec_level num den sp n Hden Hna He). lia.
Qed.

(* The byte limit for auto axes, disjunctive form.  [num/den] is the LAST oracle value consumed (the
   float `size` of the last recursion level), [specsL] the specs at that level:
   k = count_autos specsL auto axes remain and largest_block = largest_fixed
   specsL.  Hypothesis: size^k <= limit / itemsize / largest_block.  Then every
   block has at most [limit] bytes, unless int(size) < 1: then no axis was
   small at that level and all remaining auto axes get chunk size 1
   (normalize_auto_unit_chunks), i.e. the fixed axes decide the block size. *)
Theorem normalize_auto_limit : forall limit itemsize sizes specs shape cs num den specsL,
  0 < itemsize -> 0 <= limit ->
  normalize_chunks sizes specs shape = Ok cs ->
  auto_last (S (length (subst_all specs shape))) sizes (subst_all specs shape) shape
    = Some (num, den, specsL) ->
  0 < den ->
  num ^ count_autos specsL * itemsize * largest_fixed specsL <= limit * den ^ count_autos specsL ->
  itemsize * max_block cs <= limit \/
  (num / den < 1 /\ existsb (fun b => b) (small_flags num den specsL shape) = false).
Proof.
  intros limit itemsize sizes specs shape cs num den specsL Hs Hlim H HL Hden Hor.
  destruct (normalize_auto_limit_core _ _ _ _ _ _ _ _ _ Hs H HL Hden Hor)
    as [HM | [(_ & _ & HB) | (Hq & Hns & _)]].
  - left. rewrite HM. lia.
  - left. exact HB.
  - right. auto.
Qed.

(* The byte limit as a single inequality: block bytes never exceed the larger of the limit
   and the bytes of the non-auto part at the last level. *)
Theorem normalize_auto_limit_max : forall limit itemsize sizes specs shape cs num den specsL,
  0 < itemsize -> 0 <= limit ->
  normalize_chunks sizes specs shape = Ok cs ->
  auto_last (S (length (subst_all specs shape))) sizes (subst_all specs shape) shape
    = Some (num, den, specsL) ->
  0 < den ->
  num ^ count_autos specsL * itemsize * largest_fixed specsL <= limit * den ^ count_autos specsL ->
  itemsize * max_block cs <= Z.max limit (itemsize * largest_fixed specsL).
Proof.
  intros limit itemsize sizes specs shape cs num den specsL Hs Hlim H HL Hden Hor.
  destruct (normalize_auto_limit_core _ _ _ _ _ _ _ _ _ Hs H HL Hden Hor)
    as [HM | [(_ & _ & HB) | (Hq & Hns & HB)]].
  - rewrite HM. lia.
  - lia.
  - nia.
Qed.

(* when int(size) < 1 at the last level, every remaining auto axis is cut
   into chunks of size 1 *)
Theorem normalize_auto_unit_chunks : forall sizes specs shape cs num den specsL,
  normalize_chunks sizes specs shape = Ok cs ->
  auto_last (S (length (subst_all specs shape))) sizes (subst_all specs shape) shape
    = Some (num, den, specsL) ->
  num / den < 1 ->
  existsb (fun b => b) (small_flags num den specsL shape) = false ->
  forall i n, nth_error specsL i = Some AAuto -> nth_error shape i = Some n ->
    nth_error cs i = Some (if n =? 0 then [0] else repeat 1 (Z.to_nat n)).
Proof.
  intros sizes specs shape cs num den specsL H HL Hq Hns i n Hsp Hn.
  destruct (normalize_chunks_last _ _ _ _ _ _ _ H HL) as [LenL Ht].
  (* no axis is small: the level resolves every auto axis to max(1, int(size)) = 1 *)
  rewrite final_spec_map, fix_small_none in Ht by assumption.
  destruct (normalize_tail_nth _ _ _ i _ n Ht (map_nth_error _ i specsL Hsp) Hn) as (l & Hl & Hcl & _).
  unfold resolve, round_to_le in Hcl. cbn [is_auto convert_axis] in Hcl. rewrite Z.max_l in Hcl by lia.
  rewrite Hl. f_equal. unfold blockdims_axis in Hcl.
  destruct (n =? 0) eqn:En; [congruence|].
  rewrite Z.div_1_r, Z.mod_1_r in Hcl. cbn in Hcl. rewrite app_nil_r in Hcl. congruence.
Qed.

(* the hypothesis "every oracle value satisfies the k-th-root inequality at
   its recursion level" *)
Fixpoint oracles_sound (limit itemsize : Z) (fuel : nat) (sizes : list (Z * Z))
         (specs : list aspec) (shape : list Z) : Prop :=
  if count_autos specs =? 0 then True else
  match fuel, sizes with
  | S f, (num, den) :: sizes' =>
      (0 < den /\
       num ^ count_autos specs * itemsize * largest_fixed specs <= limit * den ^ count_autos specs) /\
      oracles_sound limit itemsize f sizes'
        (fix_small specs shape (small_flags num den specs shape)) shape
  | _, _ => True
  end.

Lemma oracles_sound_last limit itemsize fuel : forall sizes specs shape num den specsL,
  oracles_sound limit itemsize fuel sizes specs shape ->
  auto_last fuel sizes specs shape = Some (num, den, specsL) ->
  0 < den /\
  num ^ count_autos specsL * itemsize * largest_fixed specsL <= limit * den ^ count_autos specsL.
Proof.
  induction fuel as [|f IH]; intros sizes specs shape num den specsL Ho HL;
    cbn [auto_last oracles_sound] in HL, Ho; destruct (count_autos specs =? 0) eqn:Ec; try discriminate.
  destruct sizes as [|[num0 den0] sizes]; [discriminate|]. cbv zeta in HL.
  destruct Ho as [Ho1 Ho2].
  destruct (existsb (fun b => b) (small_flags num0 den0 specs shape) &&
            negb (count_autos (fix_small specs shape (small_flags num0 den0 specs shape)) =? 0)).
  - eapply IH; eassumption.
  - injection HL as <- <- <-. exact Ho1.
Qed.

(* The byte limit with the hypothesis on all levels, no reference to the last level in
   the hypotheses *)
Theorem normalize_auto_limit_all_levels : forall limit itemsize sizes specs shape cs,
  0 < itemsize -> 0 <= limit ->
  normalize_chunks sizes specs shape = Ok cs ->
  count_autos (subst_all specs shape) <> 0 ->
  oracles_sound limit itemsize (S (length (subst_all specs shape))) sizes (subst_all specs shape) shape ->
  exists num den specsL,
    auto_last (S (length (subst_all specs shape))) sizes (subst_all specs shape) shape
      = Some (num, den, specsL) /\
    (itemsize * max_block cs <= limit \/
     (num / den < 1 /\ existsb (fun b => b) (small_flags num den specsL shape) = false)) /\
    itemsize * max_block cs <= Z.max limit (itemsize * largest_fixed specsL).
Proof.
  intros limit itemsize sizes specs shape cs Hs Hlim H Hk Ho.
  pose proof (normalize_chunks_inv _ _ _ _ H) as (Hlen & specs' & Ha & _).
  pose proof (auto_chunks_by_last (S (length (subst_all specs shape))) sizes _ shape
                (subst_all_length specs shape Hlen)) as HB.
  destruct (auto_last _ sizes _ shape) as [[[num den] specsL]|] eqn:HL;
    [|rewrite Ha in HB; destruct (count_autos (subst_all specs shape) =? 0) eqn:Ec; [lia|discriminate]].
  destruct (oracles_sound_last _ _ _ _ _ _ _ _ _ Ho HL) as [Hden Hor].
  exists num, den, specsL. split; [reflexivity|]. split.
  - eapply normalize_auto_limit; eassumption.
  - eapply normalize_auto_limit_max; eassumption.
Qed.

Lemma count_small num den ps :
  count_autos (map (small_spec num den) ps) +
  Z.of_nat (length (filter (fun p => is_auto (fst p) && (snd p * den <? num)) ps)) =
  count_autos (map fst ps).
Proof.
  induction ps as [|[sp n] ps IH]; [reflexivity|].
  cbn [map filter fst snd]. rewrite !count_autos_cons. unfold small_spec at 1. cbn [fst snd].
  destruct (is_auto sp) eqn:Ea; cbn [andb].
  - destruct (n * den <? num); cbn [is_auto length]; rewrite ?Ea; lia.
  - rewrite Ea. lia.
Qed.

Lemma existsb_filter_nonempty {A} (g : A -> bool) l :
  existsb (fun b => b) (map g l) = true -> (0 < length (filter g l))%nat.
Proof.
  induction l as [|x l IH]; cbn [map existsb filter]; [discriminate|].
  destruct (g x); cbn [orb length]; [lia|exact IH].
Qed.

Lemma fix_small_count num den specs shape :
  length specs = length shape ->
  existsb (fun b => b) (small_flags num den specs shape) = true ->
  count_autos (fix_small specs shape (small_flags num den specs shape)) < count_autos specs.
Proof.
  intros Hlen Hex. rewrite fix_small_map.
  pose proof (count_small num den (combine specs shape)) as Hc.
  rewrite (map_fst_combine specs shape Hlen) in Hc.
  apply existsb_filter_nonempty in Hex. lia.
Qed.

Lemma auto_chunks_total fuel : forall sizes specs shape,
  length specs = length shape ->
  count_autos specs < Z.of_nat fuel ->
  count_autos specs <= Z.of_nat (length sizes) ->
  exists specs', auto_chunks fuel sizes specs shape = Ok specs'.
Proof.
  induction fuel as [|f IH]; intros sizes specs shape Hlen Hf Hs.
  - pose proof (count_autos_nonneg specs). lia.
  - destruct (count_autos specs =? 0) eqn:Ec; [rewrite auto_chunks_done by exact Ec; eauto|].
    pose proof (count_autos_nonneg specs) as Hk.
    destruct sizes as [|[num den] sizes]; [cbn [length] in Hs; lia|].
    rewrite auto_chunks_step by exact Ec.
    destruct (existsb (fun b => b) (small_flags num den specs shape)) eqn:Es; [|eauto].
    pose proof (fix_small_count num den specs shape Hlen Es) as Hlt.
    apply IH; [apply fix_small_length; exact Hlen| |]; cbn [length] in Hs; lia.
Qed.

(* The fuel of the model is adequate: with one oracle value per auto axis
   available, auto_chunks (with the fuel normalize_chunks passes) never
   returns the artefact error of the fuel/oracle stream running out. *)
Theorem auto_chunks_fuel_adequate : forall sizes specs shape,
  length specs = length shape ->
  count_autos specs <= Z.of_nat (length sizes) ->
  exists specs', auto_chunks (S (length specs)) sizes specs shape = Ok specs'.
Proof.
  intros sizes specs shape Hlen Hs. apply auto_chunks_total; [exact Hlen| |exact Hs].
  pose proof (count_autos_le specs). lia.
Qed.

Example blockdims_axis_ok_example : axis_layout_ok [4; 4; 2] 10 = true.
Proof. apply (blockdims_axis_ok 10 4); [lia|vm_compute; reflexivity|lia]. Qed.

Example blockdims_axis_err_example : blockdims_axis 10 0 = Err EZeroDiv.
Proof. apply blockdims_axis_err. repeat split; lia. Qed.

(* limit = 100 bytes, itemsize = 1: size = 100 / 1 / 4 = 25 *)
Example normalize_valid_layout_example :
  layout_ok [[4; 4; 2]; [25; 25; 25; 25]] [10; 100] = true.
Proof.
  apply (normalize_valid_layout [(25, 1)] [AInt 4; AAuto]).
  - repeat constructor; lia.
  - vm_compute. reflexivity.
Qed.

Example normalize_uniform_example :
  forall cs, normalize_chunks [(25, 1)] [AInt 4; AAuto] [10; 100] = Ok cs ->
  nth_error cs 0 = Some [4; 4; 2].
Proof.
  intros cs H.
  apply (normalize_uniform [(25, 1)] [AInt 4; AAuto] [10; 100] cs 0%nat 4 10) in H;
    [exact H|reflexivity|lia|reflexivity|lia].
Qed.

Example normalize_full_example :
  forall cs, normalize_chunks [] [AFull; AInt (-1)] [0; 7] = Ok cs ->
  nth_error cs 0 = Some [0] /\ nth_error cs 1 = Some [7].
Proof.
  intros cs H. split.
  - apply (normalize_full [] [AFull; AInt (-1)] [0; 7] cs 0%nat AFull 0); auto.
  - apply (normalize_full [] [AFull; AInt (-1)] [0; 7] cs 1%nat (AInt (-1)) 7); auto.
Qed.

Example normalize_zero_only_on_empty_axes_example :
  Forall (fun c => 0 < c) [25; 25; 25; 25].
Proof.
  apply (normalize_zero_only_on_empty_axes [(25, 1)] [ATuple [5; 5]; AAuto] [10; 100]
           [[5; 5]; [25; 25; 25; 25]]) with (i := 1%nat) (n := 100).
  - intros l [Hl|[Hl|[]]]; [|discriminate]. injection Hl as <-. cbn. intros [|[|[]]]; discriminate.
  - vm_compute. reflexivity.
  - reflexivity.
  - lia.
  - reflexivity.
Qed.

(* Two recursion levels.  limit = 1000, itemsize = 1, shape (3, 1000, 10),
   chunks ("auto", "auto", 2).  Level 1: largest_block = 2, k = 2,
   size = sqrt(500) ~ 22.36: axis 0 is small.  Level 2: largest_block = 6,
   k = 1, size = 1000/6 = 500/3: chunk size 166 on axis 1. *)
Example normalize_auto_limit_example :
  let sizes := [(2236, 100); (500, 3)] in
  let specs := [AAuto; AAuto; AInt 2] in
  let shape := [3; 1000; 10] in
  let cs := [[3]; [166; 166; 166; 166; 166; 166; 4]; [2; 2; 2; 2; 2]] in
  normalize_chunks sizes specs shape = Ok cs /\
  oracles_sound 1000 1 (S (length (subst_all specs shape))) sizes (subst_all specs shape) shape /\
  auto_last (S (length (subst_all specs shape))) sizes (subst_all specs shape) shape
    = Some (500, 3, [ATuple [3]; AAuto; AInt 2]) /\
  1 * max_block cs <= 1000.
Proof.
  intros sizes specs shape cs.
  assert (normalize_chunks sizes specs shape = Ok cs) as H by (vm_compute; reflexivity).
  assert (oracles_sound 1000 1 (S (length (subst_all specs shape))) sizes (subst_all specs shape) shape) as Ho.
  { vm_compute. repeat split; try reflexivity; intros E; discriminate E. }
  split; [exact H|]. split; [exact Ho|].
  destruct (normalize_auto_limit_all_levels 1000 1 sizes specs shape cs) as (num & den & specsL & HL & [HB|[Hq _]] & _);
    try assumption; try lia.
  - vm_compute. discriminate.
  - vm_compute in HL. injection HL as <- <- <-. split; [reflexivity|exact HB].
  - vm_compute in HL. injection HL as <- <- <-. vm_compute in Hq. discriminate.
Qed.

(* The oracle hypothesis is needed: size = 50 > 100 / 1 / 4 gives 200 > 100 bytes. *)
Example normalize_auto_limit_needs_oracle_hyp :
  normalize_chunks [(50, 1)] [AInt 4; AAuto] [10; 100] = Ok [[4; 4; 2]; [50; 50]] /\
  ~ (1 * max_block [[4; 4; 2]; [50; 50]] <= 100).
Proof. split; vm_compute; [reflexivity|]. intros H. apply H. reflexivity. Qed.

(* 0 <= limit is needed (Python enforces limit = max(1, limit)): with a negative
   fixed extent on an empty axis the oracle inequality holds for limit = -1. *)
Example normalize_auto_limit_needs_nonneg_limit :
  normalize_chunks [(100, 1)] [AInt (-3); AAuto] [0; 5] = Ok [[0]; [5]] /\
  oracles_sound (-1) 1 3 [(100, 1)] (subst_all [AInt (-3); AAuto] [0; 5]) [0; 5] /\
  ~ (1 * max_block [[0]; [5]] <= -1).
Proof.
  split; [vm_compute; reflexivity|]. split.
  - vm_compute. repeat split; try reflexivity; intros E; discriminate E.
  - vm_compute. intros H. apply H. reflexivity.
Qed.

(* int(size) < 1: the auto axis is cut into unit chunks and the fixed axis
   alone (50 bytes) exceeds limit = 25 *)
Example normalize_auto_unit_chunks_example :
  forall cs, normalize_chunks [(1, 2)] [AInt 50; AAuto] [100; 5] = Ok cs ->
  nth_error cs 1 = Some [1; 1; 1; 1; 1].
Proof.
  intros cs H.
  exact (normalize_auto_unit_chunks [(1, 2)] [AInt 50; AAuto] [100; 5] cs 1 2 [AInt 50; AAuto]
           H eq_refl eq_refl eq_refl 1%nat 5 eq_refl eq_refl).
Qed.

Print Assumptions blockdims_axis_ok.
Print Assumptions blockdims_axis_err.
Print Assumptions normalize_valid_layout.
Print Assumptions normalize_uniform.
Print Assumptions normalize_full.
Print Assumptions normalize_full_cases.
Print Assumptions normalize_zero_only_on_empty_axes.
Print Assumptions normalize_explicit_zero_refuted.
Print Assumptions normalize_auto_limit.
Print Assumptions normalize_auto_limit_max.
Print Assumptions normalize_auto_unit_chunks.
Print Assumptions normalize_auto_limit_all_levels.
Print Assumptions auto_last_nth.
Print Assumptions auto_chunks_fuel_adequate.
Print Assumptions normalize_auto_limit_example.
