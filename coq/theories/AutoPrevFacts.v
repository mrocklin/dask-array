(* The model of auto_chunks' previous_chunks branch (AutoPrev.v):
   structure of the model and VALIDITY of every result, for all oracle values.

     normalize_prev_valid_layout   every accepted result is a layout of the shape
     normalize_prev_auto_positive  'auto' axes of positive length get positive chunks
     normalize_prev_fixed_untouched  the other axes are converted exactly as without previous_chunks
     normalize_prev_no_auto        without 'auto' previous_chunks is ignored *)
From DA Require Import ListFacts PyBase NormChunks NormChunksFacts AutoPrev.
Open Scope Z_scope.

Theorem normalize_prev_no_auto : forall orc fuel limit itemsize specs shape prev sizes,
  length specs = length shape ->
  count_autos (subst_all specs shape) = 0 ->
  normalize_chunks_prev orc fuel limit itemsize specs shape prev =
  match normalize_chunks sizes specs shape with Ok cs => POk cs | Err e => PErr e end.
Proof.
  intros orc fuel limit itemsize specs shape prev sizes Hlen Hc.
  rewrite normalize_chunks_tail. unfold normalize_chunks_prev. fold (subst_all specs shape).
  rewrite Hlen, Nat.eqb_refl, Hc, auto_chunks_done by (rewrite Hc; reflexivity). reflexivity.
Qed.

Lemma ideals_of_length pvs : forall shape ids,
  ideals_of pvs shape = Ok ids -> length ids = length shape /\ (length shape <= length pvs)%nat.
Proof.
  induction pvs as [|pv pvs IH]; intros [|s shape] ids H; cbn [ideals_of] in H.
  - injection H as <-. split; cbn; lia.
  - discriminate.
  - injection H as <-. split; cbn; lia.
  - destruct (ideal_of pv s) as [i|]; [|discriminate].
    destruct (ideals_of pvs shape) as [r|] eqn:Hr; [|discriminate].
    injection H as <-. destruct (IH shape r Hr). cbn [length]. split; lia.
Qed.

Lemma mk_consts_length shape : forall pvs ids,
  length ids = length shape -> (length shape <= length pvs)%nat ->
  length (mk_consts shape pvs ids) = length shape.
Proof.
  induction shape as [|n shape IH]; intros [|pv pvs] [|i ids] H1 H2; cbn in *; try lia.
  rewrite IH; lia.
Qed.

Lemma init_axes_length specs pvs :
  (length specs <= length pvs)%nat -> length (init_axes specs pvs) = length specs.
Proof. intros H. unfold init_axes. rewrite map_length, combine_length. lia. Qed.

(* One pass over the axes, as a relation: the axes outside `autos` are left alone, [axis_step] is applied
   to the others; the flags are or-ed and the factors of largest_block multiplied. *)
Inductive round_rel (reduce : bool) (o : nat -> fval * fval)
  : nat -> list axc -> list axst -> list axst -> bool -> Z -> Prop :=
| round_nil a : round_rel reduce o a [] [] [] false 1
| round_keep a c cs x xs xs' f k :
    ax_auto x = false -> round_rel reduce o (S a) cs xs xs' f k ->
    round_rel reduce o a (c :: cs) (x :: xs) (x :: xs') f k
| round_step a c cs x xs x' f k xs' f' k' :
    ax_auto x = true -> axis_step reduce c (o a) x = (x', f, k) ->
    round_rel reduce o (S a) cs xs xs' f' k' ->
    round_rel reduce o a (c :: cs) (x :: xs) (x' :: xs') (f || f') (k * k').

(* induction on a round_rel hypothesis at the head of the goal, under the names of the constructors:
   Ea is the ax_auto x equation, Hs the axis_step equation of round_step, IH the fact about the later axes *)
Ltac round_rel_induction :=
  induction 1 as [a|a c cs x xs xs' f k Ea _ IH|a c cs x xs x' f k xs' f' k' Ea Hs _ IH].

Lemma round_axes_rel reduce o cs : forall a xs xs' f k,
  length cs = length xs -> round_axes reduce cs a o xs = (xs', f, k) -> round_rel reduce o a cs xs xs' f k.
Proof.
  induction cs as [|c cs IH]; intros a [|x xs] xs' f k Hl H; try discriminate Hl; cbn [round_axes] in H.
  - injection H as <- <- <-. constructor.
  - destruct (round_axes reduce cs (S a) o xs) as [[xs2 f2] k2] eqn:Hr.
    apply IH in Hr; [|injection Hl as Hl; exact Hl].
    destruct (ax_auto x) eqn:Ea.
    + destruct (axis_step reduce c (o a) x) as [[x1 f1] k1] eqn:Hs.
      injection H as <- <- <-. econstructor; eassumption.
    + cbv beta iota zeta in H. rewrite Z.mul_1_l in H. injection H as <- <- <-. constructor; assumption.
Qed.

Lemma round_rel_length reduce o a cs xs xs' f k :
  round_rel reduce o a cs xs xs' f k -> length xs' = length xs.
Proof. induction 1; cbn [length]; congruence. Qed.

(* one pass of the loop: the axes, largest_block, and the multiplier, which is recomputed in the shrinking
   case and whenever an axis left `autos` *)
Lemma prev_round_inv reduce limit itemsize cs o st st' b :
  prev_round reduce limit itemsize cs o st = Ok (st', b) -> length cs = length (ls_axes st) ->
  exists f k,
    round_rel reduce o 0 cs (ls_axes st) (ls_axes st') f k /\ ls_lb st' = ls_lb st * k /\
    if reduce || f
    then compute_multiplier limit itemsize (ls_lb st') (map ax_med (ls_axes st')) = Ok (ls_mult st') /\
         b = f || f_ne (ls_mult st') (ls_mult st)
    else ls_mult st' = ls_mult st /\ b = false.
Proof.
  unfold prev_round. intros H Hl.
  destruct (round_axes reduce cs 0 o (ls_axes st)) as [[xs f] k] eqn:Hr.
  apply round_axes_rel in Hr; [|exact Hl]. exists f, k. rewrite (orb_comm reduce f).
  destruct (f || reduce).
  - destruct (compute_multiplier limit itemsize (ls_lb st * k) (map ax_med xs)) as [m2|] eqn:Hm; [|discriminate].
    injection H as <- <-. cbn [ls_axes ls_lb ls_mult]. auto.
  - injection H as <- <-. cbn [ls_axes ls_lb ls_mult]. auto.
Qed.

(* what the loop can leave in the dicts *)
Definition dv_good (v : dv) : Prop :=
  match v with VTup l => Forall (fun c => 0 < c) l \/ length l = 1%nat | VNum _ => True end.
Definition opt_good (o : option dv) : Prop := match o with Some v => dv_good v | None => True end.
(* per-axis invariant relative to the spec of the axis *)
Definition ax_inv (sp : aspec) (x : axst) : Prop :=
  if is_auto sp then opt_good (ax_med x) /\ opt_good (ax_res x) else x = mkax false None None.

Lemma merge_prev_pos p pv : forall nc, Forall (fun c => 0 < c) (merge_prev p pv nc).
Proof.
  induction pv as [|c pv IH]; intros nc; cbn [merge_prev].
  - destruct (0 <? nc) eqn:E; constructor; [lia|constructor].
  - destruct (z_le_f (c + nc) p); [apply IH|].
    apply Forall_app. split; [|apply IH].
    destruct (0 <? nc) eqn:E; constructor; [lia|constructor].
Qed.

Lemma axis_step_good reduce c o x x' f k :
  axis_step reduce c o x = (x', f, k) ->
  opt_good (ax_med x) -> opt_good (ax_res x) -> opt_good (ax_med x') /\ opt_good (ax_res x').
Proof.
  unfold axis_step. destruct o as [p mcs]. intros H Hm Hr.
  destruct (f_gt_z p (c_n c)).
  - injection H as <- _ _. destruct reduce; cbn; auto.
  - destruct (reduce || z_gt_f (max_of (c_pv c)) mcs).
    + destruct (f_lt_z p 1); injection H as <- _ _; unfold set_res; destruct reduce; cbn; auto.
    + injection H as <- _ _. unfold set_res.
      pose proof (merge_prev_pos p (c_pv c) 0) as Hp.
      destruct reduce; cbn; auto.
Qed.

Lemma round_rel_inv reduce o a cs xs xs' f k :
  round_rel reduce o a cs xs xs' f k ->
  forall specs, Forall2 ax_inv specs xs -> Forall2 ax_inv specs xs'.
Proof.
  round_rel_induction; intros specs HF.
  - exact HF.
  - inversion HF as [|sp ? ? ? Hx HF']; subst. constructor; [exact Hx|exact (IH _ HF')].
  - inversion HF as [|sp ? ? ? Hx HF']; subst. constructor; [|exact (IH _ HF')].
    unfold ax_inv in *. destruct (is_auto sp).
    + destruct Hx as [Hm Hr]. eapply axis_step_good; eassumption.
    + subst x. discriminate.
Qed.

Lemma prev_loop_inv fuel reduce limit itemsize cs orc specs : forall r st st',
  prev_loop fuel reduce limit itemsize cs orc r st = LDone st' -> length cs = length (ls_axes st) ->
  Forall2 ax_inv specs (ls_axes st) -> Forall2 ax_inv specs (ls_axes st').
Proof.
  induction fuel as [|f IH]; intros r st st' H Hl HF; cbn [prev_loop] in H; [discriminate|].
  destruct (prev_round reduce limit itemsize cs (orc r) st) as [[st1 b]|] eqn:Hr; [|discriminate].
  destruct (prev_round_inv _ _ _ _ _ _ _ _ Hr Hl) as (fl & k & Hrel & _).
  pose proof (round_rel_inv _ _ _ _ _ _ _ _ Hrel _ HF) as HF1.
  destruct b.
  - eapply IH; [exact H|rewrite (round_rel_length _ _ _ _ _ _ _ _ Hrel); exact Hl|exact HF1].
  - injection H as <-. exact HF1.
Qed.

Lemma init_axes_inv specs : forall pvs,
  (length specs <= length pvs)%nat -> Forall2 ax_inv specs (init_axes specs pvs).
Proof.
  unfold init_axes. induction specs as [|sp specs IH]; intros pvs Hl; [constructor|].
  destruct pvs as [|pv pvs]; cbn in Hl; [lia|]. cbn [combine map].
  constructor; [|apply IH; lia]. cbn [fst snd]. unfold ax_inv.
  destruct (is_auto sp); cbn; auto.
Qed.

(* what the resolved spec of an axis can be *)
Definition fin_rel (sp sp' : aspec) : Prop :=
  if is_auto sp
  then sp' = AAuto \/ (exists c, sp' = AInt c) \/
       (exists l, sp' = ATuple l /\ (Forall (fun c => 0 < c) l \/ length l = 1%nat))
  else sp' = sp.

Lemma final_specs_rel reduce specs : forall xs specs',
  Forall2 ax_inv specs xs -> final_specs reduce specs xs = Ok specs' -> Forall2 fin_rel specs specs'.
Proof.
  induction specs as [|sp specs IH]; intros xs specs' HF H; inversion HF as [|? x ? xs0 Hx HF']; subst;
    cbn [final_specs] in H.
  - injection H as <-. constructor.
  - destruct (final_spec_of sp (if reduce then ax_med x else ax_res x)) as [s|] eqn:Hs; [|discriminate].
    destruct (final_specs reduce specs xs0) as [r|] eqn:Hr; [|discriminate].
    injection H as <-. constructor; [|eapply IH; eassumption].
    unfold fin_rel, ax_inv in *. destruct (is_auto sp) eqn:Ea.
    + destruct Hx as [Hm Hres].
      assert (opt_good (if reduce then ax_med x else ax_res x)) as Hg by (destruct reduce; assumption).
      destruct (if reduce then ax_med x else ax_res x) as [[[|n d]|[|y l]]|]; cbn [final_spec_of] in Hs.
      * (* NaN *) discriminate.
      * (* a rational *)
        destruct (n =? 0); [injection Hs as <-; eauto|].
        destruct (n mod d =? 0); [injection Hs as <-; eauto|discriminate].
      * (* the empty tuple *) injection Hs as <-. eauto.
      * (* a tuple *) injection Hs as <-. right. right. exists (y :: l). split; [reflexivity|exact Hg].
      * (* no entry *) injection Hs as <-. destruct sp; try discriminate. left. reflexivity.
    + subst x. destruct reduce; cbn in Hs; injection Hs as <-; reflexivity.
Qed.

(* what auto_chunks computes before the loop *)
Lemma loop_start_inv limit itemsize specs shape pvs reduce cs st0 :
  loop_start limit itemsize specs shape pvs = Ok (reduce, cs, st0) ->
  exists ids m,
    initial_multiplier limit itemsize specs pvs = Ok m /\ ideals_of pvs shape = Ok ids /\
    reduce = f_lt_z m 1 /\ cs = mk_consts shape pvs ids /\
    st0 = mkls (init_axes specs pvs) (largest_fixed specs) m.
Proof.
  unfold loop_start. destruct (initial_multiplier limit itemsize specs pvs) as [m|]; [|discriminate].
  destruct (ideals_of pvs shape) as [ids|]; [|discriminate].
  intros H. injection H as <- <- <-. exists ids, m. auto.
Qed.

Lemma loop_start_length limit itemsize specs shape pvs reduce cs st0 :
  length specs = length shape -> loop_start limit itemsize specs shape pvs = Ok (reduce, cs, st0) ->
  length cs = length (ls_axes st0) /\ (length specs <= length pvs)%nat.
Proof.
  intros Hlen H. apply loop_start_inv in H as (ids & m & _ & Hi & _ & -> & ->).
  destruct (ideals_of_length _ _ _ Hi) as [Li Lp]. cbn [ls_axes].
  rewrite mk_consts_length, init_axes_length; lia.
Qed.

Lemma auto_chunks_prev_rel orc fuel limit itemsize specs shape pvs specs' :
  length specs = length shape ->
  auto_chunks_prev orc fuel limit itemsize specs shape pvs = AOk specs' ->
  Forall2 fin_rel specs specs'.
Proof.
  intros Hlen. unfold auto_chunks_prev.
  destruct (loop_start limit itemsize specs shape pvs) as [[[reduce cs] st0]|] eqn:Hst; [|discriminate].
  destruct (loop_start_length _ _ _ _ _ _ _ _ Hlen Hst) as [Hl0 Lp].
  apply loop_start_inv in Hst as (ids & m & _ & _ & _ & _ & ->).
  destruct (prev_loop fuel reduce (Z.max 1 limit) itemsize cs orc 0 _) as [st| |] eqn:Hl; try discriminate.
  destruct (final_specs reduce specs (ls_axes st)) as [s|] eqn:Hf; [|discriminate].
  intros H. injection H as <-.
  eapply final_specs_rel; [|exact Hf].
  eapply prev_loop_inv; [exact Hl|exact Hl0|]. apply init_axes_inv. exact Lp.
Qed.

Lemma fin_rel_same specs : Forall2 fin_rel specs specs.
Proof. induction specs as [|sp specs IH]; constructor; [|exact IH]. unfold fin_rel. destruct sp; cbn; auto. Qed.

Lemma normalize_prev_inv orc fuel limit itemsize specs shape prev cs :
  normalize_chunks_prev orc fuel limit itemsize specs shape prev = POk cs ->
  length specs = length shape /\
  exists specs', Forall2 fin_rel (subst_all specs shape) specs' /\ normalize_tail specs' shape = Ok cs.
Proof.
  unfold normalize_chunks_prev. fold (subst_all specs shape).
  destruct (Nat.eqb (length specs) (length shape)) eqn:El; cbn [negb]; [|discriminate].
  apply Nat.eqb_eq in El. intros H. split; [exact El|].
  destruct (count_autos (subst_all specs shape) =? 0).
  - exists (subst_all specs shape). split; [apply fin_rel_same|].
    destruct (normalize_tail (subst_all specs shape) shape); [|discriminate]. injection H as <-. reflexivity.
  - destruct prev as [|p0 prev]; [discriminate|].
    destruct (conv_prev shape (p0 :: prev)) as [pvs|]; [|discriminate].
    destruct (auto_chunks_prev orc fuel limit itemsize (subst_all specs shape) shape pvs) as [specs'| |] eqn:Ha;
      try discriminate.
    exists specs'. split; [eapply auto_chunks_prev_rel; [apply subst_all_length; exact El|exact Ha]|].
    destruct (normalize_tail specs' shape); [|discriminate]. injection H as <-. reflexivity.
Qed.

Theorem normalize_prev_valid_layout : forall orc fuel limit itemsize specs shape prev cs,
  Forall (fun n => 0 <= n) shape ->
  normalize_chunks_prev orc fuel limit itemsize specs shape prev = POk cs ->
  layout_ok cs shape = true.
Proof.
  intros orc fuel limit itemsize specs shape prev cs Hsh H.
  apply normalize_prev_inv in H as (_ & specs' & _ & Ht). eapply normalize_tail_layout; eassumption.
Qed.

Lemma sums_nth cs : forall shape i l n,
  forallb (fun p => zsum (fst p) =? snd p) (combine cs shape) = true ->
  nth_error cs i = Some l -> nth_error shape i = Some n -> zsum l = n.
Proof.
  induction cs as [|c cs IH]; intros [|s shape] [|i] l n H Hc Hs; cbn [nth_error combine forallb fst snd] in *;
    try discriminate.
  - injection Hc as <-. injection Hs as <-. apply andb_true_iff in H as [H _]. lia.
  - apply andb_true_iff in H as [_ H]. eapply IH; eassumption.
Qed.

Lemma subst_full_not_auto sp n : sp <> AAuto -> is_auto (subst_full sp n) = false.
Proof. intros H. destruct sp as [c| | |]; cbn; try reflexivity; [destruct (c =? -1); reflexivity|congruence]. Qed.

Lemma normalize_prev_axis orc fuel limit itemsize specs shape prev cs :
  Forall (fun n => 0 <= n) shape ->
  normalize_chunks_prev orc fuel limit itemsize specs shape prev = POk cs ->
  forall i sp n, nth_error specs i = Some sp -> nth_error shape i = Some n ->
  exists sp' l, fin_rel (subst_full sp n) sp' /\ nth_error cs i = Some l /\ convert_axis sp' n = Ok l /\
    is_nil l = false /\ existsb (fun x => x <? 0) l = false /\ zsum l = n.
Proof.
  intros Hsh H i sp n Hsp Hn.
  apply normalize_prev_inv in H as (Hlen & specs' & HF & Ht).
  pose proof (subst_all_nth specs shape i sp n Hsp Hn) as Hsub.
  pose proof (normalize_tail_sums _ _ _ Hsh Ht) as Hsums.
  destruct (Forall2_nth_error_l _ _ _ i _ HF Hsub) as (sp' & Hsp' & Hrel).
  destruct (normalize_tail_nth _ _ _ i sp' n Ht Hsp' Hn) as (l & Hl & Hconv & Hnil & Hneg).
  exists sp', l. repeat split; try assumption. eapply sums_nth; eassumption.
Qed.

Theorem normalize_prev_auto_positive : forall orc fuel limit itemsize specs shape prev cs,
  Forall (fun n => 0 <= n) shape ->
  normalize_chunks_prev orc fuel limit itemsize specs shape prev = POk cs ->
  forall i n l, nth_error specs i = Some AAuto -> nth_error shape i = Some n -> 0 < n ->
    nth_error cs i = Some l -> Forall (fun c => 0 < c) l.
Proof.
  intros orc fuel limit itemsize specs shape prev cs Hsh H i n l Hsp Hn Hpos Hl.
  destruct (normalize_prev_axis _ _ _ _ _ _ _ _ Hsh H i AAuto n Hsp Hn)
    as (sp' & l' & Hrel & Hl' & Hconv & Hnil & Hneg & Hsum).
  assert (l' = l) as -> by congruence.
  cbn [subst_full] in Hrel. unfold fin_rel in Hrel. cbn [is_auto] in Hrel.
  destruct Hrel as [-> | [(c & ->) | (l0 & -> & Hgood)]]; cbn [convert_axis] in Hconv.
  - discriminate.
  - eapply blockdims_axis_pos; eassumption.
  - injection Hconv as ->. destruct Hgood as [Hp|Hone]; [exact Hp|].
    destruct l as [|x [|y l]]; cbn in Hone; try lia. cbn [zsum] in Hsum.
    constructor; [lia|constructor].
Qed.

Theorem normalize_prev_fixed_untouched : forall orc fuel limit itemsize specs shape prev cs,
  Forall (fun n => 0 <= n) shape ->
  normalize_chunks_prev orc fuel limit itemsize specs shape prev = POk cs ->
  forall i sp n, nth_error specs i = Some sp -> sp <> AAuto -> nth_error shape i = Some n ->
    exists l, nth_error cs i = Some l /\ convert_axis (subst_full sp n) n = Ok l.
Proof.
  intros orc fuel limit itemsize specs shape prev cs Hsh H i sp n Hsp Hna Hn.
  destruct (normalize_prev_axis _ _ _ _ _ _ _ _ Hsh H i sp n Hsp Hn)
    as (sp' & l & Hrel & Hl & Hconv & _).
  unfold fin_rel in Hrel. rewrite (subst_full_not_auto sp n Hna) in Hrel. subst sp'.
  exists l. auto.
Qed.

(* the loop of normalize_chunks_prev is reached through conv_prev and loop_start *)
Lemma prev_start_inv limit itemsize specs shape prev s :
  prev_start limit itemsize specs shape prev = Some s ->
  length specs = length shape /\
  exists pvs, conv_prev shape prev = Ok pvs /\ loop_start limit itemsize (subst_all specs shape) shape pvs = Ok s.
Proof.
  unfold prev_start. fold (subst_all specs shape).
  destruct (Nat.eqb (length specs) (length shape)) eqn:El; cbn [negb]; [|discriminate].
  apply Nat.eqb_eq in El.
  destruct (count_autos (subst_all specs shape) =? 0); [discriminate|].
  destruct prev as [|p0 prev]; [discriminate|].
  destruct (conv_prev shape (p0 :: prev)) as [pvs|]; [|discriminate].
  destruct (loop_start limit itemsize (subst_all specs shape) shape pvs) eqn:Hs; [|discriminate].
  intros H. injection H as <-. eauto.
Qed.

(* normalize_chunks_prev, seen from the start of its loop *)
Lemma normalize_prev_start orc fuel limit itemsize specs shape prev :
  match prev_start limit itemsize specs shape prev with
  | Some (reduce, cs, st0) =>
      normalize_chunks_prev orc fuel limit itemsize specs shape prev =
      match prev_loop fuel reduce (Z.max 1 limit) itemsize cs orc 0 st0 with
      | LFuel => PFuel
      | LErr e => PErr e
      | LDone st =>
          match final_specs reduce (subst_all specs shape) (ls_axes st) with
          | Ok s => match normalize_tail s shape with Ok c => POk c | Err e => PErr e end
          | Err e => PErr e
          end
      end
  | None => normalize_chunks_prev orc fuel limit itemsize specs shape prev <> PFuel
  end.
Proof.
  unfold normalize_chunks_prev, prev_start. fold (subst_all specs shape).
  destruct (Nat.eqb (length specs) (length shape)); cbn [negb]; [|discriminate].
  destruct (count_autos (subst_all specs shape) =? 0).
  { destruct (normalize_tail (subst_all specs shape) shape); discriminate. }
  destruct prev as [|p0 prev]; [discriminate|].
  destruct (conv_prev shape (p0 :: prev)) as [pvs|]; [|discriminate].
  unfold auto_chunks_prev.
  destruct (loop_start limit itemsize (subst_all specs shape) shape pvs) as [[[reduce cs] st0]|]; [|discriminate].
  destruct (prev_loop fuel reduce (Z.max 1 limit) itemsize cs orc 0 st0); try reflexivity.
  destruct (final_specs reduce (subst_all specs shape) (ls_axes st)); reflexivity.
Qed.

Lemma normalize_prev_fuel orc fuel limit itemsize specs shape prev :
  normalize_chunks_prev orc fuel limit itemsize specs shape prev = PFuel <->
  exists reduce cs st0,
    prev_start limit itemsize specs shape prev = Some (reduce, cs, st0) /\
    prev_loop fuel reduce (Z.max 1 limit) itemsize cs orc 0 st0 = LFuel.
Proof.
  pose proof (normalize_prev_start orc fuel limit itemsize specs shape prev) as Hst.
  destruct (prev_start limit itemsize specs shape prev) as [[[reduce cs] st0]|].
  - rewrite Hst. split.
    + intros H. exists reduce, cs, st0. split; [reflexivity|].
      destruct (prev_loop fuel reduce (Z.max 1 limit) itemsize cs orc 0 st0) as [st| |]; try discriminate; [|reflexivity].
      destruct (final_specs reduce (subst_all specs shape) (ls_axes st)) as [s|]; [|discriminate].
      destruct (normalize_tail s shape); discriminate.
    + intros (reduce' & cs' & st0' & E & Hl). injection E as <- <- <-. rewrite Hl. reflexivity.
  - split; [intros H; contradiction|]. intros (? & ? & ? & E & _). discriminate.
Qed.
