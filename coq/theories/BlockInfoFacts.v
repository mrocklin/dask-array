From DA Require Import PyBase PyBaseFacts Rechunk RechunkBase CrosswalkFacts BlockInfo.
Open Scope Z_scope.

Lemma Forall2_impl_in {A B} (P Q : A -> B -> Prop) l r :
  (forall a b, In a l -> P a b -> Q a b) -> Forall2 P l r -> Forall2 Q l r.
Proof.
  intros H F. induction F as [|a b l r Hab _ IH]; constructor; [apply H; [left; reflexivity|exact Hab]|].
  apply IH. intros a' b' Ha. apply H. right. exact Ha.
Qed.

Lemma Forall2_swap {A B} (P : A -> B -> Prop) l r : Forall2 P l r -> Forall2 (fun y x => P x y) r l.
Proof. induction 1; constructor; assumption. Qed.

Lemma Forall2_left {A B} (P : A -> B -> Prop) (Q : A -> Prop) l r :
  (forall a b, P a b -> Q a) -> Forall2 P l r -> Forall Q l.
Proof. intros H F. induction F; constructor; eauto. Qed.

Lemma Forall2_map_r {A B C} (P : A -> C -> Prop) (f : B -> C) : forall l r,
  Forall2 P l (map f r) <-> Forall2 (fun a b => P a (f b)) l r.
Proof.
  induction l as [|a l IH]; intros [|b r]; cbn [map].
  - split; constructor.
  - split; intros H; inversion H.
  - split; intros H; inversion H.
  - split; intros H; inversion H as [|? ? ? ? Hab Hlr]; subst; (constructor; [exact Hab|apply IH; exact Hlr]).
Qed.

Lemma Forall2_combine_map {A B C D} (P : C -> D -> Prop) (f : A * B -> C) (g : A * B -> D) : forall (l : list (A * B)),
  (forall x, In x l -> P (f x) (g x)) -> Forall2 P (map f l) (map g l).
Proof. intros l H. apply Forall2_maps, Forall_forall, H. Qed.

Lemma Forall2_map_eq {A B} (f : A -> B) l r : Forall2 (fun x y => f x = y) l r -> map f l = r.
Proof. induction 1 as [|x y l r Hxy _ IH]; cbn [map]; congruence. Qed.

Lemma Forall2_nth_intro {A B} (P : A -> B -> Prop) : forall l r,
  length l = length r ->
  (forall j x y, nth_error l j = Some x -> nth_error r j = Some y -> P x y) -> Forall2 P l r.
Proof.
  induction l as [|a l IH]; intros [|b r] Hlen H; cbn [length] in Hlen; try discriminate; constructor.
  - apply (H O); reflexivity.
  - apply IH; [lia|]. intros j x y Hx Hy. apply (H (S j)); assumption.
Qed.

Lemma forallb_ext' {A} (f g : A -> bool) l : (forall x, f x = g x) -> forallb f l = forallb g l.
Proof. intros H. induction l as [|x l IH]; cbn [forallb]; [reflexivity|]. rewrite H, IH. reflexivity. Qed.

Lemma list_eqb_sound {A} (eqb : A -> A -> bool) :
  (forall x y, eqb x y = true -> x = y) -> forall a b, list_eqb eqb a b = true -> a = b.
Proof.
  intros He. induction a as [|x a IH]; intros [|y b] H; cbn [list_eqb] in H; try discriminate; [reflexivity|].
  apply andb_true_iff in H. destruct H as [H1 H2]. f_equal; [apply He; exact H1|apply IH; exact H2].
Qed.

Lemma combine_maps {A B C} (f : A -> B) (g : A -> C) l : combine (map f l) (map g l) = map (fun x => (f x, g x)) l.
Proof. induction l as [|x l IH]; cbn [map combine]; congruence. Qed.

Lemma map2_maps {A B C D} (f : B -> C -> D) (g : A -> B) (h : A -> C) l :
  map2 f (map g l) (map h l) = map (fun x => f (g x) (h x)) l.
Proof. unfold map2. rewrite combine_maps, map_map. reflexivity. Qed.

Lemma nth_error_combine {A B} : forall (l : list A) (r : list B) j x y,
  nth_error (combine l r) j = Some (x, y) <-> nth_error l j = Some x /\ nth_error r j = Some y.
Proof.
  induction l as [|a l IH]; intros [|b r] [|j] x y; cbn [nth_error combine];
    try (split; [discriminate|intros [H1 H2]; discriminate]).
  - split; [intros [= <- <-]; auto|intros [[= <-] [= <-]]; reflexivity].
  - apply IH.
Qed.

Lemma all_some_map {A B} (f : A -> option B) : forall l r,
  all_some (map f l) = Some r <-> Forall2 (fun x y => f x = Some y) l r.
Proof.
  induction l as [|x l IH]; intros r; cbn [map all_some].
  - split; [intros [= <-]; constructor|intros H; inversion H; reflexivity].
  - split.
    + destruct (f x) as [y|] eqn:Ef; [|discriminate].
      destruct (all_some (map f l)) as [r'|] eqn:E; [|discriminate].
      intros [= <-]. constructor; [exact Ef|apply IH; reflexivity].
    + intros H. inversion H as [|? y ? r' Hy Hr]; subst. apply IH in Hr. rewrite Hy, Hr. reflexivity.
Qed.

Lemma all_some_map_total {A B} (f : A -> option B) (g : A -> B) l :
  (forall x, In x l -> f x = Some (g x)) -> all_some (map f l) = Some (map g l).
Proof.
  intros H. induction l as [|x l IH]; cbn [map all_some]; [reflexivity|].
  rewrite (H x (or_introl eq_refl)), IH; [reflexivity|]. intros y Hy. apply H. right. exact Hy.
Qed.

Lemma zseq_length n : length (zseq n) = n.
Proof. unfold zseq. rewrite map_length, seq_length. reflexivity. Qed.

Lemma In_zseq n x : In x (zseq n) <-> 0 <= x < Z.of_nat n.
Proof.
  unfold zseq. rewrite in_map_iff. split.
  - intros (k & <- & Hk). apply in_seq in Hk. lia.
  - intros H. exists (Z.to_nat x). split; [lia|]. apply in_seq. lia.
Qed.

Lemma NoDup_zseq n : NoDup (zseq n).
Proof. unfold zseq. apply NoDup_map_inj; [|apply seq_NoDup]. intros a b H. lia. Qed.

Lemma rev_range_length n : length (rev_range n) = n.
Proof. unfold rev_range. rewrite rev_length. apply zseq_length. Qed.

Lemma NoDup_rev_range n : NoDup (rev_range n).
Proof. unfold rev_range. apply NoDup_rev. apply NoDup_zseq. Qed.

Lemma dict_get_combine_nodup {A} : forall (ks : list Z) (vs : list A) j k v,
  NoDup ks -> nth_error ks j = Some k -> nth_error vs j = Some v ->
  dict_get k (combine ks vs) = Some v.
Proof.
  induction ks as [|a ks IH]; intros [|b vs] [|j] k v Hnd Hk Hv; cbn [nth_error] in *; try discriminate.
  - injection Hk as <-. injection Hv as <-. cbn [combine dict_get]. rewrite Z.eqb_refl. reflexivity.
  - inversion Hnd as [|a' ks' Hna Hnd']; subst. cbn [combine dict_get].
    assert (Hne : k <> a) by (intros ->; apply Hna; eapply nth_error_In; exact Hk).
    destruct (k =? a) eqn:E; [lia|]. eapply IH; eassumption.
Qed.

Lemma dict_get_None {A} (d : list (Z * A)) k : ~ In k (map fst d) -> dict_get k d = None.
Proof.
  induction d as [|[k' v] d IH]; cbn [map fst In dict_get]; intros H; [reflexivity|].
  destruct (k =? k') eqn:E; [exfalso; apply H; left; lia|]. apply IH. intros Hin. apply H. right. exact Hin.
Qed.

Lemma dict_set_fresh {A} (d : list (Z * A)) k v : ~ In k (map fst d) -> dict_set k v d = d ++ [(k, v)].
Proof.
  induction d as [|[k' v'] d IH]; cbn [map fst In dict_set app]; intros H; [reflexivity|].
  destruct (k =? k') eqn:E; [exfalso; apply H; left; lia|]. f_equal. apply IH. intros Hin. apply H. right. exact Hin.
Qed.

Lemma nth_errorZ_Some (l : list Z) i x : nth_errorZ l i = Some x -> 0 <= i < lenZ' l /\ x = nthZ l i.
Proof.
  unfold nth_errorZ, lenZ', nthZ. destruct (i <? 0) eqn:E; [discriminate|]. intros H.
  assert (Hn : (Z.to_nat i < length l)%nat) by (apply nth_error_Some; congruence).
  split; [lia|]. symmetry. apply nth_error_nth. exact H.
Qed.

Lemma nth_errorZ_nthZ (l : list Z) i : 0 <= i < lenZ' l -> nth_errorZ l i = Some (nthZ l i).
Proof.
  unfold nth_errorZ, lenZ', nthZ. intros H. destruct (i <? 0) eqn:E; [lia|]. apply nth_error_nth'. lia.
Qed.

Lemma cum0_length cs : lenZ' (cum0 cs) = lenZ' cs + 1.
Proof. unfold cum0, cumsum, lenZ'. cbn [length]. rewrite cumsum_from_length. lia. Qed.

Lemma array_location_some cs j :
  0 <= j < lenZ' cs -> array_location cs j = Some (array_location_t cs j).
Proof.
  intros H. unfold array_location, loc_of_starts, array_location_t.
  pose proof (cum0_length cs) as Hl. rewrite !nth_errorZ_nthZ by lia. reflexivity.
Qed.

Lemma array_location_Some_inv cs j ab :
  array_location cs j = Some ab -> 0 <= j < lenZ' cs /\ ab = array_location_t cs j.
Proof.
  unfold array_location, loc_of_starts, array_location_t. intros H.
  destruct (nth_errorZ (cum0 cs) j) as [a|] eqn:Ea; [|discriminate].
  destruct (nth_errorZ (cum0 cs) (j + 1)) as [b|] eqn:Eb; [|discriminate].
  apply nth_errorZ_Some in Ea as [Ha ->]. apply nth_errorZ_Some in Eb as [Hb ->].
  pose proof (cum0_length cs) as Hl. injection H as <-. split; [lia|reflexivity].
Qed.

(* the interval of block j starts where the previous blocks end and is as long as the block *)
Lemma array_location_t_cum cs j :
  0 <= j < lenZ' cs ->
  array_location_t cs j = (cum cs (Z.to_nat j), cum cs (Z.to_nat j) + nthZ cs j).
Proof.
  intros H. unfold array_location_t, lenZ' in *. rewrite !cum0_nthZ by lia. f_equal.
  replace (Z.to_nat (j + 1)) with (S (Z.to_nat j)) by lia.
  apply cum_S. apply nth_error_nth'. lia.
Qed.

Lemma array_location_length cs j :
  0 <= j < lenZ' cs -> snd (array_location_t cs j) - fst (array_location_t cs j) = nthZ cs j.
Proof. intros H. rewrite array_location_t_cum by exact H. cbn [fst snd]. lia. Qed.

Lemma tiles_from_steps (f : nat -> Z) (d : nat -> Z) : forall n k,
  (forall i, (k <= i < k + n)%nat -> 0 <= d i) ->
  (forall i, (k <= i < k + n)%nat -> f (S i) = f i + d i) ->
  tiles_from (f k) (map (fun i => (f i, f i + d i)) (seq k n)) (f (k + n)%nat).
Proof.
  induction n as [|n IH]; intros k Hd Hf; cbn [seq map tiles_from].
  - f_equal. lia.
  - split; [reflexivity|]. split; [specialize (Hd k); lia|].
    rewrite <- Hf by lia. replace (k + S n)%nat with (S k + n)%nat by lia.
    apply IH; intros i Hi; [apply Hd|apply Hf]; lia.
Qed.

(* the array-location intervals of one axis tile [0, n) in block order *)
Lemma array_location_tiles cs :
  Forall (fun c => 0 <= c) cs ->
  tiles_from 0 (map (array_location_t cs) (zseq (length cs))) (zsum cs).
Proof.
  intros Hpos. unfold zseq. rewrite map_map.
  rewrite (map_ext_in _ (fun i => (cum cs i, cum cs i + nthZ cs (Z.of_nat i)))).
  - replace (zsum cs) with (cum cs (0 + length cs)) by (unfold cum; cbn [Nat.add]; rewrite firstn_all; reflexivity).
    change 0 with (cum cs 0).
    apply (tiles_from_steps (cum cs) (fun i => nthZ cs (Z.of_nat i))); intros i Hi; unfold nthZ; rewrite Nat2Z.id.
    + rewrite Forall_forall in Hpos. apply Hpos, nth_In. lia.
    + apply cum_S, nth_error_nth'. lia.
  - intros i Hi. apply in_seq in Hi. rewrite array_location_t_cum by (unfold lenZ'; lia).
    rewrite Nat2Z.id. reflexivity.
Qed.

Lemma In_product : forall rs loc,
  In loc (product rs) <-> Forall2 (fun l r => In l r) loc rs.
Proof.
  induction rs as [|r rs IH]; intros loc; cbn [product].
  - split.
    + intros [<-|[]]. constructor.
    + intros H. inversion H. left. reflexivity.
  - rewrite in_flat_map. split.
    + intros (x & Hx & Hin). apply in_map_iff in Hin. destruct Hin as (t & <- & Ht).
      constructor; [exact Hx|]. apply IH. exact Ht.
    + intros H. inversion H as [|l r' loc' rs' Hl Hrest]; subst.
      exists l. split; [exact Hl|]. apply in_map. apply IH. exact Hrest.
Qed.

Lemma NoDup_product : forall rs, Forall (@NoDup Z) rs -> NoDup (product rs).
Proof.
  induction rs as [|r rs IH]; intros H; cbn [product].
  - constructor; [intros []|constructor].
  - inversion H as [|r' rs' Hr Hrs]; subst. specialize (IH Hrs). clear H.
    induction Hr as [|x r Hx _ IHr]; cbn [flat_map]; [constructor|].
    apply NoDup_app_intro; [|exact IHr|].
    + apply NoDup_map_inj; [|exact IH]. intros a b E. congruence.
    + (* the first coordinate tells the two parts apart *)
      intros l Hl Hl2. apply in_map_iff in Hl. destruct Hl as (t & <- & _).
      apply in_flat_map in Hl2. destruct Hl2 as (y & Hy & Hin).
      apply in_map_iff in Hin. destruct Hin as (t' & E & _). injection E as -> _. exact (Hx Hy).
Qed.

Lemma product_length rs : length (product rs) = fold_right Nat.mul 1%nat (map (@length Z) rs).
Proof.
  induction rs as [|r rs IH]; cbn [product map fold_right]; [reflexivity|]. rewrite <- IH.
  induction r as [|x r IHr]; cbn [flat_map length]; [reflexivity|]. rewrite app_length, map_length, IHr. reflexivity.
Qed.

(* the locations enumerate the block grid: every grid point, exactly once *)
Lemma block_ids_spec cs loc : In loc (block_ids cs) <-> in_grid cs loc.
Proof.
  unfold block_ids, in_grid. rewrite In_product, Forall2_map_r.
  split; apply Forall2_impl; intros l c; rewrite In_zseq; exact (fun H => H).
Qed.

Lemma block_ids_nodup cs : NoDup (block_ids cs).
Proof.
  unfold block_ids. apply NoDup_product. apply Forall_forall. intros r Hr.
  apply in_map_iff in Hr. destruct Hr as (c & <- & _). apply NoDup_zseq.
Qed.

Lemma block_ids_count cs : Z.of_nat (length (block_ids cs)) = number_of_blocks cs.
Proof.
  unfold block_ids, number_of_blocks. rewrite product_length, map_map.
  induction cs as [|c cs IH]; cbn [map fold_right zprod]; [reflexivity|].
  rewrite Nat2Z.inj_mul, IH, zseq_length. reflexivity.
Qed.

Lemma in_grid_length oc bid : in_grid oc bid -> length bid = length oc.
Proof. apply Forall2_length. Qed.

Lemma in_grid_combine cs loc c l : in_grid cs loc -> In (c, l) (combine cs loc) -> 0 <= l < lenZ' c.
Proof.
  unfold in_grid. intros H. induction H as [|l0 c0 loc cs Hl _ IH]; cbn [combine]; [intros []|intros [E|Hin]; [|exact (IH Hin)]].
  injection E as <- <-. exact Hl.
Qed.

Lemma out_info_total oc bid : in_grid oc bid -> out_info oc bid = Some (out_info_t oc bid).
Proof.
  intros H. unfold out_info, out_info_t, map2.
  rewrite (all_some_map_total _ (fun p => array_location_t (fst p) (snd p))),
          (all_some_map_total _ (fun p => nthZ (fst p) (snd p))); [reflexivity| |];
    intros [c l] Hin; cbn [fst snd]; [apply nth_errorZ_nthZ|apply array_location_some];
    exact (in_grid_combine _ _ _ _ H Hin).
Qed.

Lemma out_info_Some_inv oc bid o :
  out_info oc bid = Some o -> length bid = length oc -> o = out_info_t oc bid /\ in_grid oc bid.
Proof.
  intros H Hlen. assert (Hg : in_grid oc bid).
  { unfold out_info in H. destruct (all_some (map (fun p => array_location _ _) _)); [|discriminate].
    destruct (all_some (map (fun p => nth_errorZ _ _) _)) as [csh|] eqn:E; [|discriminate].
    apply all_some_map in E. apply Forall2_nth_intro; [exact Hlen|]. intros j b c Hb Hc.
    destruct (Forall2_nth_error_l _ _ _ _ _ E (proj2 (nth_error_combine _ _ _ _ _) (conj Hc Hb))) as (y & _ & Hy).
    apply nth_errorZ_Some in Hy. apply Hy. }
  rewrite (out_info_total _ _ Hg) in H. injection H as <-. split; [reflexivity|exact Hg].
Qed.

(* chunk-shape = the lengths of the array-location intervals = the advertised sizes *)
Lemma chunk_shape_is_interval_length oc bid :
  in_grid oc bid ->
  map2 nthZ oc bid = map (fun ab => snd ab - fst ab) (map2 array_location_t oc bid).
Proof.
  intros H. unfold map2. rewrite map_map. apply map_ext_in. intros [c l] Hin. cbn [fst snd].
  symmetry. apply array_location_length. exact (in_grid_combine _ _ _ _ H Hin).
Qed.

Lemma block_entry_inv args dr oi oc bid k ins o :
  block_entry args dr oi oc bid = Some (k, ins, o) -> k = bid /\ out_info oc bid = Some o.
Proof.
  unfold block_entry. intros H.
  destruct (all_some _) as [l|]; [|discriminate].
  destruct (out_info oc bid) as [o'|]; [|discriminate].
  injection H as <- _ <-. split; reflexivity.
Qed.

Lemma payload_entries args dr oi oc p :
  block_info_payload args dr oi oc = Some p ->
  Forall2 (fun bid e => block_entry args dr oi oc bid = Some e) (block_ids oc) p.
Proof. apply all_some_map. Qed.

Lemma payload_matches_layout args dr oi oc p :
  block_info_payload args dr oi oc = Some p ->
  map (fun e => fst (fst e)) p = block_ids oc /\
  NoDup (block_ids oc) /\
  (forall loc, In loc (block_ids oc) <-> in_grid oc loc) /\
  (forall bid ins o, In (bid, ins, o) p ->
     in_grid oc bid /\ o = out_info_t oc bid /\
     snd o = map (fun ab => snd ab - fst ab) (map2 array_location_t oc bid)).
Proof.
  intros H. pose proof (payload_entries _ _ _ _ _ H) as HF.
  split; [|split; [apply block_ids_nodup|split; [apply block_ids_spec|]]].
  - apply Forall2_map_eq, Forall2_swap. revert HF. apply Forall2_impl. intros bid [[k ins] o] He.
    apply block_entry_inv in He. destruct He as [-> _]. reflexivity.
  - intros bid ins o Hin. destruct (Forall2_In_r _ _ _ _ HF Hin) as (b & Hb & He).
    apply block_entry_inv in He. destruct He as [<- Ho]. apply block_ids_spec in Hb.
    rewrite (out_info_total _ _ Hb) in Ho. injection Ho as <-.
    split; [exact Hb|]. split; [reflexivity|]. apply chunk_shape_is_interval_length. exact Hb.
Qed.

Lemma map_blocks_info_payload args drop na ch oi oc p :
  map_blocks_info args drop na ch = MOk (oi, oc, p) ->
  exists dr, block_info_payload args dr oi oc = Some p.
Proof.
  unfold map_blocks_info, mbind. intros H.
  destruct (mb_indices args drop na ch) as [ix|]; [|discriminate].
  destruct (mb_out_chunks args ix ch) as [oc'|]; [|discriminate].
  destruct (block_info_payload _ _ _ _) as [p'|] eqn:E; [|discriminate].
  injection H as <- <- <-. eexists. exact E.
Qed.

(* in_info describes an argument axis by axis: everything it returns is a map over the
   argument's axes (chunks of the axis, label of the axis) *)
Definition axes (cs : chunksN) : list (list Z * Z) := combine cs (rev_range (length cs)).

(* a dropped axis counts as one chunk spanning the axis *)
Definition axis_starts (dr : bool) (oi : list Z) (p : list Z * Z) : list Z :=
  if dr && negb (zmem (snd p) oi) then [0; zsum (fst p)] else cum0 (fst p).

(* one entry of arr_k: location.get(ind, 0) if num_chunks > 1 else 0 *)
Definition axis_loc (dr : bool) (oi bid : list Z) (p : list Z * Z) : Z :=
  if lenZ' (axis_starts dr oi p) - 1 >? 1
  then match dict_get (snd p) (combine oi bid) with Some l => l | None => 0 end else 0.

Lemma axes_fst cs : map fst (axes cs) = cs.
Proof. apply map_fst_combine. rewrite rev_range_length. reflexivity. Qed.

Lemma axes_snd cs : map snd (axes cs) = rev_range (length cs).
Proof. apply map_snd_combine. rewrite rev_range_length. reflexivity. Qed.

Lemma in_info_axes cs dr oi bid :
  in_info cs dr oi bid =
  option_map (fun al => (map zsum cs, map (fun p => lenZ' (axis_starts dr oi p) - 1) (axes cs), al,
                         map (axis_loc dr oi bid) (axes cs)))
    (all_some (map (fun p => loc_of_starts (axis_starts dr oi p) (axis_loc dr oi bid p)) (axes cs))).
Proof.
  assert (Hst : arg_starts cs dr oi = map (axis_starts dr oi) (axes cs)).
  { unfold arg_starts, axis_starts. destruct dr; cbn [andb].
    - apply map_ext. intros [c ind]. cbn [fst snd]. destruct (zmem ind oi); reflexivity.
    - rewrite <- (axes_fst cs) at 1. rewrite map_map. reflexivity. }
  unfold in_info, arg_num_chunks. rewrite Hst, <- (axes_snd cs), map_map, combine_maps, map_map, combine_maps, map_map.
  reflexivity.
Qed.

Lemma in_info_inv cs dr oi bid sh nc al cl :
  in_info cs dr oi bid = Some (sh, nc, al, cl) ->
  sh = map zsum cs /\ nc = map (fun p => lenZ' (axis_starts dr oi p) - 1) (axes cs) /\
  cl = map (axis_loc dr oi bid) (axes cs) /\
  Forall2 (fun p ab => loc_of_starts (axis_starts dr oi p) (axis_loc dr oi bid p) = Some ab) (axes cs) al.
Proof.
  rewrite in_info_axes. destruct (all_some _) as [al'|] eqn:E; [|discriminate]. intros [= <- <- <- <-].
  apply all_some_map in E. auto.
Qed.

Lemma axis_count_nodrop cs oi : map (fun p => lenZ' (axis_starts false oi p) - 1) (axes cs) = map lenZ' cs.
Proof.
  rewrite <- (axes_fst cs) at 2. rewrite map_map. apply map_ext. intros p.
  change (axis_starts false oi p) with (cum0 (fst p)). pose proof (cum0_length (fst p)). lia.
Qed.

Lemma in_info_axis cs dr oi bid sh nc al cl j c ind :
  in_info cs dr oi bid = Some (sh, nc, al, cl) ->
  nth_error cs j = Some c -> nth_error (rev_range (length cs)) j = Some ind ->
  nth_error nc j = Some (lenZ' (axis_starts dr oi (c, ind)) - 1) /\
  nth_error cl j = Some (axis_loc dr oi bid (c, ind)) /\
  exists ab, nth_error al j = Some ab /\
             loc_of_starts (axis_starts dr oi (c, ind)) (axis_loc dr oi bid (c, ind)) = Some ab.
Proof.
  intros (_ & -> & -> & E)%in_info_inv Hc Hind.
  assert (Hp : nth_error (axes cs) j = Some (c, ind)) by (apply nth_error_combine; auto).
  split; [|split]; [exact (map_nth_error _ _ _ Hp)..|]. exact (Forall2_nth_error_l _ _ _ _ _ E Hp).
Qed.

(* dropped axes: "we concatenate along dropped axes, so treat them as a single chunk" *)
Lemma in_info_dropped_axis cs oi bid sh nc al cl j c ind :
  in_info cs true oi bid = Some (sh, nc, al, cl) ->
  nth_error cs j = Some c -> nth_error (rev_range (length cs)) j = Some ind ->
  zmem ind oi = false ->
  nth_error nc j = Some 1 /\ nth_error cl j = Some 0 /\ nth_error al j = Some (0, zsum c).
Proof.
  intros Hi Hc Hind Hm.
  destruct (in_info_axis _ _ _ _ _ _ _ _ _ _ _ Hi Hc Hind) as (H1 & H2 & ab & H3 & Hloc).
  unfold axis_loc, axis_starts in *. cbn [fst snd] in *. rewrite Hm in *. cbn in Hloc. injection Hloc as <-. auto.
Qed.

Lemma in_info_kept_axis cs dr oi bid sh nc al cl j c ind :
  in_info cs dr oi bid = Some (sh, nc, al, cl) ->
  nth_error cs j = Some c -> nth_error (rev_range (length cs)) j = Some ind ->
  dr = false \/ zmem ind oi = true ->
  exists l, nth_error nc j = Some (lenZ' c) /\ nth_error cl j = Some l /\ 0 <= l < lenZ' c /\
            nth_error al j = Some (array_location_t c l).
Proof.
  intros Hi Hc Hind Hk.
  destruct (in_info_axis _ _ _ _ _ _ _ _ _ _ _ Hi Hc Hind) as (H1 & H2 & ab & H3 & Hloc).
  assert (E : axis_starts dr oi (c, ind) = cum0 c).
  { unfold axis_starts. cbn [fst snd]. destruct Hk as [-> | ->]; [reflexivity|]. rewrite andb_false_r. reflexivity. }
  rewrite E in *. apply array_location_Some_inv in Hloc. destruct Hloc as [Hr ->].
  pose proof (cum0_length c) as Hlc. replace (lenZ' (cum0 c) - 1) with (lenZ' c) in H1 by lia. eauto.
Qed.

(* without dropped axes: the chunk-location lies in the argument's own grid and the
   array-location is that block's interval in the argument's advertised layout *)
Lemma in_info_sound cs oi bid sh nc al cl :
  in_info cs false oi bid = Some (sh, nc, al, cl) ->
  sh = map zsum cs /\ nc = map lenZ' cs /\ in_grid cs cl /\ al = map2 array_location_t cs cl.
Proof.
  intros (-> & -> & -> & E)%in_info_inv. set (k := axis_loc false oi bid) in *.
  assert (E' : Forall2 (fun p ab => 0 <= k p < lenZ' (fst p) /\ array_location_t (fst p) (k p) = ab) (axes cs) al).
  { revert E. apply Forall2_impl. intros p ab Hp. change (array_location (fst p) (k p) = Some ab) in Hp.
    apply array_location_Some_inv in Hp. split; [|symmetry]; apply Hp. }
  split; [reflexivity|]. split; [apply axis_count_nodrop|]. rewrite <- (axes_fst cs) at 1 3. split.
  - apply Forall2_maps. revert E'. apply Forall2_left. tauto.
  - rewrite map2_maps. symmetry. apply Forall2_map_eq. revert E'. apply Forall2_impl. tauto.
Qed.

(* the block the task hands over is the block block_info describes *)
Lemma block_given_is_block_described cs oi bid sh nc al cl b :
  in_info cs false oi bid = Some (sh, nc, al, cl) ->
  dep_block_id cs oi [] bid = Some b ->
  b = cl.
Proof.
  intros (_ & _ & -> & E)%in_info_inv Hd. unfold dep_block_id in Hd. cbn [fold_left] in Hd.
  apply all_some_map in Hd. symmetry. apply Forall2_map_eq. revert Hd. apply Forall2_impl_in.
  intros [c ind] y Hin Hy. destruct (Forall2_In_l _ _ _ _ E Hin) as (ab & _ & Hab).
  apply (array_location_Some_inv c) in Hab. destruct Hab as [Hr _]. revert Hr Hy.
  unfold axis_loc, axis_starts. cbn [andb fst snd]. pose proof (cum0_length c) as Hc.
  (* dep_block_id takes the output index modulo the argument's number of blocks (broadcasting): inside
     the grid the modulo changes nothing, and on a one-block axis both sides are 0 *)
  destruct (dict_get ind (combine oi bid)) as [v|].
  - intros Hr [= <-]. destruct (lenZ' (cum0 c) - 1 >? 1) eqn:E1.
    + symmetry. apply Z.mod_small. exact Hr.
    + replace (lenZ' c) with 1 by lia. symmetry. apply Z.mod_1_r.
  - destruct (lenZ' c =? 1); [|discriminate]. intros _ [= <-]. destruct (_ >? 1); reflexivity.
Qed.

(* index_from is enumerate(l, k), under this name in BlockInfo.v and as enumerate_from in UnknownChunks.v *)
Lemma index_from_length {A} (l : list A) : forall k, length (index_from k l) = length l.
Proof. induction l as [|x l IH]; intros k; cbn [index_from length]; [reflexivity|]. rewrite IH. reflexivity. Qed.

Lemma index_from_nth_error {A} : forall (l : list A) k j,
  nth_error (index_from k l) j = option_map (pair (k + Z.of_nat j)) (nth_error l j).
Proof.
  induction l as [|a l IH]; intros k [|j]; cbn [index_from nth_error option_map]; try reflexivity.
  - rewrite Z.add_0_r. reflexivity.
  - rewrite IH. replace (k + 1 + Z.of_nat j) with (k + Z.of_nat (S j)) by lia. reflexivity.
Qed.

(* an entry has one info per ARRAY argument, keyed by the argument's position, and it is
   the in_info of that argument *)
Lemma block_entry_inputs args dr oi oc bid k ins o :
  block_entry args dr oi oc bid = Some (k, ins, o) ->
  (forall i cs, nth_error args i = Some (Some cs) ->
     exists b, in_info cs dr oi bid = Some b /\ In (Z.of_nat i, b) ins) /\
  (forall i b, In (i, b) ins ->
     exists cs, 0 <= i /\ nth_error args (Z.to_nat i) = Some (Some cs) /\ in_info cs dr oi bid = Some b).
Proof.
  unfold block_entry. intros H.
  match type of H with context [all_some (map ?F _)] => set (F0 := F) in * end.
  destruct (all_some (map F0 (index_from 0 args))) as [l|] eqn:E; [|discriminate].
  destruct (out_info oc bid) as [o'|]; [|discriminate].
  injection H as _ <- _. apply all_some_map in E. split.
  - intros i cs Hn.
    assert (Hin : In (Z.of_nat i, Some cs) (index_from 0 args)).
    { apply (nth_error_In _ i). rewrite index_from_nth_error, Hn. reflexivity. }
    destruct (Forall2_In_l _ _ _ _ E Hin) as (y & Hy & HF). unfold F0 in HF. cbn [fst snd] in HF.
    destruct (in_info cs dr oi bid) as [b|]; cbn [option_map] in HF; [|discriminate].
    injection HF as <-. exists b. split; [reflexivity|].
    apply in_flat_map. eexists. split; [exact Hy|]. left. reflexivity.
  - intros i b Hin. apply in_flat_map in Hin. destruct Hin as (y & Hy & Hsel).
    destruct y as [e|]; [|destruct Hsel]. destruct Hsel as [->|[]].
    destruct (Forall2_In_r _ _ _ _ E Hy) as ([i' a] & Hia & HF). unfold F0 in HF. cbn [fst snd] in HF.
    destruct a as [cs|]; [|discriminate].
    destruct (in_info cs dr oi bid) as [b'|] eqn:Ei; cbn [option_map] in HF; [|discriminate].
    injection HF as -> ->. apply In_nth_error in Hia as [j Hj]. rewrite index_from_nth_error in Hj.
    destruct (nth_error args j) as [a|] eqn:Hn; [|discriminate]. injection Hj as <- ->.
    exists cs. rewrite Nat2Z.id. split; [lia|]. split; [exact Hn|exact Ei].
Qed.

Lemma payload_input_entries args dr out_ind oc p bid ins o :
  block_info_payload args dr out_ind oc = Some p -> In (bid, ins, o) p ->
  (forall i cs, nth_error args i = Some (Some cs) ->
     exists b, in_info cs dr out_ind bid = Some b /\ In (Z.of_nat i, b) ins) /\
  (forall i b, In (i, b) ins ->
     exists cs, 0 <= i /\ nth_error args (Z.to_nat i) = Some (Some cs) /\ in_info cs dr out_ind bid = Some b).
Proof.
  intros Hp Hin.
  destruct (Forall2_In_r _ _ _ _ (payload_entries _ _ _ _ _ Hp) Hin) as (b & _ & He).
  pose proof (block_entry_inv _ _ _ _ _ _ _ _ He) as [-> _].
  exact (block_entry_inputs _ _ _ _ _ _ _ _ He).
Qed.

Lemma block_id_payload_spec oc :
  map fst (block_id_payload oc) = block_ids oc /\ Forall (fun e => snd e = fst e) (block_id_payload oc).
Proof.
  unfold block_id_payload. split.
  - rewrite map_map. apply map_id.
  - apply Forall_forall. intros e He. apply in_map_iff in He. destruct He as (b & <- & _). reflexivity.
Qed.

Lemma chunkss_fold_fresh : forall (L : list (list Z * Z)) (d : list (Z * list Z)),
  NoDup (map snd L) -> (forall k, In k (map snd L) -> ~ In k (map fst d)) ->
  fold_left chunkss_step L d = d ++ map (fun ci => (snd ci, fst ci)) L.
Proof.
  induction L as [|[c i] L IH]; intros d Hnd Hdis; cbn [fold_left map]; [rewrite app_nil_r; reflexivity|].
  cbn [map snd] in Hnd, Hdis. inversion Hnd as [|i' L' Hni Hnd']; subst.
  unfold chunkss_step at 2. rewrite dict_get_None by (apply Hdis; left; reflexivity).
  rewrite dict_set_fresh by (apply Hdis; left; reflexivity).
  rewrite IH.
  - rewrite <- app_assoc. reflexivity.
  - exact Hnd'.
  - intros k Hk Hin. rewrite map_app, in_app_iff in Hin. destruct Hin as [Hin|Hin].
    + apply (Hdis k); [right; exact Hk|exact Hin].
    + cbn in Hin. destruct Hin as [<-|[]]. exact (Hni Hk).
Qed.

Lemma chunkss_single cs : chunkss_full [Some cs] [] = combine (rev_range (length cs)) cs.
Proof.
  unfold chunkss_full, chunkss_of_args. cbn [fold_left]. fold (axes cs).
  rewrite chunkss_fold_fresh; rewrite ?axes_snd.
  - cbn [app]. rewrite <- combine_maps, axes_snd, axes_fst. reflexivity.
  - apply NoDup_rev_range.
  - intros k _ [].
Qed.

Lemma mseq_Forall2 {A B} (f : A -> mres B) : forall l r,
  Forall2 (fun x y => f x = MOk y) l r -> mseq (map f l) = MOk r.
Proof. induction 1 as [|x y l r Hxy _ IH]; cbn [map mseq]; [reflexivity|]. rewrite Hxy, IH. reflexivity. Qed.

Lemma out_chunks_single cs :
  mb_out_chunks [Some cs] (mk_mb_index (rev_range (length cs)) [] []) None = MOk cs.
Proof.
  unfold mb_out_chunks. cbn [mbi_new_axes mbi_out_ind]. rewrite chunkss_single.
  apply mseq_Forall2. apply Forall2_nth_intro; [apply rev_range_length|].
  intros j l c Hl Hc. unfold out_axis_chunks.
  rewrite (dict_get_combine_nodup _ _ _ _ _ (NoDup_rev_range _) Hl Hc). reflexivity.
Qed.

Lemma single_input_info cs bid :
  in_grid cs bid ->
  in_info cs false (rev_range (length cs)) bid = Some (info_t cs bid).
Proof.
  intros Hg. rewrite in_info_axes. set (k := axis_loc false _ bid).
  assert (Hk : map k (axes cs) = bid).
  { apply Forall2_map_eq, Forall2_nth_intro.
    - unfold axes. rewrite combine_length, rev_range_length, (in_grid_length _ _ Hg). lia.
    - intros j p b Hp Hb.
      pose proof (map_nth_error fst _ _ Hp) as Hc. rewrite axes_fst in Hc.
      pose proof (map_nth_error snd _ _ Hp) as Hi. rewrite axes_snd in Hi.
      destruct (Forall2_nth_error_l _ _ _ _ _ Hg Hb) as (c & Hc' & Hr). rewrite Hc in Hc'. injection Hc' as <-.
      (* the labels are distinct, so the location of this axis is found; a one-block axis has location 0 *)
      unfold k, axis_loc, axis_starts. cbn [andb].
      rewrite (dict_get_combine_nodup _ _ _ _ _ (NoDup_rev_range _) Hi Hb).
      pose proof (cum0_length (fst p)). destruct (_ >? 1) eqn:E; lia. }
  rewrite <- (axes_fst cs), <- Hk in Hg. apply Forall2_maps in Hg. rewrite Forall_forall in Hg.
  rewrite (all_some_map_total _ (fun p => array_location_t (fst p) (k p))).
  - cbn [option_map]. unfold info_t.
    rewrite axis_count_nodrop, <- (map2_maps array_location_t fst k), axes_fst, Hk. reflexivity.
  - intros p Hp. apply (array_location_some (fst p)). exact (Hg p Hp).
Qed.

(* map_blocks(f, x) with x advertising chunks cs: block_info[0] and block_info[None] both
   describe exactly the advertised layout, for every block of the grid, once each *)
Lemma map_blocks_single_input cs :
  map_blocks_info [Some cs] [] None None =
  MOk (rev_range (length cs), cs, map (single_entry cs) (block_ids cs)).
Proof.
  unfold map_blocks_info, mb_indices, max_ndim. cbn [map fold_right]. rewrite Nat.max_0_r.
  cbn [apply_drop mbind apply_new lenZ' length].
  rewrite out_chunks_single. cbn [mbind mbi_drop mbi_out_ind is_nil negb].
  unfold block_info_payload. rewrite (all_some_map_total _ (single_entry cs)); [reflexivity|].
  intros bid Hb. apply block_ids_spec in Hb. unfold block_entry. cbn [index_from map fst snd].
  rewrite (single_input_info _ _ Hb), (out_info_total _ _ Hb). reflexivity.
Qed.

Lemma zip_eqb {A} (f : A -> A -> bool) : forall a b,
  Nat.eqb (length a) (length b) && forallb (fun p => f (fst p) (snd p)) (combine a b) = list_eqb f a b.
Proof.
  induction a as [|x a IH]; intros [|y b]; cbn [length Nat.eqb combine forallb list_eqb fst snd andb]; try reflexivity.
  rewrite <- IH. destruct (f x y), (Nat.eqb (length a) (length b)); reflexivity.
Qed.

Lemma chunks_match_ochunks_eqb a b : chunks_match a b = ochunks_eqb a b.
Proof.
  unfold chunks_match, ochunks_eqb. rewrite <- zip_eqb. f_equal. apply forallb_ext'. intros p. apply zip_eqb.
Qed.

Lemma ochunks_eqb_eq a b : ochunks_eqb a b = true <-> a = b.
Proof. apply list_eqb_eq, list_eqb_eq, oZ_eqb_eq. Qed.

(* _chunks_match is exactly equality once nan is represented by None *)
Lemma chunks_match_eq a b : chunks_match a b = true <-> a = b.
Proof. rewrite chunks_match_ochunks_eqb. apply ochunks_eqb_eq. Qed.

(* lowering over a settled layout of the same rank: the array itself if the layouts agree,
   an error, or a validated Rechunk to the (fully known) frozen layout *)
Lemma freeze_lower_cases frozen settled :
  length frozen = length settled ->
  (chunks_freeze_lower frozen settled = FVanish /\ settled = frozen) \/
  (exists e, chunks_freeze_lower frozen settled = FError e) \/
  (chunks_freeze_lower frozen settled = FRechunk frozen /\
   existsb has_nan frozen = false /\ settled <> frozen /\ validate_rechunk_b settled frozen = true).
Proof.
  intros Hlen. unfold chunks_freeze_lower.
  destruct (chunks_match settled frozen) eqn:Em; [left; split; [reflexivity|apply chunks_match_eq, Em]|].
  assert (Hne : settled <> frozen) by (intros E; apply chunks_match_eq in E; congruence).
  destruct (existsb has_nan frozen); [right; left; eexists; reflexivity|].
  rewrite <- Hlen, firstn_all.
  (* the `not chunks` branch of normalize_chunks needs rank 0 against a positive rank *)
  replace (is_nil frozen && negb (is_nil settled)) with false
    by (destruct frozen, settled; try discriminate; reflexivity).
  cbn [andb].
  (* the rank, empty-tuple, negative-size and sum checks of normalize_chunks raise or are passed *)
  repeat match goal with |- context [if ?c then FError _ else _] => destruct c; [right; left; eexists; reflexivity|] end.
  destruct (ochunks_eqb frozen settled) eqn:Ee; [apply ochunks_eqb_eq in Ee; congruence|].
  change (list_eqb odim_eqb frozen settled) with (ochunks_eqb frozen settled). rewrite Ee.
  destruct (validate_rechunk_b settled frozen); cbn [negb]; [|right; left; eexists; reflexivity].
  right. right. auto.
Qed.

(* after lowering, the consumer sees the frozen layout, or lowering raises *)
Lemma freeze_restores frozen settled :
  length frozen = length settled ->
  match consumer_chunks settled (chunks_freeze_lower frozen settled) with
  | Some c => c = frozen
  | None => True
  end.
Proof.
  intros Hlen. destruct (freeze_lower_cases _ _ Hlen) as [[-> E]|[[e ->]|[-> _]]]; cbn [consumer_chunks]; auto.
Qed.

(* when does a Rechunk appear: only for fully known frozen sizes on a same-shape settled layout *)
Lemma freeze_rechunk_inv frozen settled t :
  length frozen = length settled ->
  chunks_freeze_lower frozen settled = FRechunk t ->
  t = frozen /\ existsb has_nan frozen = false /\ settled <> frozen /\ validate_rechunk_b settled frozen = true.
Proof.
  intros Hlen H. destruct (freeze_lower_cases _ _ Hlen) as [[E _]|[[e E]|[E H']]]; rewrite E in H; try discriminate.
  injection H as <-. split; [reflexivity|exact H'].
Qed.

Lemma freeze_vanish_same frozen : chunks_freeze_lower frozen frozen = FVanish.
Proof. unfold chunks_freeze_lower. rewrite (proj2 (chunks_match_eq frozen frozen) eq_refl). reflexivity. Qed.

(* unknown frozen sizes can never be restored: any drift is an error *)
Lemma freeze_unknown_refuses frozen settled :
  existsb has_nan frozen = true -> settled <> frozen ->
  chunks_freeze_lower frozen settled = FError FRuntimeError.
Proof.
  intros Hn Hne. unfold chunks_freeze_lower.
  destruct (chunks_match settled frozen) eqn:Em; [apply chunks_match_eq in Em; contradiction|].
  rewrite Hn. reflexivity.
Qed.

(* the equal-rank hypothesis is needed: ArrayExpr.rechunk zips the requested chunks with the
   array's chunks, so a frozen layout of HIGHER rank whose prefix equals the settled layout
   lowers to the settled array itself *)
Lemma freeze_rank_mismatch_refuted :
  exists frozen settled,
    chunks_freeze_lower frozen settled = FVanish /\ settled <> frozen.
Proof.
  exists [[Some 3; Some 3; Some 6]; [Some 1]], [[Some 3; Some 3; Some 6]].
  split; [vm_compute; reflexivity|discriminate].
Qed.

(* Python's tuple comparison: equal layouts whatever the nan-identity oracle says;
   a known layout equals itself *)
Lemma py_chunks_eqb_eq ns a b : py_chunks_eqb ns a b = true -> a = b.
Proof.
  apply list_eqb_sound, list_eqb_sound. intros [x|] [y|] E; try discriminate; [|reflexivity].
  apply Z.eqb_eq in E. congruence.
Qed.

Lemma py_chunks_eqb_known ns pc : existsb has_nan pc = false -> py_chunks_eqb ns pc pc = true.
Proof.
  unfold py_chunks_eqb. induction pc as [|d pc IH]; cbn [existsb list_eqb]; [reflexivity|]. intros Hk.
  apply orb_false_iff in Hk. destruct Hk as [Hd Hk]. rewrite (IH Hk), andb_true_r.
  clear - Hd. unfold py_dim_eqb. induction d as [|[x|] d IHd]; cbn [has_nan existsb list_eqb] in *; [reflexivity| |discriminate].
  rewrite Z.eqb_refl. exact (IHd Hd).
Qed.

(* with a grid-sensitive dependent, a pushdown is accepted only if `self` is not a Blockwise
   and the pushed result advertises exactly the parent's chunks — for both oracle values *)
Lemma gate_accepts_only_unchanged {R} nan_same sb deps pc (r : R) rc res :
  has_grid_sensitive deps = true ->
  preserve_grid_contract nan_same sb deps pc (Some (r, rc)) = Some res ->
  sb = false /\ rc = pc /\ res = (r, rc).
Proof.
  unfold preserve_grid_contract. intros Hs. rewrite Hs. cbn [negb].
  destruct sb; [discriminate|].
  destruct (py_chunks_eqb nan_same rc pc) eqn:E; cbn [negb]; [|discriminate].
  intros H. injection H as <-. apply py_chunks_eqb_eq in E. auto.
Qed.

Lemma gate_known_chunks_accepts {R} nan_same deps (pc : ochunks) (r : R) :
  existsb has_nan pc = false ->
  preserve_grid_contract nan_same false deps pc (Some (r, pc)) = Some (r, pc).
Proof.
  intros Hk. unfold preserve_grid_contract. destruct (negb (has_grid_sensitive deps)); [reflexivity|].
  rewrite (py_chunks_eqb_known _ _ Hk). reflexivity.
Qed.

Lemma gate_free {R} nan_same sb deps pc (result : option (R * ochunks)) :
  has_grid_sensitive deps = false -> preserve_grid_contract nan_same sb deps pc result = result.
Proof. intros H. unfold preserve_grid_contract. rewrite H. reflexivity. Qed.

Lemma gate_none {R} nan_same sb deps pc : @preserve_grid_contract R nan_same sb deps pc None = None.
Proof. unfold preserve_grid_contract. destruct (negb (has_grid_sensitive deps)); reflexivity. Qed.

Lemma requires_grid_iff k al :
  requires_grid k al = true <-> (k = KBlockwise /\ al = false) \/ k = KMapBlocksOutput.
Proof.
  destruct k; cbn [requires_grid].
  - (* KBlockwise *) rewrite negb_true_iff. split; [intros ->; left; split; reflexivity|].
    intros [[_ H]|H]; [exact H|discriminate H].
  - (* KElemwiseLike *) split; [discriminate|intros [[H _]|H]; discriminate H].
  - (* KMapBlocksOutput *) split; [intros _; right; reflexivity|reflexivity].
  - (* KOther *) split; [discriminate|intros [[H _]|H]; discriminate H].
Qed.
