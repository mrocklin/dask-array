(* Proofs about the SliceSlicesIntegers node (model: Indexing.v ssi_chunks / ssi_layer):
   the N-D block grid is the product of the per-axis plans of C13, every output block
   holds exactly the positions NumPy selects, advertised chunks = produced extents.
   At the end, getitem_basic as a whole: normalize, strip the Nones, slice, expand. *)
From DA Require Import PyBase PyBaseFacts Slicing NormalizeFacts Slice1dBase Slice1dFacts Indexing IndexingFacts.
Open Scope Z_scope.

Lemma combine_map_r {A B D} (g : B -> D) (la : list A) lb :
  combine la (map g lb) = map (fun ab => (fst ab, g (snd ab))) (combine la lb).
Proof. rewrite <- (map_id la) at 1. exact (combine_map_both (fun a => a) g la lb). Qed.

Definition plen {A} (ls : list (list A)) : nat := fold_right Nat.mul 1%nat (map (@length A) ls).

Lemma product_length {A} (ls : list (list A)) : length (product ls) = plen ls.
Proof.
  induction ls as [|l rest IH]; [reflexivity|].
  cbn [product]. rewrite (flat_map_length_uniform _ (length (product rest))) by (intros; apply map_length).
  unfold plen in *. cbn [map fold_right]. rewrite IH. reflexivity.
Qed.

Lemma plen_map_map {A B C} (f : A -> B) (g : A -> C) (ls : list (list A)) :
  plen (map (map f) ls) = plen (map (map g) ls).
Proof.
  unfold plen. rewrite !map_map. f_equal. apply map_ext. intros l. rewrite !map_length. reflexivity.
Qed.

Lemma in_product {A} (ls : list (list A)) : forall row,
  In row (product ls) <-> Forall2 (fun x l => In x l) row ls.
Proof.
  induction ls as [|l rest IH]; intros row.
  - cbn [product]. split.
    + intros [<-|[]]. constructor.
    + intros H. inversion H. left. reflexivity.
  - cbn [product]. rewrite in_flat_map. split.
    + intros (x & Hx & Hin). apply in_map_iff in Hin as (r & <- & Hr). constructor; [exact Hx | apply IH; exact Hr].
    + intros H. inversion H as [|x ? r ? Hx Hr]; subst. exists x. split; [exact Hx|].
      apply in_map. apply IH. exact Hr.
Qed.

Lemma NoDup_product {A} (ls : list (list A)) : Forall (@NoDup A) ls -> NoDup (product ls).
Proof.
  induction 1 as [|l rest Hl Hrest IH]; [repeat constructor; intros []|].
  cbn [product]. induction Hl as [|x l Hx Hl IHl]; [constructor|].
  cbn [flat_map]. apply NoDup_app_intro.
  - apply NoDup_map_inj; [|exact IH]. intros a b H. injection H. tauto.
  - exact IHl.
  - intros row Hin Hin2. apply in_map_iff in Hin as (r & <- & _).
    apply in_flat_map in Hin2 as (y & Hy & Hin2). apply in_map_iff in Hin2 as (r' & Heq & _).
    injection Heq as -> _. contradiction.
Qed.

Lemma iota_length n : length (iota n) = n.
Proof. unfold iota. rewrite map_length, seq_length. reflexivity. Qed.

Lemma in_iota n x : In x (iota n) <-> 0 <= x < Z.of_nat n.
Proof.
  unfold iota. rewrite in_map_iff. split.
  - intros (i & <- & Hi). apply in_seq in Hi. lia.
  - intros H. exists (Z.to_nat x). split; [lia|]. apply in_seq. lia.
Qed.

Lemma NoDup_iota n : NoDup (iota n).
Proof.
  unfold iota. apply NoDup_map_inj; [|apply seq_NoDup].
  intros a b H. lia.
Qed.

(* cutting the concatenation of the pieces back into runs of the piece lengths
   returns the pieces: piece number j is the j-th segment *)
Lemma segments_of_concat {A B} (f : A -> list B) (plan : list A) : forall pre,
  Forall (fun oe => f (snd oe) = segment (concat (map f (pre ++ plan))) (map (fun e => lenZ (f e)) (pre ++ plan)) (fst oe)
                    /\ nthZ (map (fun e => lenZ (f e)) (pre ++ plan)) (fst oe) = lenZ (f (snd oe)))
         (combine (map Z.of_nat (seq (length pre) (length plan))) plan).
Proof.
  induction plan as [|e t IH]; intros pre; [constructor|].
  cbn [length seq map combine]. constructor.
  - cbn [fst snd]. unfold segment. rewrite !map_app. cbn [map].
    set (L := map (fun e0 => lenZ (f e0)) pre).
    assert (Z.of_nat (length pre) = lenZ L) as -> by (unfold L, lenZ; rewrite map_length; reflexivity).
    rewrite nthZ_lenZ_app, firstnZ_lenZ_app.
    unfold L. rewrite zsum_map_length, concat_app. cbn [concat].
    rewrite skipnZ_lenZ_app, firstnZ_lenZ_app. split; reflexivity.
  - specialize (IH (pre ++ [e])). rewrite <- app_assoc in IH. cbn [app] in IH.
    rewrite app_length in IH. cbn [length] in IH. rewrite Nat.add_1_r in IH. exact IH.
Qed.

Lemma sort_by_key_length {A} (l : list (Z * A)) : length (sort_by_key l) = length l.
Proof.
  induction l as [|h t IH]; [reflexivity|]. cbn [sort_by_key length]. rewrite <- IH.
  generalize (sort_by_key t). intros l. induction l as [|h' t' IH']; [reflexivity|].
  cbn [insert_by_key]. destruct (fst h <=? fst h'); cbn [length]; [|rewrite IH']; reflexivity.
Qed.

Lemma neg_step_iff s : neg_step s = true <-> step_of s < 0.
Proof. unfold neg_step, step_of. destruct (s_step s) as [k|]; lia. Qed.

Lemma sort_singleton {A} (e : Z * A) : sort_by_key [e] = [e].
Proof. reflexivity. Qed.

Lemma out_range_spec s d :
  length (out_range s d) = length d /\ NoDup (out_range s d) /\
  forall ob, In ob (out_range s d) <-> 0 <= ob < lenZ d.
Proof.
  unfold out_range, lenZ. destruct (neg_step s).
  - rewrite rev_length, iota_length. split; [reflexivity|]. split; [apply NoDup_rev, NoDup_iota|].
    intros ob. rewrite <- in_rev. apply in_iota.
  - rewrite iota_length. split; [reflexivity|]. split; [apply NoDup_iota | apply in_iota].
Qed.

(* how sorted(d.items()) relates to the insertion order, and which way the output
   range runs: in both cases the block that _layer numbers `ob` is plan[ob] *)
Lemma sorted_plan dim lengths idx :
  valid_chunks lengths dim -> normalized idx dim ->
  let plan := slice_1d_slice dim lengths idx in
  combine (out_range idx plan) (sort_by_key plan) = combine (iota (length plan)) plan \/
  combine (out_range idx plan) (sort_by_key plan) = rev (combine (iota (length plan)) plan).
Proof.
  intros Hv Hnorm plan. unfold out_range.
  destruct (plan_sorted dim lengths idx Hv Hnorm) as [(Hk & Hs)|(Hk & Hs)]; fold plan in Hs; rewrite Hs.
  - replace (neg_step idx) with false by (symmetry; apply not_true_is_false; rewrite neg_step_iff; lia).
    left. reflexivity.
  - replace (neg_step idx) with true by (symmetry; apply neg_step_iff; exact Hk).
    right. apply combine_rev, iota_length.
Qed.

(* what _layer pairs on one sliced axis: output block number, (input block, local slice) *)
Definition axis_entry_ok (n : Z) (cs : list Z) (s : pslice) (oe : Z * (Z * ploc)) : Prop :=
  let nb := new_blockdim n cs s in
  let '(ob, (ib, loc)) := oe in
  0 <= ib < lenZ cs /\ 0 <= ob < lenZ nb /\
  abs_positions cs (ib, loc) = segment (sel s n) nb ob /\
  lenZ (abs_positions cs (ib, loc)) = nthZ nb ob.

Lemma slice_axis_table n cs s :
  valid_chunks cs n -> cs <> [] -> normalized s n ->
  let plan := slice_1d_slice n cs s in
  Forall (axis_entry_ok n cs s) (combine (out_range s plan) (sort_by_key plan)).
Proof.
  intros Hv Hne Hnorm plan.
  pose proof (blockdim_as_lengths n cs s Hv Hnorm) as Hnb. fold plan in Hnb.
  pose proof (slice_1d_partition n cs s Hv Hnorm) as Hpart. fold plan in Hpart. unfold plan_positions in Hpart.
  pose proof (slice_1d_pieces_in_block n cs s Hv Hne Hnorm) as [_ Hblk]. fold plan in Hblk.
  assert (length (new_blockdim n cs s) = length plan) as Hlen by (rewrite Hnb, map_length; reflexivity).
  assert (Forall (axis_entry_ok n cs s) (combine (iota (length plan)) plan)) as Hcore.
  { pose proof (segments_of_concat (abs_positions cs) plan []) as Hseg. cbn [app length] in Hseg.
    fold (iota (length plan)) in Hseg. rewrite Hpart, <- Hnb in Hseg.
    rewrite Forall_forall in Hseg, Hblk. rewrite Forall_forall. intros [ob [ib loc]] Hin.
    specialize (Hseg _ Hin). cbn [fst snd] in Hseg. destruct Hseg as [Hs1 Hs2].
    pose proof (in_combine_l _ _ _ _ Hin) as Hob. apply in_iota in Hob.
    pose proof (in_combine_r _ _ _ _ Hin) as Hpl. specialize (Hblk _ Hpl). destruct Hblk as [Hib _]. cbn [fst] in Hib.
    unfold axis_entry_ok. cbv zeta. unfold lenZ at 2. rewrite Hlen.
    split; [exact Hib|]. split; [lia|]. split; [exact Hs1 | symmetry; exact Hs2]. }
  destruct (sorted_plan n cs s Hv Hnorm) as [Heq | Heq]; fold plan in Heq; rewrite Heq.
  - exact Hcore.
  - apply Forall_rev. exact Hcore.
Qed.

Lemma int_axis_table n cs k :
  valid_chunks cs n -> 0 <= k < n ->
  exists ib r, slice_1d_int cs k = [(ib, LInt r)] /\
    0 <= ib < lenZ cs /\ 0 <= r < nthZ cs ib /\ abs_positions cs (ib, LInt r) = [k].
Proof.
  intros [Hnn Hsum] Hk. unfold slice_1d_int.
  pose proof (bisect_right_cumsum cs 0 k) as Hb. cbv zeta in Hb. fold (cumsum cs) in Hb.
  set (j := bisect_right (cumsum cs) k) in *. destruct Hb as (Hj & Hlo & Hhi).
  specialize (Hlo ltac:(lia)).
  assert (j < lenZ cs) as Hjl.
  { destruct (Z_lt_le_dec j (lenZ cs)) as [H|H]; [exact H|]. rewrite zsum_firstnZ_all in Hlo; lia. }
  specialize (Hhi Hjl). rewrite zsum_firstnZ_succ in Hhi by lia.
  assert ((if j >? 0 then k - nthZ (cumsum cs) (j - 1) else k) = k - zsum (firstnZ j cs)) as ->.
  { destruct (j >? 0) eqn:E; [rewrite cumsum_nthZ | rewrite zsum_firstnZ_0]; lia. }
  eexists _, _. split; [reflexivity|]. split; [lia|]. split; [lia|].
  unfold abs_positions. f_equal. lia.
Qed.

Fixpoint ssi_wf (shape : list Z) (chunks : list (list Z)) (index : list ielem) : Prop :=
  match shape, chunks, index with
  | [], [], [] => True
  | n :: sh, cs :: ch, e :: ix =>
      valid_chunks cs n /\ cs <> [] /\
      match e with EInt i => 0 <= i < n | ESlice s => normalized s n | _ => False end /\
      ssi_wf sh ch ix
  | _, _, _ => False
  end.

(* boolean checker for ssi_wf (used by the harness on the real nodes) *)
Fixpoint ssi_wf_b (shape : list Z) (chunks : list (list Z)) (index : list ielem) : bool :=
  match shape, chunks, index with
  | [], [], [] => true
  | n :: sh, cs :: ch, e :: ix =>
      valid_chunks_b cs n && negb (match cs with [] => true | _ => false end) &&
      match e with
      | EInt i => (0 <=? i) && (i <? n)
      | ESlice s => normalized_b s n
      | _ => false
      end && ssi_wf_b sh ch ix
  | _, _, _ => false
  end.

Lemma ssi_wf_b_true shape : forall chunks index, ssi_wf_b shape chunks index = true -> ssi_wf shape chunks index.
Proof.
  induction shape as [|n sh IH]; intros chunks index H.
  - destruct chunks, index; try discriminate. exact I.
  - destruct chunks as [|cs ch]; [discriminate|]. destruct index as [|e ix]; [discriminate|].
    cbn [ssi_wf_b] in H.
    apply andb_true_iff in H as [H Hd]. apply andb_true_iff in H as [H Hc]. apply andb_true_iff in H as [Ha Hb].
    cbn [ssi_wf]. split; [apply valid_chunks_b_iff; exact Ha|].
    split; [destruct cs; discriminate|].
    split; [|apply IH; exact Hd].
    destruct e; try discriminate; [lia | apply normalized_b_iff; exact Hc].
Qed.

Lemma ssi_wf_ind (P : list Z -> list (list Z) -> list ielem -> Prop) :
  P [] [] [] ->
  (forall n sh cs ch i ix, valid_chunks cs n -> cs <> [] -> 0 <= i < n -> ssi_wf sh ch ix ->
     P sh ch ix -> P (n :: sh) (cs :: ch) (EInt i :: ix)) ->
  (forall n sh cs ch s ix, valid_chunks cs n -> cs <> [] -> normalized s n -> ssi_wf sh ch ix ->
     P sh ch ix -> P (n :: sh) (cs :: ch) (ESlice s :: ix)) ->
  forall shape chunks index, ssi_wf shape chunks index -> P shape chunks index.
Proof.
  intros H0 Hcons_int Hcons_slice. induction shape as [|n sh IH]; intros chunks index Hwf.
  - destruct chunks, index; try contradiction. exact H0.
  - destruct chunks as [|cs ch]; [contradiction|]. destruct index as [|e ix]; [contradiction|].
    destruct Hwf as (Hv & Hne & He & Hwf). destruct e as [i|s| |]; try contradiction.
    + exact (Hcons_int n sh cs ch i ix Hv Hne He Hwf (IH ch ix Hwf)).
    + exact (Hcons_slice n sh cs ch s ix Hv Hne He Hwf (IH ch ix Hwf)).
Qed.

Lemma ssi_wf_cons_inv shape chunks e ix :
  ssi_wf shape chunks (e :: ix) ->
  exists n sh cs ch, shape = n :: sh /\ chunks = cs :: ch /\
    match e with EInt i => 0 <= i < n | ESlice s => normalized s n | _ => False end /\ ssi_wf sh ch ix.
Proof.
  intros H. destruct shape as [|n sh], chunks as [|cs ch]; cbn [ssi_wf] in H; try contradiction.
  destruct H as (_ & _ & He & Hwf). exists n, sh, cs, ch.
  split; [reflexivity|]. split; [reflexivity|]. split; assumption.
Qed.

(* What one graph entry (output block o, input block i, local indices sl) must satisfy.
   Sliced axis (output coordinate ob, advertised chunks nb = new_blockdim): the positions
   the local slice reads from input block ib are the ob-th run of NumPy's selection
   [sel s n] cut according to nb, and there are nb[ob] of them.  Integer axis: the local
   integer addresses exactly position k, inside block ib; the axis is dropped. *)
Fixpoint block_spec (shape : list Z) (chunks : list (list Z)) (index : list ielem)
                    (o i : list Z) (sl : list ploc) : Prop :=
  match shape, chunks, index, i, sl with
  | [], [], [], [], [] => o = []
  | n :: sh, cs :: ch, e :: ix, ib :: i', loc :: sl' =>
      match e with
      | EInt k =>
          0 <= ib < lenZ cs /\
          (exists r, loc = LInt r /\ 0 <= r < nthZ cs ib) /\ abs_positions cs (ib, loc) = [k] /\
          block_spec sh ch ix o i' sl'
      | ESlice s =>
          match o with
          | ob :: o' => axis_entry_ok n cs s (ob, (ib, loc)) /\ block_spec sh ch ix o' i' sl'
          | [] => False
          end
      | _ => False
      end
  | _, _, _, _, _ => False
  end.

Definition entry_spec shape chunks index (e : list Z * (list Z * list ploc)) : Prop :=
  block_spec shape chunks index (fst e) (fst (snd e)) (snd (snd e)).

Lemma ssi_layer_cons_int n sh cs ch k ix ib r :
  slice_1d_int cs k = [(ib, LInt r)] ->
  ssi_layer (n :: sh) (cs :: ch) (EInt k :: ix) =
  map (fun e => (fst e, (ib :: fst (snd e), LInt r :: snd (snd e)))) (ssi_layer sh ch ix).
Proof.
  intros Hp. unfold ssi_layer. cbn [block_slices axis_plan map out_ranges]. rewrite Hp.
  cbn [sort_by_key insert_by_key map fst snd product flat_map]. rewrite !app_nil_r.
  rewrite combine_map_both, combine_map_r, map_map. apply map_ext. intros [o [i l]]. reflexivity.
Qed.

Lemma ssi_layer_cons_slice n sh cs ch s ix :
  let plan := slice_1d_slice n cs s in
  plen (out_ranges (block_slices sh ch ix) ix) = plen (map (map fst) (map sort_by_key (block_slices sh ch ix))) ->
  ssi_layer (n :: sh) (cs :: ch) (ESlice s :: ix) =
  flat_map (fun oe => map (fun e => (fst oe :: fst e, (fst (snd oe) :: fst (snd e), snd (snd oe) :: snd (snd e))))
                          (ssi_layer sh ch ix))
           (combine (out_range s plan) (sort_by_key plan)).
Proof.
  intros plan Hlen. unfold ssi_layer. cbn [block_slices axis_plan map out_ranges]. fold plan.
  set (S := sort_by_key plan). set (bs := block_slices sh ch ix) in *.
  set (PO := product (out_ranges bs ix)). set (PI := product (map (map fst) (map sort_by_key bs))).
  set (PL := product (map (map snd) (map sort_by_key bs))).
  assert (length PI = length PL) as HIL by (unfold PI, PL; rewrite !product_length; apply plen_map_map).
  assert (length PO = length PI) as HOI by (unfold PO, PI; rewrite !product_length; exact Hlen).
  cbn [product].
  rewrite (combine_flat_map (fun x => map (cons x) PI) (fun x => map (cons x) PL) (length PI))
    by (intros; rewrite map_length; auto).
  rewrite combine_fst_snd.
  rewrite (combine_flat_map (fun x => map (cons x) PO)
             (fun ab : Z * ploc => combine (map (cons (fst ab)) PI) (map (cons (snd ab)) PL)) (length PO)).
  2: { intros; apply map_length. }
  2: { intros. rewrite combine_length, !map_length. lia. }
  apply flat_map_ext. intros [ob [ib loc]]. cbn [fst snd].
  rewrite !combine_map_both. apply map_ext. intros [o [i l]]. reflexivity.
Qed.

Lemma plen_cons {A} (l : list A) rest : plen (l :: rest) = (length l * plen rest)%nat.
Proof. reflexivity. Qed.

(* out_names and in_names have the same number of entries *)
Lemma ssi_plen : forall shape chunks index, ssi_wf shape chunks index ->
  plen (out_ranges (block_slices shape chunks index) index) =
  plen (map (map fst) (map sort_by_key (block_slices shape chunks index))).
Proof.
  apply ssi_wf_ind; [reflexivity | |]; intros n sh cs ch e ix Hv Hne He Hwf IH;
    cbn [block_slices axis_plan out_ranges map]; rewrite !plen_cons.
  - cbn [slice_1d_int sort_by_key insert_by_key map length]. lia.
  - rewrite map_length, sort_by_key_length, (proj1 (out_range_spec _ _)), IH. reflexivity.
Qed.

Theorem ssi_layer_blocks shape : forall chunks index, ssi_wf shape chunks index ->
  Forall (entry_spec shape chunks index) (ssi_layer shape chunks index).
Proof.
  revert shape. apply ssi_wf_ind; [repeat constructor | |]; intros n sh cs ch e ix Hv Hne He Hwf IH.
  - destruct (int_axis_table n cs e Hv He) as (ib & r & Hp & Hib & Hr & Habs).
    rewrite (ssi_layer_cons_int n sh cs ch e ix ib r Hp). apply Forall_map.
    eapply Forall_impl; [|exact IH]. intros [o [ii l]] H. unfold entry_spec in *. cbn [fst snd block_spec] in *.
    split; [exact Hib|]. split; [exists r; split; [reflexivity | exact Hr]|]. split; [exact Habs | exact H].
  - pose proof (slice_axis_table n cs e Hv Hne He) as Htab. cbv zeta in Htab.
    rewrite (ssi_layer_cons_slice n sh cs ch e ix (ssi_plen sh ch ix Hwf)).
    apply Forall_flat_map. eapply Forall_impl; [|exact Htab]. intros [ob [ib loc]] Hax.
    apply Forall_map. eapply Forall_impl; [|exact IH]. intros [o [ii l]] H.
    unfold entry_spec in *. cbn [fst snd block_spec] in *. split; assumption.
Qed.

(* the output keys are exactly the block grid of the advertised chunks, each once *)
Lemma out_ranges_grid : forall shape chunks index, ssi_wf shape chunks index ->
  Forall (@NoDup Z) (out_ranges (block_slices shape chunks index) index) /\
  Forall2 (fun r nb => forall ob, In ob r <-> 0 <= ob < lenZ nb)
          (out_ranges (block_slices shape chunks index) index) (ssi_chunks shape chunks index).
Proof.
  apply ssi_wf_ind; [split; constructor | |]; intros n sh cs ch e ix Hv Hne He Hwf [IH1 IH2];
    cbn [block_slices axis_plan out_ranges ssi_chunks].
  - split; assumption.
  - destruct (out_range_spec e (slice_1d_slice n cs e)) as (_ & Hnd & Hin).
    split; constructor; try assumption. intros ob.
    rewrite Hin. unfold lenZ. rewrite (blockdim_as_lengths n cs e Hv He), map_length. reflexivity.
Qed.

Theorem ssi_layer_grid shape chunks index :
  ssi_wf shape chunks index ->
  let outs := map fst (ssi_layer shape chunks index) in
  NoDup outs /\
  forall o, In o outs <-> Forall2 (fun ob nb => 0 <= ob < lenZ nb) o (ssi_chunks shape chunks index).
Proof.
  intros Hwf outs.
  assert (outs = product (out_ranges (block_slices shape chunks index) index)) as ->.
  { unfold outs, ssi_layer. apply map_fst_combine.
    rewrite combine_length, !product_length, (ssi_plen shape chunks index Hwf).
    rewrite (plen_map_map fst snd). lia. }
  destruct (out_ranges_grid shape chunks index Hwf) as [Hnd Hgrid].
  split; [apply NoDup_product; exact Hnd|].
  intros o. rewrite in_product.
  revert o. induction Hgrid as [|r nb rs nbs Hr Hrest IHg]; intros o.
  - split; intros H; inversion H; constructor.
  - inversion Hnd as [|? ? Hnd1 Hnd2]; subst. specialize (IHg Hnd2).
    split; intros H; inversion H as [|ob ? o' ? Hob Ho']; subst; constructor;
      try (apply Hr; exact Hob); apply IHg; exact Ho'.
Qed.

(* extents of the block an entry produces: one number per kept (sliced) axis *)
Fixpoint block_extents (chunks : list (list Z)) (index : list ielem) (i : list Z) (sl : list ploc) : list Z :=
  match chunks, index, i, sl with
  | cs :: ch, e :: ix, ib :: i', loc :: sl' =>
      match e with
      | ESlice _ => lenZ (abs_positions cs (ib, loc)) :: block_extents ch ix i' sl'
      | _ => block_extents ch ix i' sl'
      end
  | _, _, _, _ => []
  end.

Definition advertised_extents (cks : list (list Z)) (o : list Z) : list Z :=
  map (fun p => nthZ (fst p) (snd p)) (combine cks o).

Lemma block_spec_extents shape : forall chunks index o i sl,
  block_spec shape chunks index o i sl ->
  block_extents chunks index i sl = advertised_extents (ssi_chunks shape chunks index) o.
Proof.
  induction shape as [|n sh IH]; intros chunks index o i sl H.
  - destruct chunks, index, i, sl; try contradiction. cbn in H. subst o. reflexivity.
  - destruct chunks as [|cs ch]; [contradiction|]. destruct index as [|e ix]; [contradiction|].
    destruct i as [|ib i']; [contradiction|]. destruct sl as [|loc sl']; [contradiction|].
    cbn [block_spec] in H. destruct e; try contradiction.
    + destruct H as (_ & _ & _ & H). cbn [block_extents ssi_chunks]. apply (IH _ _ _ _ _ H).
    + destruct o as [|ob o']; [contradiction|]. destruct H as [Hax H].
      unfold axis_entry_ok in Hax. cbv zeta in Hax. destruct Hax as (_ & _ & _ & Hlen).
      cbn [block_extents ssi_chunks]. unfold advertised_extents. cbn [combine map fst snd].
      rewrite Hlen. f_equal. apply (IH _ _ _ _ _ H).
Qed.

Theorem ssi_chunks_match_blocks shape chunks index :
  ssi_wf shape chunks index ->
  Forall (fun e => block_extents chunks index (fst (snd e)) (snd (snd e)) =
                   advertised_extents (ssi_chunks shape chunks index) (fst e))
         (ssi_layer shape chunks index).
Proof.
  intros Hwf. eapply Forall_impl; [|exact (ssi_layer_blocks shape chunks index Hwf)].
  intros [o [i sl]] H. apply (block_spec_extents _ _ _ _ _ _ H).
Qed.

Theorem ssi_chunks_shape shape : forall chunks index,
  ssi_wf shape chunks index ->
  map zsum (ssi_chunks shape chunks index) = out_shape (np_meaning index shape) /\
  Forall (Forall (fun c => 0 <= c)) (ssi_chunks shape chunks index).
Proof.
  revert shape. apply ssi_wf_ind; [split; [reflexivity | constructor] | |];
    intros n sh cs ch e ix Hv Hne He Hwf [IH1 IH2]; cbn [ssi_chunks np_meaning out_shape map].
  - split; assumption.
  - split.
    + rewrite IH1, (new_blockdim_sum n cs e Hv He). unfold lenZ. rewrite sel_length. reflexivity.
    + constructor; [|exact IH2].
      rewrite (blockdim_as_lengths n cs e Hv He). apply Forall_forall. intros c Hc.
      apply in_map_iff in Hc as (e' & <- & _). apply lenZ_nonneg.
Qed.

Lemma strip_wf_takes idx : forall shape chunks,
  ssi_wf shape chunks (strip_nones idx) ->
  lenZ (ssi_chunks shape chunks (strip_nones idx)) = countZ takes_value idx.
Proof.
  induction idx as [|e t IH]; intros shape chunks Hwf.
  - cbn [strip_nones filter] in *. destruct shape, chunks; try contradiction. reflexivity.
  - rewrite countZ_cons.
    destruct e as [i|s| |]; cbn [strip_nones filter not_none is_none negb takes_value is_int andb] in *;
      fold (strip_nones t) in *.
    + (* an integer uses up an axis and leaves no chunks *)
      apply ssi_wf_cons_inv in Hwf as (n & sh & cs & ch & -> & -> & _ & Hwf).
      cbn [ssi_chunks]. rewrite (IH _ _ Hwf). lia.
    + (* a slice keeps its axis *)
      apply ssi_wf_cons_inv in Hwf as (n & sh & cs & ch & -> & -> & _ & Hwf).
      cbn [ssi_chunks]. rewrite lenZ_cons, (IH _ _ Hwf). lia.
    + (* None is stripped *) rewrite (IH _ _ Hwf). lia.
    + (* an Ellipsis is not well-formed *)
      apply ssi_wf_cons_inv in Hwf as (n & sh & cs & ch & _ & _ & [] & _).
Qed.

Theorem getitem_chunks_shape idx shape chunks :
  index_normalized idx shape -> ssi_wf shape chunks (strip_nones idx) ->
  getitem_chunks shape chunks (strip_nones idx) (where_none idx) =
    kept_view (ssi_chunks shape chunks (strip_nones idx)) [1] idx /\
  map zsum (getitem_chunks shape chunks (strip_nones idx) (where_none idx)) = out_shape (np_meaning idx shape).
Proof.
  intros Hn Hwf. unfold getitem_chunks.
  rewrite (where_none_layout [1] idx _ (strip_wf_takes idx shape chunks Hwf)).
  split; [reflexivity|].
  rewrite kept_view_map. change (zsum [1]) with 1.
  destruct (ssi_chunks_shape shape chunks (strip_nones idx) Hwf) as [-> _].
  symmetry. apply out_shape_kept_view. exact Hn.
Qed.

Fixpoint chunks_ok (shape : list Z) (chunks : list (list Z)) : Prop :=
  match shape, chunks with
  | [], [] => True
  | n :: sh, cs :: ch => valid_chunks cs n /\ cs <> [] /\ chunks_ok sh ch
  | _, _ => False
  end.

(* index_normalized + valid chunkings give ssi_wf of the stripped index *)
Lemma normalized_wf idx : forall shape chunks,
  index_normalized idx shape -> chunks_ok shape chunks -> ssi_wf shape chunks (strip_nones idx).
Proof.
  induction idx as [|e t IH]; intros shape chunks Hn Hc.
  - cbn in Hn. subst shape. destruct chunks; [exact I | contradiction].
  - destruct e; cbn [index_normalized] in Hn; cbn [strip_nones filter not_none is_none negb]; fold (strip_nones t).
    + destruct shape as [|n sh]; [contradiction|]. destruct chunks as [|cs ch]; [contradiction|].
      destruct Hn as [Hi Hn]. destruct Hc as (Hv & Hne & Hc). cbn [ssi_wf].
      exact (conj Hv (conj Hne (conj Hi (IH sh ch Hn Hc)))).
    + destruct shape as [|n sh]; [contradiction|]. destruct chunks as [|cs ch]; [contradiction|].
      destruct Hn as [Hi Hn]. destruct Hc as (Hv & Hne & Hc). cbn [ssi_wf].
      exact (conj Hv (conj Hne (conj Hi (IH sh ch Hn Hc)))).
    + apply IH; assumption.
    + contradiction.
Qed.

Lemma all_colon_meaning idx : forall shape,
  forallb is_colon_elem idx = true -> index_normalized idx shape ->
  np_meaning idx shape = map (fun n => AKeep (sel colon n)) shape.
Proof.
  induction idx as [|e t IH]; intros shape Hc Hn.
  - cbn in Hn. subst shape. reflexivity.
  - cbn [forallb] in Hc. apply andb_true_iff in Hc as [He Ht].
    destruct e; try discriminate. cbn [is_colon_elem] in He. apply pslice_eqb_eq in He. subst s.
    cbn [index_normalized] in Hn. destruct shape as [|n sh]; [contradiction|]. destruct Hn as [_ Hn].
    cbn [np_meaning map]. rewrite (IH sh Ht Hn). reflexivity.
Qed.

Theorem getitem_basic_self idx shape :
  Forall (fun n => 0 <= n) shape -> getitem_basic idx shape = GSelf ->
  np_meaning (np_expand (lenZ shape) idx) shape = map (fun n => AKeep (sel colon n)) shape.
Proof.
  intros Hs H. unfold getitem_basic in H.
  destruct (normalize_index idx shape) as [idx'| | |] eqn:Hn; try discriminate.
  destruct (forallb is_colon_elem idx') eqn:Hc; [|discriminate].
  rewrite <- (normalize_index_meaning idx shape idx' Hs Hn).
  apply all_colon_meaning; [exact Hc|]. apply (normalize_index_normalized idx shape idx' Hs Hn).
Qed.

Theorem getitem_basic_node idx shape chunks index allow axes :
  Forall (fun n => 0 <= n) shape -> chunks_ok shape chunks ->
  getitem_basic idx shape = GNode index allow axes ->
  exists idx', normalize_index idx shape = NOk idx' /\
    index = strip_nones idx' /\ axes = where_none idx' /\
    ssi_wf shape chunks index /\
    np_meaning index shape =
      filter (fun a => negb (is_new a)) (np_meaning (np_expand (lenZ shape) idx) shape) /\
    getitem_chunks shape chunks index axes = kept_view (ssi_chunks shape chunks index) [1] idx' /\
    map zsum (getitem_chunks shape chunks index axes) =
      out_shape (np_meaning (np_expand (lenZ shape) idx) shape).
Proof.
  intros Hs Hck H. unfold getitem_basic in H.
  destruct (normalize_index idx shape) as [idx'| | |] eqn:Hn; try discriminate.
  destruct (forallb is_colon_elem idx'); [discriminate|].
  injection H as <- _ <-. exists idx'.
  pose proof (normalize_index_normalized idx shape idx' Hs Hn) as Hnorm.
  pose proof (normalize_index_meaning idx shape idx' Hs Hn) as Hmean.
  pose proof (normalized_wf idx' shape chunks Hnorm Hck) as Hwf.
  destruct (getitem_chunks_shape idx' shape chunks Hnorm Hwf) as [Hg1 Hg2].
  split; [reflexivity|]. split; [reflexivity|]. split; [reflexivity|]. split; [exact Hwf|].
  split; [rewrite strip_nones_meaning, Hmean; reflexivity|].
  split; [exact Hg1 | rewrite Hg2, Hmean; reflexivity].
Qed.

Theorem getitem_basic_err idx shape e :
  getitem_basic idx shape = GErr e -> normalize_index idx shape = e /\ forall idx', e <> NOk idx'.
Proof.
  unfold getitem_basic. destruct (normalize_index idx shape) as [idx'| | |] eqn:Hn.
  - destruct (forallb is_colon_elem idx'); discriminate.
  - intros H. injection H as <-. split; [reflexivity | discriminate].
  - intros H. injection H as <-. split; [reflexivity | discriminate].
  - intros H. injection H as <-. split; [reflexivity | discriminate].
Qed.
