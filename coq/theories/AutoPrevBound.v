(* auto_chunks' previous_chunks branch (AutoPrev.v): the BYTE BOUND.

     normalize_prev_limit          if the LAST pass that starts with `autos` non-empty is accurate for the
                                   factor T (acc_round: prod(max(1, int(proposed), int(max_chunk_size))) is
                                   within T * target and the settled dict entries multiply to >= 1) then
                                   itemsize * (largest block) <= T * max(1, limit)
     normalize_prev_limit_zero_prev_refuted   without "settled entries multiply to >= 1" the bound fails:
                                   zero-size previous chunks (median 1/2) give blocks of 2 * limit

   Argument.  largest_block always equals (fixed part) * (product of the largest chunks of the axes that left
   `autos`): an axis that hits the shape boundary multiplies both by shape[a], an axis whose proposal is < 1
   gets chunk size 1.  Every axis still in `autos` is recomputed in each pass, so only the last such pass
   matters; there each axis receives at most max(1, int(proposed), int(max_chunk_size)). *)
From DA Require Import PyBase NormChunks NormChunksFacts AutoPrev AutoPrevFacts AutoPrevTerm AutoPrevTerm2.
Open Scope Z_scope.

Lemma max_of_le l B : 0 <= B -> Forall (fun e => e <= B) l -> max_of l <= B.
Proof.
  intros HB H. unfold max_of. apply fold_max_le; [|exact H].
  destruct H; cbn [hd]; assumption.
Qed.

Lemma max_of_ge l e : In e l -> e <= max_of l.
Proof.
  unfold max_of. generalize (hd 0 l) as b. induction l as [|x l IH]; intros b H; [destruct H|]. cbn [fold_right].
  destruct H as [<-|H]; [lia|specialize (IH b H); lia].
Qed.

Lemma max_of_nonneg l : Forall (fun c => 0 < c) l -> 0 <= max_of l.
Proof.
  intros H. destruct l as [|x l]; [cbn; lia|].
  inversion H; subst. pose proof (max_of_ge (x :: l) x (or_introl eq_refl)). lia.
Qed.

(* the merged chunks fit `proposed`, except single previous chunks *)
Lemma merge_prev_elems n d pv0 : 0 < d -> forall pv nc,
  (forall c, In c pv -> In c pv0) -> (nc <= n / d \/ In nc pv0 \/ nc = 0) ->
  forall e, In e (merge_prev (FQ n d) pv nc) -> e <= n / d \/ In e pv0.
Proof.
  intros Hd. induction pv as [|c pv IH]; intros nc Hsub Hnc e He; cbn [merge_prev] in He.
  - destruct (0 <? nc) eqn:E0; [|destruct He]. destruct He as [<-|[]].
    destruct Hnc as [H|[H|H]]; [left; exact H|right; exact H|lia].
  - destruct (z_le_f (c + nc) (FQ n d)) eqn:E.
    + eapply IH; [| |exact He].
      * intros c' Hc'. apply Hsub. right. exact Hc'.
      * left. cbn [z_le_f] in E. apply Z.div_le_lower_bound; lia.
    + apply in_app_or in He as [He|He].
      * destruct (0 <? nc) eqn:E0; [|destruct He]. destruct He as [<-|[]].
        destruct Hnc as [H|[H|H]]; [left; exact H|right; exact H|lia].
      * eapply IH; [| |exact He].
        -- intros c' Hc'. apply Hsub. right. exact Hc'.
        -- right. left. apply Hsub. left. reflexivity.
Qed.

Lemma merge_prev_max n d pv B :
  0 < d -> max_of pv <= B -> 0 <= max_of (merge_prev (FQ n d) pv 0) <= Z.max 1 (Z.max (n / d) B).
Proof.
  intros Hd HB. split; [apply max_of_nonneg, merge_prev_pos|].
  apply max_of_le; [lia|]. apply Forall_forall. intros e He.
  destruct (merge_prev_elems n d pv Hd pv 0 (fun _ H => H) (or_intror (or_intror eq_refl)) e He) as [H1|H1]; [lia|].
  pose proof (max_of_ge _ _ H1). lia.
Qed.

Definition wf_c (c : axc) : Prop := consts_ok c /\ 0 <= c_n c.

Lemma res_of_set_res reduce x v : res_of reduce (set_res reduce x v) = Some v.
Proof. unfold res_of, set_res. destruct reduce; reflexivity. Qed.

(* what axis_step leaves for the axis in `result`, whether the axis stays in `autos`, and the factor *)
Lemma axis_step_res reduce c p mcs x x' f k :
  axis_step reduce c (p, mcs) x = (x', f, k) ->
  if f_gt_z p (c_n c)
  then res_of reduce x' = Some (VTup [c_n c]) /\ ax_auto x' = false /\ k = c_n c
  else k = 1 /\
       if reduce || z_gt_f (max_of (c_pv c)) mcs
       then res_of reduce x' = Some (VNum (round_to_f p (c_ideal c))) /\
            ax_auto x' = (if f_lt_z p 1 then false else ax_auto x)
       else res_of reduce x' = Some (VTup (merge_prev p (c_pv c) 0)) /\ ax_auto x' = ax_auto x.
Proof.
  unfold axis_step, res_of, set_res. destruct (f_gt_z p (c_n c)).
  - intros H. injection H as <- _ <-. destruct reduce; auto.
  - destruct (reduce || z_gt_f (max_of (c_pv c)) mcs); [destruct (f_lt_z p 1)|];
      intros H; injection H as <- _ <-; destruct reduce; auto.
Qed.

(* an axis of `autos` receives at most max(1, int(proposed), int(max_chunk_size)); the factor is the chunk
   size it leaves `autos` with *)
Lemma axis_step_blk reduce c o x x' f k :
  axis_step reduce c o x = (x', f, k) -> ax_auto x = true -> wf_c c ->
  fwf (fst o) = true -> fwf (snd o) = true ->
  0 <= mvo (res_of reduce x') <= ubound o /\ 0 <= k /\
  (ax_auto x' = false -> mvo (res_of reduce x') = k) /\ (ax_auto x' = true -> k = 1).
Proof.
  unfold ubound. destruct o as [[|n d] [|n' d']]; try discriminate. cbn [fst snd fwf].
  intros H Ha [Hc Hn] Hd Hd'. apply axis_step_res in H.
  destruct (f_gt_z (FQ n d) (c_n c)) eqn:Eg; cbn [f_gt_z] in Eg.
  - (* the shape boundary *)
    destruct H as (-> & -> & ->). cbn [mvo mv max_of hd fold_right].
    assert (c_n c <= ffloor (FQ n d)) by (apply Z.div_le_lower_bound; lia).
    repeat split; lia.
  - destruct H as (-> & H). destruct (reduce || z_gt_f (max_of (c_pv c)) (FQ n' d')) eqn:Eb.
    + (* round_to(proposed): 1 when proposed < 1 *)
      destruct H as (-> & ->).
      destruct (round_to_f_pos n d (c_ideal c) (c_n c)) as (r & -> & Hr); [lia|lia|exact Hc|].
      cbn [mvo mv]. rewrite Z.div_1_r. fold (ffloor (FQ n d)) in Hr.
      destruct (f_lt_z (FQ n d) 1) eqn:El; cbn [f_lt_z] in El; [|repeat split; try lia; congruence].
      assert (ffloor (FQ n d) < 1) by (apply Z.div_lt_upper_bound; lia). repeat split; lia.
    + (* the previous chunks, merged: each fits `proposed` or is a previous chunk, which fit max_chunk_size *)
      destruct H as (-> & ->). cbn [mvo mv].
      apply orb_false_iff in Eb as [_ Eb]. unfold z_gt_f in Eb. cbn [f_lt_z] in Eb.
      assert (max_of (c_pv c) <= ffloor (FQ n' d')) as Hmx by (apply Z.div_le_lower_bound; lia).
      pose proof (merge_prev_max n d _ _ ltac:(lia) Hmx). cbn [ffloor] in *. repeat split; try lia. congruence.
Qed.

Lemma settled_blk_cons reduce x xs :
  settled_blk reduce (x :: xs) = (if ax_auto x then 1 else mvo (res_of reduce x)) * settled_blk reduce xs.
Proof. reflexivity. Qed.
Lemma all_blk_cons reduce x xs : all_blk reduce (x :: xs) = mvo (res_of reduce x) * all_blk reduce xs.
Proof. reflexivity. Qed.

(* the settled part of the block is multiplied with the factor of the pass; all of it is the settled part
   times what the axes of `autos` received *)
Lemma round_rel_blk reduce o a cs xs xs' f k :
  round_rel reduce o a cs xs xs' f k -> Forall wf_c cs -> owf a o xs = true ->
  settled_blk reduce xs' = settled_blk reduce xs * k /\ 0 <= k /\
  exists W, all_blk reduce xs' = settled_blk reduce xs * W /\ 0 <= W <= uprod a o xs.
Proof.
  round_rel_induction; intros Hc Ho.
  - split; [reflexivity|]. split; [lia|]. exists 1. split; [reflexivity|cbn; lia].
  - inversion_clear Hc as [|? ? _ Hc2]. cbn [owf] in Ho. rewrite Ea in Ho.
    destruct (IH Hc2 Ho) as (I1 & I2 & W & I3 & I4).
    rewrite !settled_blk_cons, !all_blk_cons, Ea, I1, I3. cbn [uprod]. rewrite Ea.
    split; [ring|]. split; [exact I2|]. exists W. split; [ring|lia].
  - inversion_clear Hc as [|? ? Hc1 Hc2]. cbn [owf] in Ho. rewrite Ea in Ho.
    apply andb_true_iff in Ho as [Ho1 Ho2]. apply andb_true_iff in Ho1 as [Hp Hm].
    destruct (IH Hc2 Ho2) as (I1 & I2 & W & I3 & I4).
    destruct (axis_step_blk _ _ _ _ _ _ _ Hs Ea Hc1 Hp Hm) as (B1 & B2 & B3 & B4).
    rewrite !settled_blk_cons, !all_blk_cons, Ea, I1, I3. cbn [uprod]. rewrite Ea.
    split; [destruct (ax_auto x'); [rewrite (B4 eq_refl)|rewrite (B3 eq_refl)]; ring|].
    split; [apply Z.mul_nonneg_nonneg; assumption|].
    exists (mvo (res_of reduce x') * W). split; [ring|].
    split; [apply Z.mul_nonneg_nonneg; lia|apply Z.mul_le_mono_nonneg; lia].
Qed.

(* with `autos` empty further passes do not touch the dicts *)
Lemma no_autos_axes reduce limit itemsize cs orc : forall fuel r st stF,
  prev_loop fuel reduce limit itemsize cs orc r st = LDone stF ->
  length cs = length (ls_axes st) -> n_autos (ls_axes st) = 0%nat -> ls_axes stF = ls_axes st.
Proof.
  induction fuel as [|f IH]; intros r st stF H Hl Hn; cbn [prev_loop] in H; [discriminate|].
  destruct (prev_round reduce limit itemsize cs (orc r) st) as [[st1 b]|] eqn:Hr; [|discriminate].
  destruct (prev_round_inv _ _ _ _ _ _ _ _ Hr Hl) as (fl & k & Hrel & _).
  destruct (round_rel_no_autos _ _ _ _ _ _ _ _ Hrel Hn) as (Hx & _).
  destruct b; [|injection H as <-; exact Hx].
  rewrite (IH _ _ _ H); rewrite Hx; auto.
Qed.

Lemma acc_round_inv tn td limit itemsize o st :
  acc_round tn td limit itemsize o st = true ->
  exists on od, others_prod (ls_axes st) = FQ on od /\ owf 0 o (ls_axes st) = true /\
    0 <= ls_lb st /\ 0 < od <= on /\
    uprod 0 o (ls_axes st) * (itemsize * ls_lb st * on) * td <= tn * limit * od.
Proof.
  unfold acc_round. destruct (others_prod (ls_axes st)) as [|on od]; [discriminate|].
  intros H. apply andb_true_iff in H as [H H5]. apply andb_true_iff in H as [H H4].
  apply andb_true_iff in H as [H H3]. apply andb_true_iff in H as [H1 H2].
  exists on, od. repeat split; try lia; assumption.
Qed.

(* W <= U chunks per block where U * (bytes of the rest) * (on / od) <= T * limit and on / od >= 1 *)
Lemma acc_arith i lb td W U on od B :
  0 <= i -> 0 <= lb -> 0 < td -> 0 <= W <= U -> 0 < od <= on ->
  U * (i * lb * on) * td <= B * od -> i * (lb * W) * td <= B.
Proof.
  intros Hi Hlb Htd HW Hod H.
  assert (0 <= i * lb * td) as HA by (repeat apply Z.mul_nonneg_nonneg; lia).
  assert (i * lb * td * W <= i * lb * td * U) as H1 by (apply Z.mul_le_mono_nonneg_l; lia).
  assert (i * lb * td * U * od <= i * lb * td * U * on) as H2
    by (apply Z.mul_le_mono_nonneg_l; [apply Z.mul_nonneg_nonneg|]; lia).
  assert (i * lb * td * U * od <= B * od) as H3 by lia.
  apply Z.mul_le_mono_pos_r in H3; lia.
Qed.

(* the block of the state a pass produces, when the pass is accurate *)
Lemma acc_round_bound tn td reduce limit itemsize cs o st xs fl k lb0 :
  round_rel reduce o 0 cs (ls_axes st) xs fl k ->
  Forall wf_c cs -> 0 < td -> 0 <= itemsize ->
  ls_lb st = lb0 * settled_blk reduce (ls_axes st) ->
  acc_round tn td limit itemsize o st = true ->
  itemsize * (lb0 * all_blk reduce xs) * td <= tn * limit.
Proof.
  intros Hr Hc Htd Hi HJ Hacc.
  destruct (acc_round_inv _ _ _ _ _ _ Hacc) as (on & od & _ & Ho & Hlb & Hod & Hle).
  destruct (round_rel_blk _ _ _ _ _ _ _ _ Hr Hc Ho) as (_ & _ & W & HW & HWb).
  rewrite HW. replace (lb0 * (settled_blk reduce (ls_axes st) * W)) with (ls_lb st * W) by (rewrite HJ; ring).
  eapply acc_arith; eassumption.
Qed.

Lemma prev_loop_blk tn td reduce limit itemsize cs orc lb0 :
  Forall wf_c cs -> 0 < td -> 0 <= itemsize ->
  forall fuel r st stF,
    prev_loop fuel reduce limit itemsize cs orc r st = LDone stF ->
    length cs = length (ls_axes st) ->
    ls_lb st = lb0 * settled_blk reduce (ls_axes st) ->
    acc_last tn td fuel reduce limit itemsize cs orc r st = true ->
    itemsize * (lb0 * all_blk reduce (ls_axes stF)) * td <= tn * limit.
Proof.
  intros Hc Htd Hi. induction fuel as [|f IH]; intros r st stF H Hl HJ Hacc; cbn [prev_loop] in H; [discriminate|].
  cbn [acc_last] in Hacc. apply andb_true_iff in Hacc as [Ho Hacc].
  destruct (prev_round reduce limit itemsize cs (orc r) st) as [[st1 b]|] eqn:Hr; [|discriminate].
  destruct (prev_round_inv _ _ _ _ _ _ _ _ Hr Hl) as (fl & k & Hrel & Hlb & _).
  pose proof (round_rel_length _ _ _ _ _ _ _ _ Hrel) as Hlen.
  destruct (round_rel_blk _ _ _ _ _ _ _ _ Hrel Hc Ho) as (HS & _ & _).
  destruct b.
  - destruct (0 <? n_autos (ls_axes st1))%nat eqn:En.
    + eapply IH; [exact H|lia| |exact Hacc]. rewrite Hlb, HS, HJ. ring.
    + rewrite (no_autos_axes _ _ _ _ _ _ _ _ _ H); [|lia|apply Nat.ltb_ge in En; lia].
      eapply acc_round_bound; eassumption.
  - injection H as <-. eapply acc_round_bound; eassumption.
Qed.

Lemma final_specs_largest reduce specs : forall xs specs',
  Forall2 ax_inv specs xs -> final_specs reduce specs xs = Ok specs' ->
  largest_fixed specs' = largest_fixed specs * all_blk reduce xs.
Proof.
  induction specs as [|sp specs IH]; intros xs specs' HF H; inversion HF as [|? x ? xs0 Hx HF']; subst;
    cbn [final_specs] in H.
  - injection H as <-. reflexivity.
  - fold (res_of reduce x) in H.
    destruct (final_spec_of sp (res_of reduce x)) as [s|] eqn:Hs; [|discriminate].
    destruct (final_specs reduce specs xs0) as [r|] eqn:Hr; [|discriminate].
    injection H as <-. rewrite all_blk_cons, !largest_fixed_cons, (IH _ _ HF' Hr).
    unfold ax_inv in Hx. destruct (is_auto sp) eqn:Ea.
    + destruct (res_of reduce x) as [[[|n d]|[|y l]]|]; cbn [final_spec_of] in Hs.
      * (* NaN *) discriminate.
      * (* a rational *)
        destruct (n =? 0) eqn:En.
        -- injection Hs as <-. cbn [is_auto fixed_extent mvo mv]. assert (n = 0) as -> by lia.
           rewrite Zdiv_0_l. ring.
        -- destruct (n mod d =? 0); [|discriminate]. injection Hs as <-. cbn [is_auto fixed_extent mvo mv]. ring.
      * (* the empty tuple *) injection Hs as <-. cbn [is_auto fixed_extent mvo mv max_of hd fold_right]. ring.
      * (* a tuple *) injection Hs as <-. cbn [is_auto fixed_extent mvo mv]. unfold max_of. ring.
      * (* no entry *) injection Hs as <-. rewrite Ea. cbn [mvo]. ring.
    + subst x. assert (res_of reduce (mkax false None None) = None) as E by (destruct reduce; reflexivity).
      rewrite E in *. cbn [final_spec_of] in Hs. injection Hs as <-. rewrite Ea. cbn [mvo]. ring.
Qed.

Lemma settled_blk_init reduce specs : forall pvs, settled_blk reduce (init_axes specs pvs) = 1.
Proof.
  unfold init_axes. induction specs as [|sp specs IH]; intros [|pv pvs]; cbn [combine map]; try reflexivity.
  rewrite settled_blk_cons, IH. cbn [fst snd]. destruct (is_auto sp); cbn [ax_auto]; [reflexivity|].
  unfold res_of. destruct reduce; reflexivity.
Qed.

Lemma mk_consts_wf pvs shape ids :
  ideals_of pvs shape = Ok ids -> Forall (fun n => 0 <= n) shape -> Forall wf_c (mk_consts shape pvs ids).
Proof.
  intros Hi Hsh. apply Forall_and; [eapply mk_consts_ok; exact Hi|]. clear Hi. revert pvs ids.
  induction Hsh as [|s shape Hs _ IH]; intros [|pv pvs] [|i ids]; cbn [mk_consts]; constructor; auto.
Qed.

(* THE BYTE BOUND of the previous_chunks branch.  T = tn/td (the configured array.chunk-size-tolerance is
   5/4).  If the proposals of every pass are numbers and the last pass that starts with `autos` non-empty is
   accurate for T, every block has at most T * max(1, limit) bytes. *)
Theorem normalize_prev_limit : forall tn td orc fuel limit itemsize specs shape prev cs,
  0 < td -> 0 <= tn -> 0 <= itemsize -> Forall (fun n => 0 <= n) shape ->
  normalize_chunks_prev orc fuel limit itemsize specs shape prev = POk cs ->
  prev_acc tn td orc fuel limit itemsize specs shape prev = true ->
  itemsize * max_block cs * td <= tn * Z.max 1 limit.
Proof.
  intros tn td orc fuel limit itemsize specs shape prev cs Htd Htn Hi Hsh H Hacc.
  unfold prev_acc in Hacc. pose proof (normalize_prev_start orc fuel limit itemsize specs shape prev) as Hst.
  destruct (prev_start limit itemsize specs shape prev) as [[[reduce cs0] st0]|] eqn:E; [|discriminate].
  rewrite H in Hst.
  destruct (prev_loop fuel reduce (Z.max 1 limit) itemsize cs0 orc 0 st0) as [stF| |] eqn:Hl; try discriminate.
  destruct (final_specs reduce (subst_all specs shape) (ls_axes stF)) as [specs'|] eqn:Hf; [|discriminate].
  destruct (normalize_tail specs' shape) as [cs'|] eqn:Ht; [|discriminate]. injection Hst as ->.
  apply prev_start_inv in E as (Hlen & pvs & _ & Hs0).
  destruct (loop_start_length _ _ _ _ _ _ _ _ (subst_all_length specs shape Hlen) Hs0) as [Hl0 Lp].
  apply loop_start_inv in Hs0 as (ids & m & _ & Hids & _ & -> & ->).
  pose proof (prev_loop_blk tn td reduce (Z.max 1 limit) itemsize _ orc (largest_fixed (subst_all specs shape))
                (mk_consts_wf _ _ _ Hids Hsh) Htd Hi fuel 0%nat _ stF Hl Hl0) as Hb.
  cbn [ls_axes ls_lb] in Hb. rewrite settled_blk_init in Hb. specialize (Hb ltac:(ring) Hacc).
  assert (Forall2 ax_inv (subst_all specs shape) (ls_axes stF)) as HF.
  { eapply prev_loop_inv; [exact Hl|exact Hl0|]. apply init_axes_inv. exact Lp. }
  rewrite <- (final_specs_largest _ _ _ _ HF Hf) in Hb.
  apply normalize_tail_inv in Ht as (Hc & Hnil & Hneg & _).
  destruct (convert_all_max specs' shape cs' Hc Hnil Hneg) as [HM|[HM _]].
  - rewrite HM. nia.
  - nia.
Qed.

(* refuted: the bound fails when an 'auto' axis has zero-size previous chunks (median 1/2 < 1):
   normalize_chunks(('auto','auto'), (1,100), limit=10, dtype='u1', previous_chunks=((0,1),(10,)*10))
   = ((1,), (20,20,20,20,20)): 20 bytes per block for a limit of 10 (tolerance 5/4).
   The oracle values are the floats the implementation computes (0.7071.., 0.7905.., 14.142.., 15.811..; 20, 25). *)
Definition zero_prev_oracle : nat -> nat -> fval * fval :=
  orc_of_table
    [[(0%nat, (FQ 6369051672525773 9007199254740992, FQ 7120816245988179 9007199254740992));
      (1%nat, (FQ 124395540479019 8796093022208, FQ 1112627538435653 70368744177664))];
     [(1%nat, (FQ 20 1, FQ 25 1))]].

Theorem normalize_prev_limit_zero_prev_refuted :
  exists orc fuel limit itemsize specs shape prev cs,
    layout_ok prev shape = true /\
    normalize_chunks_prev orc fuel limit itemsize specs shape prev = POk cs /\
    itemsize * largest_fixed specs <= limit /\
    5 * limit < 4 * (itemsize * max_block cs).
Proof.
  exists zero_prev_oracle, 8%nat, 10, 1, [AAuto; AAuto], [1; 100], [[0; 1]; [10; 10; 10; 10; 10; 10; 10; 10; 10; 10]],
         [[1]; [20; 20; 20; 20; 20]].
  vm_compute. repeat split; congruence.
Qed.
