(* The advertised-chunks rule ProgChunks.pchunks (C03).  [pchunks_layout]: whatever a well-formed oracle
   answers, the advertised chunks lay out the advertised shape ([lay_ok]), by one [..._chunks_ok] lemma per
   operation.  After it, what the rule gives exactly, operation by operation. *)
From DA Require Import PyBase PyBaseFacts Slicing NormalizeFacts FuseFacts Slice1dBase Slice1dFacts NdArray NdArrayFacts ProgSem ProgSemFacts ProgSemDen ProgSemLaws ProgChunks.
Open Scope Z_scope.

Lemma Forall_nth_in {A} (P : A -> Prop) (l : list A) k d : Forall P l -> (k < length l)%nat -> P (nth k l d).
Proof. intros H Hk. rewrite Forall_forall in H. apply H. apply nth_In. exact Hk. Qed.

Lemma zsum_map_filter {A} (f : A -> bool) (g : A -> Z) l :
  (forall q, In q l -> f q = false -> g q = 0) -> zsum (map g (filter f l)) = zsum (map g l).
Proof.
  induction l as [|x l IH]; intros H; [reflexivity|]. cbn [filter map zsum].
  assert (IH' := IH (fun q Hq => H q (or_intror Hq))).
  destruct (f x) eqn:E; cbn [map zsum]; [lia|]. rewrite (H x (or_introl eq_refl) E). lia.
Qed.

Lemma zsum_map_mul k l : zsum (map (fun x => x * k) l) = zsum l * k.
Proof. induction l as [|x l IH]; cbn [map zsum]; [reflexivity | rewrite IH; ring]. Qed.

Lemma set_nth_nth_eq k : forall a b v, set_nth k v a = set_nth k v b -> forall j, j <> k -> nth j a 0 = nth j b 0.
Proof.
  intros a b v H j Hj. rewrite <- (nth_set_nth_neq k j v a 0 (not_eq_sym Hj)), H. apply nth_set_nth_neq. congruence.
Qed.

Lemma set_nth_change k v a b : set_nth k 0 a = set_nth k 0 b -> set_nth k v a = set_nth k v b.
Proof. intros H. rewrite <- (set_nth_set_nth k v 0 a), H. apply set_nth_set_nth. Qed.

Lemma set_nth_insert_at k v w : forall l, (k <= length l)%nat -> set_nth k w (insert_at k v l) = insert_at k w l.
Proof.
  unfold insert_at. induction k as [|k IH]; intros l H.
  - reflexivity.
  - destruct l as [|x l]; cbn [length] in H; [lia|]. cbn [firstn skipn app set_nth]. f_equal. apply IH. lia.
Qed.

(* the local fixpoint over the operands inside [pchunks] is [pchunks_from] (likewise [orc_wf_b_PN] below) *)
Lemma pchunks_PN orc o ps :
  pchunks orc (PN o ps) =
  match sequence (pchunks_from orc 0 ps) with Some css => n_chunks o (orc []) css | None => None end.
Proof.
  cbn [pchunks].
  assert (H : forall l i, (fix go (i : nat) (l : list prog) {struct l} : list (option layout) :=
                 match l with [] => [] | q :: t => pchunks (sub orc i) q :: go (S i) t end) i l
              = pchunks_from orc i l).
  { induction l as [|q t IH]; intros i; [reflexivity|]. cbn [pchunks_from]. rewrite IH. reflexivity. }
  rewrite H. reflexivity.
Qed.

Definition ax_ok (c : list Z) : Prop := Forall (fun x => 0 <= x) c /\ c <> [].

Lemma lay_ok_unfold cs s : lay_ok cs s <-> cshape cs = s /\ Forall ax_ok cs.
Proof. reflexivity. Qed.

Lemma axis_okb_iff c : axis_okb c = true <-> ax_ok c.
Proof.
  unfold axis_okb, ax_ok, all_nonneg. rewrite andb_true_iff, forallb_forall, Forall_forall. split.
  - intros [H1 H2]. split; [intros x Hx; specialize (H1 x Hx); lia | destruct c; [discriminate | discriminate]].
  - intros [H1 H2]. split; [intros x Hx; specialize (H1 x Hx); lia | destruct c; [congruence | reflexivity]].
Qed.

Lemma layout_okb_iff cs s : layout_okb cs s = true <-> lay_ok cs s.
Proof.
  unfold layout_okb, lay_ok. rewrite andb_true_iff, zlist_eqb_eq, forallb_forall, Forall_forall.
  split; intros [H1 H2]; (split; [exact H1|]); intros c Hc; apply axis_okb_iff; apply H2; exact Hc.
Qed.

Lemma lay_ok_nil : lay_ok [] [].
Proof. split; [reflexivity | constructor]. Qed.

Lemma lay_ok_cons c cs n s : lay_ok (c :: cs) (n :: s) <-> (zsum c = n /\ ax_ok c) /\ lay_ok cs s.
Proof.
  unfold lay_ok, cshape. cbn [map]. split.
  - intros [Hshape Hax]. injection Hshape as Hn Hs. inversion Hax as [|c0 cs0 Hc Hcs]; subst.
    split; [split; [reflexivity | exact Hc] | split; [reflexivity | exact Hcs]].
  - intros [[Hn Hc] [Hs Hcs]]. split; [congruence | constructor; assumption].
Qed.

Lemma lay_ok_length cs s : lay_ok cs s -> length cs = length s.
Proof. intros [H _]. rewrite <- H. unfold cshape. rewrite map_length. reflexivity. Qed.

Lemma nth_cshape i q : nth i (cshape q) 0 = zsum (nth i q []).
Proof. unfold cshape. change 0 with (zsum []). apply map_nth. Qed.

Lemma lay_ok_nth cs s : length cs = length s ->
  (forall k, (k < length s)%nat -> zsum (nth k cs []) = nth k s 0 /\ ax_ok (nth k cs [])) -> lay_ok cs s.
Proof.
  intros Hl H. split.
  - apply list_eq_nth; unfold cshape at 1; rewrite map_length; [exact Hl|].
    intros k Hk. rewrite nth_cshape. apply H. lia.
  - apply Forall_forall. intros c Hc. destruct (In_nth _ _ [] Hc) as (k & Hk & <-). apply H. lia.
Qed.

Lemma lay_ok_inv_cons cs n s : lay_ok cs (n :: s) -> exists c cs', cs = c :: cs' /\ zsum c = n /\ ax_ok c /\ lay_ok cs' s.
Proof.
  destruct cs as [|c cs']; intros H; [destruct H as [H _]; discriminate|].
  apply lay_ok_cons in H. exists c, cs'. tauto.
Qed.

Lemma lay_ok_inv_nil cs : lay_ok cs [] -> cs = [].
Proof. intros [H _]. destruct cs; [reflexivity | discriminate]. Qed.

Lemma ax_ok_nonneg c : ax_ok c -> 0 <= zsum c.
Proof. intros [H _]. apply zsum_nonneg, H. Qed.

Lemma lay_ok_nonneg cs s : lay_ok cs s -> nonneg_shape s.
Proof.
  intros [<- Hf]. apply Forall_map. eapply Forall_impl; [|exact Hf]. exact ax_ok_nonneg.
Qed.

Lemma ax_ok_singleton n : 0 <= n -> ax_ok [n].
Proof. intros H. split; [constructor; [exact H | constructor] | discriminate]. Qed.

Lemma finish_nonempty lengths d : finish lengths d <> [].
Proof. destruct d; cbn [finish map]; discriminate. Qed.

Lemma new_blockdim_ax_ok d db s :
  valid_chunks db d -> db <> [] -> normalized s d -> ax_ok (new_blockdim d db s).
Proof.
  intros Hv Hne Hn.
  destruct (pslice_eqb s colon) eqn:Ec.
  - unfold new_blockdim. rewrite Ec. split; [apply Hv | exact Hne].
  - assert (Hs : s <> colon). { intros ->. cbn in Ec. discriminate. }
    rewrite (new_blockdim_lengths d db s Hv Hn Hs). split.
    + apply Forall_forall. intros x Hx. apply in_map_iff in Hx. destruct Hx as (e & <- & _). lia.
    + destruct (plan_structure d db s Hv Hn Ec) as (pl & -> & _).
      intros Hm. apply map_eq_nil in Hm. exact (finish_nonempty db pl Hm).
Qed.

Lemma slice_axis_ok d db s :
  valid_chunks db d -> db <> [] -> step_of s <> 0 ->
  zsum (new_blockdim d db (normalize_slice s d)) = slice_len s d /\ ax_ok (new_blockdim d db (normalize_slice s d)).
Proof.
  intros Hv Hne Hk.
  assert (Hd : 0 <= d) by (destruct Hv as [Hf <-]; apply zsum_nonneg, Hf).
  pose proof (normalize_slice_normalized s d Hd Hk) as Hn.
  split.
  - rewrite (new_blockdim_sum d db _ Hv Hn). apply sel_eq_slice_len. apply normalize_slice_sel; assumption.
  - apply new_blockdim_ax_ok; assumption.
Qed.

Lemma ax_ok_valid c : ax_ok c -> valid_chunks c (zsum c) /\ c <> [].
Proof. intros [H1 H2]. split; [split; [exact H1 | reflexivity] | exact H2]. Qed.

Lemma slice_chunks_ok ix : forall cs s,
  lay_ok cs s -> ixokb ix s = true -> lay_ok (slice_chunks ix cs) (slice_shape ix s).
Proof.
  induction ix as [|i ix IH]; intros cs s Hl Hok; cbn [slice_chunks slice_shape].
  - exact Hl.
  - destruct i as [k|sl|]; cbn [ixokb] in Hok.
    + destruct s as [|n s]; [discriminate|]. apply andb_true_iff in Hok. destruct Hok as [_ Hok].
      destruct (lay_ok_inv_cons _ _ _ Hl) as (c & cs' & -> & _ & _ & Hl'). cbn [tl]. apply IH; assumption.
    + destruct s as [|n s]; [discriminate|]. apply andb_true_iff in Hok. destruct Hok as [Hk Hok].
      destruct (lay_ok_inv_cons _ _ _ Hl) as (c & cs' & -> & Hc & Hax & Hl'). cbn [tl hd].
      destruct (ax_ok_valid c Hax) as [Hv Hne].
      assert (Hk' : step_of sl <> 0) by lia.
      destruct (slice_axis_ok (zsum c) c sl Hv Hne Hk') as [H1 H2].
      apply lay_ok_cons. split; [split; [rewrite H1, Hc; reflexivity | exact H2] | apply IH; assumption].
    + apply lay_ok_cons. split; [split; [reflexivity | apply ax_ok_singleton; lia] | apply IH; assumption].
Qed.

Lemma transpose_chunks_ok axes cs s :
  lay_ok cs s -> is_permb axes (length s) = true -> lay_ok (pickn [] cs axes) (transpose_shape axes s).
Proof.
  intros Hl Hp. pose proof (lay_ok_length _ _ Hl) as Hlen. destruct Hl as [<- Hf].
  split; unfold transpose_shape, pickn, cshape.
  - rewrite map_map. apply map_ext. intros j. change 0 with (zsum []). rewrite map_nth. reflexivity.
  - apply Forall_map, Forall_forall. intros j Hj.
    apply Forall_nth_in; [exact Hf|]. rewrite Hlen. apply (perm_in axes _ Hp), Hj.
Qed.

Lemma cshape_insert_at k c cs : cshape (insert_at k c cs) = insert_at k (zsum c) (cshape cs).
Proof. unfold insert_at, cshape. rewrite map_app, firstn_map, skipn_map. reflexivity. Qed.

Lemma cshape_remove_at k cs : cshape (remove_at k cs) = remove_at k (cshape cs).
Proof. unfold remove_at, cshape. rewrite map_app, firstn_map, skipn_map. reflexivity. Qed.

Lemma lay_ok_insert_at k c cs n s : zsum c = n -> ax_ok c -> lay_ok cs s -> lay_ok (insert_at k c cs) (insert_at k n s).
Proof.
  intros Hc Hax [<- Hf]. split; [rewrite cshape_insert_at, Hc; reflexivity|].
  unfold insert_at. apply Forall_app. split; [apply Forall_firstn; exact Hf | constructor; [exact Hax | apply Forall_skipn; exact Hf]].
Qed.

Lemma lay_ok_remove_at k cs s : lay_ok cs s -> lay_ok (remove_at k cs) (remove_at k s).
Proof.
  intros [<- Hf]. split; [apply cshape_remove_at|].
  unfold remove_at. apply Forall_app. split; [apply Forall_firstn; exact Hf | apply Forall_skipn; exact Hf].
Qed.

Lemma red_kchunks_ok axes cs : forall pos s, lay_ok cs s -> lay_ok (red_kchunks pos axes cs) (red_kshape pos axes s).
Proof.
  intros pos s [<- Hf]. revert pos. induction Hf as [|c cs Hc _ IH]; intros pos; [exact lay_ok_nil|].
  cbn [cshape map red_kchunks red_kshape]. apply lay_ok_cons. split; [|apply IH].
  destruct (memn pos axes); [split; [reflexivity | apply ax_ok_singleton; lia] | split; [reflexivity | exact Hc]].
Qed.

Lemma red_dchunks_ok axes cs : forall pos s, lay_ok cs s -> lay_ok (red_dchunks pos axes cs) (drop_axes_from pos axes s).
Proof.
  intros pos s [<- Hf]. revert pos. induction Hf as [|c cs Hc _ IH]; intros pos; [exact lay_ok_nil|].
  cbn [cshape map red_dchunks drop_axes_from]. destruct (memn pos axes); [apply IH|].
  apply lay_ok_cons. split; [split; [reflexivity | exact Hc] | apply IH].
Qed.

Lemma ax_slice_ok ax sl cs s :
  lay_ok cs s -> (ax < length s)%nat -> step_of sl <> 0 ->
  lay_ok (slice_chunks (ax_index ax sl) cs) (set_nth ax (slice_len sl (nth ax s 0)) s).
Proof.
  intros Hl Hax Hk. rewrite <- (ax_ix_shape ax sl s (lay_ok_nonneg _ _ Hl) Hax).
  apply slice_chunks_ok; [exact Hl|]. unfold ax_index. rewrite ax_ix_ok.
  apply andb_true_iff. split; [apply ltn_lt; exact Hax | lia].
Qed.

Lemma flip_chunks_ok ax cs s : lay_ok cs s -> (ax < length s)%nat -> lay_ok (slice_chunks (flip_index ax) cs) s.
Proof.
  intros Hl Hax. pose proof (ax_slice_ok ax rev_slice cs s Hl Hax ltac:(discriminate)) as G.
  rewrite slice_len_rev, set_nth_same in G by (apply nth_nonneg, (lay_ok_nonneg _ _ Hl)). exact G.
Qed.

Definition lay_wf (q : layout) : Prop := Forall ax_ok q.

Lemma lay_ok_wf cs s : lay_ok cs s -> lay_wf cs.
Proof. intros [_ H]. exact H. Qed.

Lemma Forall2_lay_ok css ss : Forall2 lay_ok css ss -> ss = map cshape css /\ Forall lay_wf css.
Proof.
  induction 1 as [|c s css ss [<- Hc] _ [-> IH]]; [split; [reflexivity | constructor]|].
  split; [reflexivity | constructor; assumption].
Qed.

(* operands of rank 0 do not take part in broadcasting *)
Lemma bshape_all_drop_nil css :
  bshape_all (map cshape (filter (fun c => negb (is_nil c)) css)) = bshape_all (map cshape css).
Proof.
  induction css as [|[|x c] css IH]; cbn [filter is_nil negb map bshape_all fold_right]; [reflexivity | |].
  - rewrite bshape_nil_l. exact IH.
  - f_equal. exact IH.
Qed.

(* element-wise: the common layout when all operands of rank > 0 carry the same one, then their shapes are that
   layout's shape and so is the broadcast; else the oracle's value *)
Lemma elem_chunks_ok ov css ss :
  Forall2 lay_ok css ss -> lay_ok ov (bshape_all ss) -> lay_ok (elem_chunks ov css) (bshape_all ss).
Proof.
  intros H2 Hov. apply Forall2_lay_ok in H2. destruct H2 as [-> Hwf]. unfold elem_chunks.
  rewrite <- bshape_all_drop_nil in Hov |- *.
  assert (Hin : incl (filter (fun c => negb (is_nil c)) css) css) by apply incl_filter.
  destruct (filter (fun c => negb (is_nil c)) css) as [|c0 rest]; [exact lay_ok_nil|].
  destruct (forallb (zlist2_eqb c0) rest) eqn:Eall; [|exact Hov].
  rewrite (bshape_all_same (cshape c0)); [| discriminate |].
  - split; [reflexivity | exact (proj1 (Forall_forall _ _) Hwf c0 (Hin c0 (or_introl eq_refl)))].
  - constructor; [reflexivity|]. apply Forall_map, Forall_forall. intros c Hc.
    rewrite forallb_forall in Eall. rewrite (proj1 (zlist2_eqb_eq c0 c) (Eall c Hc)). reflexivity.
Qed.

Lemma lay_ok_app a s b t : lay_ok a s -> lay_ok b t -> lay_ok (a ++ b) (s ++ t).
Proof.
  intros [<- Ha] [<- Hb]. split; [unfold cshape; apply map_app | apply Forall_app; split; assumption].
Qed.

Lemma lay_ok_singletons pre : nonneg_shape pre -> lay_ok (map (fun n => [n]) pre) pre.
Proof.
  induction 1 as [|n pre Hn _ IH]; [exact lay_ok_nil|]. cbn [map]. apply lay_ok_cons.
  split; [split; [cbn [zsum]; lia | apply ax_ok_singleton; exact Hn] | exact IH].
Qed.

Lemma bcast_tail_ok cs : forall s suf, lay_ok cs s -> compat s suf -> nonneg_shape suf ->
  lay_ok (map3 (fun bd old new => if 1 <? old then bd else [new]) cs s suf) suf.
Proof.
  intros s suf [<- Hf]. revert suf. induction Hf as [|c cs Hc _ IH]; intros [|m suf] Hcp Hn; cbn [cshape map compat] in Hcp; try tauto.
  - exact lay_ok_nil.
  - destruct Hcp as [Hnm Hcp]. inversion Hn; subst. cbn [map3]. apply lay_ok_cons. split; [|apply IH; assumption].
    destruct (1 <? zsum c) eqn:E; [split; [lia | exact Hc] | split; [cbn [zsum]; lia | apply ax_ok_singleton; assumption]].
Qed.

Lemma bcast_chunks_ok shp cs s :
  lay_ok cs s -> bcast_intob s shp = true -> all_nonneg shp = true -> lay_ok (bcast_chunks shp cs) shp.
Proof.
  intros Hl Hb Hn. unfold bcast_chunks.
  destruct (zlist_eqb (cshape cs) shp) eqn:E.
  - apply zlist_eqb_eq in E. destruct Hl as [Hs Hf]. split; [exact E | exact Hf].
  - apply bcast_intob_spec in Hb. destruct Hb as (pre & suf & -> & Hc).
    apply all_nonneg_iff in Hn. unfold nonneg_shape in Hn. apply Forall_app in Hn. destruct Hn as [Hn1 Hn2].
    pose proof (compat_length _ _ Hc) as Hlen. pose proof (lay_ok_length _ _ Hl) as Hlen2.
    assert (Hk : (length (pre ++ suf) - length cs)%nat = length pre) by (rewrite app_length; lia).
    rewrite Hk, firstn_app, Nat.sub_diag, firstn_all, firstn_O, app_nil_r.
    rewrite skipn_app, Nat.sub_diag, skipn_all, skipn_O. cbn [app].
    apply lay_ok_app; [apply lay_ok_singletons; exact Hn1|].
    destruct Hl as [Hs Hf]. rewrite Hs. apply bcast_tail_ok; [split; [exact Hs | exact Hf] | exact Hc | exact Hn2].
Qed.

Lemma ax_ok_concat l : Forall ax_ok l -> l <> [] -> ax_ok (concat l).
Proof.
  intros H Hne. split.
  - clear Hne. induction H as [|c l [Hc _] _ IH]; cbn [concat]; [constructor | apply Forall_app; split; assumption].
  - destruct H as [|c l [_ Hc] _]; [congruence|]. cbn [concat]. destruct c; [congruence | discriminate].
Qed.

Lemma concat_axes_length ax ov p rest n : forall i, length (concat_axes i n ax ov p rest) = n.
Proof. induction n as [|n IH]; intros i; cbn [concat_axes length]; [reflexivity | rewrite IH; reflexivity]. Qed.

Lemma concat_axes_nth ax ov p rest n : forall i j, (j < n)%nat ->
  nth j (concat_axes i n ax ov p rest) [] =
  (if Nat.eqb (i + j) ax then concat (map (fun q => nth ax q []) (p :: rest))
   else if forallb (fun q => zlist_eqb (nth (i + j) q []) (nth (i + j) p [])) rest then nth (i + j) p []
   else nth (i + j) ov []).
Proof.
  induction n as [|n IH]; intros i j Hj; [lia|]. cbn [concat_axes].
  destruct j as [|j]; [rewrite Nat.add_0_r; reflexivity|].
  cbn [nth]. rewrite IH by lia. replace (S i + j)%nat with (i + S j)%nat by lia. reflexivity.
Qed.

(* every part is a layout of the rank of shape s and of its dims, except along ax ... *)
Definition parts_ok (ax : nat) (s : list Z) (ps : list layout) : Prop :=
  forall q, In q ps -> length q = length s /\ set_nth ax 0 (cshape q) = set_nth ax 0 s /\ lay_wf q.
(* ... and concatenated they lay out s with the sum of their lengths on ax *)
Definition cat_shape (ax : nat) (s : list Z) (ps : list layout) : list Z :=
  set_nth ax (zsum (map (fun q => nth ax (cshape q) 0) ps)) s.

Lemma concat_axes_ok ax ov s p rest :
  (ax < length s)%nat -> parts_ok ax s (p :: rest) -> lay_ok ov (cat_shape ax s (p :: rest)) ->
  lay_ok (concat_axes 0 (length p) ax ov p rest) (cat_shape ax s (p :: rest)).
Proof.
  intros Hax Hok Hov. destruct (Hok p (or_introl eq_refl)) as (Hlp & Hcp & Hwp).
  unfold cat_shape in *. apply lay_ok_nth; rewrite set_nth_length; [rewrite concat_axes_length; exact Hlp|].
  intros k Hk. rewrite concat_axes_nth by lia. cbn [Nat.add].
  destruct (Nat.eqb k ax) eqn:Ek; [apply Nat.eqb_eq in Ek; subst k | apply Nat.eqb_neq in Ek].
  - rewrite nth_set_nth_eq by exact Hax. split.
    + rewrite zsum_concat, map_map. apply f_equal, map_ext. intros q. symmetry. apply nth_cshape.
    + apply ax_ok_concat; [|discriminate]. apply Forall_map, Forall_forall. intros q Hq.
      destruct (Hok q Hq) as (Hlq & _ & Hwq). apply Forall_nth_in; [exact Hwq | lia].
  - destruct (forallb (fun q => zlist_eqb (nth k q []) (nth k p [])) rest).
    + rewrite nth_set_nth_neq, <- nth_cshape by congruence.
      split; [apply (set_nth_nth_eq ax _ _ 0 Hcp); exact Ek | apply Forall_nth_in; [exact Hwp | lia]].
    + pose proof (lay_ok_length _ _ Hov) as Hlo. rewrite set_nth_length in Hlo. destruct Hov as [<- Ho2].
      split; [symmetry; apply nth_cshape | apply Forall_nth_in; [exact Ho2 | lia]].
Qed.

Lemma cat_shape_concat ax p rest : cat_shape ax (cshape p) (p :: rest) = concat_shape ax (cshape p) (map cshape rest).
Proof.
  unfold cat_shape, concat_shape. change (cshape p :: map cshape rest) with (map cshape (p :: rest)).
  rewrite map_map. reflexivity.
Qed.

(* [concat_chunks] on the parts it has decided to keep *)
Definition concat_result (ax : nat) (ov : layout) (ps : list layout) : option layout :=
  match ps with
  | [] => None
  | [p] => Some p
  | p :: rest => Some (concat_axes 0 (length p) ax ov p rest)
  end.

Lemma concat_chunks_result ax ov parts :
  concat_chunks ax ov parts =
  concat_result ax ov (match filter (fun q => negb (lsize q =? 0)) parts with [] => parts | l => l end).
Proof.
  unfold concat_chunks, concat_result.
  destruct (filter (fun q => negb (lsize q =? 0)) parts) as [|a [|b l]]; reflexivity.
Qed.

Lemma concat_result_ok ax ov s parts r :
  (ax < length s)%nat -> parts_ok ax s parts -> lay_ok ov (cat_shape ax s parts) ->
  concat_result ax ov parts = Some r -> lay_ok r (cat_shape ax s parts).
Proof.
  intros Hax Hok Hov Hr. destruct parts as [|p [|q rest]]; [discriminate | |]; injection Hr as <-.
  - destruct (Hok p (or_introl eq_refl)) as (_ & Hcp & Hwp). split; [|exact Hwp].
    unfold cat_shape. cbn [map zsum]. rewrite Z.add_0_r, <- (set_nth_change ax _ _ _ Hcp). symmetry. apply set_nth_same.
  - apply concat_axes_ok; assumption.
Qed.

(* an empty part dropped next to a non-empty part of the same other dims has length 0 along ax *)
Lemma prod_zero_axis ax : forall t u, set_nth ax 0 t = set_nth ax 0 u -> (ax < length t)%nat ->
  prodZ t = 0 -> prodZ u <> 0 -> nth ax t 0 = 0.
Proof.
  induction ax as [|ax IH]; intros [|a t] [|b u] H Hl Ht Hu; cbn [length] in Hl; try lia; cbn [set_nth] in H; try discriminate.
  - injection H as H. subst u. rewrite prodZ_cons in Ht, Hu. cbn [nth].
    apply Z.mul_eq_0 in Ht. destruct Ht as [Ht | Ht]; [exact Ht | rewrite Ht, Z.mul_0_r in Hu; congruence].
  - injection H as Hab H. subst b. rewrite prodZ_cons in Ht, Hu. cbn [nth].
    apply Z.mul_eq_0 in Ht. destruct Ht as [Ht | Ht]; [subst a; rewrite Z.mul_0_l in Hu; congruence|].
    apply (IH t u H); [lia | exact Ht | intros E; rewrite E, Z.mul_0_r in Hu; congruence].
Qed.

Lemma concat_chunks_ok ax ov s parts r :
  (ax < length s)%nat -> parts_ok ax s parts -> lay_ok ov (cat_shape ax s parts) ->
  concat_chunks ax ov parts = Some r -> lay_ok r (cat_shape ax s parts).
Proof.
  intros Hax Hok Hov Hr. rewrite concat_chunks_result in Hr.
  set (f := fun q : layout => negb (lsize q =? 0)) in *.
  destruct (filter f parts) as [|p' rest'] eqn:EF; [apply (concat_result_ok ax ov s parts r); assumption|].
  assert (Hsub : forall q, In q (p' :: rest') -> In q parts /\ f q = true).
  { intros q Hq. rewrite <- EF in Hq. apply filter_In in Hq. exact Hq. }
  (* dropping the empty parts keeps the shape *)
  assert (ET : cat_shape ax s (p' :: rest') = cat_shape ax s parts).
  { unfold cat_shape. rewrite <- EF. f_equal. apply zsum_map_filter. intros q Hq Hfq.
    destruct (Hsub p' (or_introl eq_refl)) as [Hp'in Hp'f].
    destruct (Hok q Hq) as (Hql & Hqc & _). destruct (Hok p' Hp'in) as (_ & Hp'c & _).
    apply (prod_zero_axis ax (cshape q) (cshape p')); unfold f, lsize in *; [congruence | | lia | lia].
    unfold cshape. rewrite map_length. lia. }
  rewrite <- ET in Hov |- *. apply (concat_result_ok ax ov s (p' :: rest') r); try assumption.
  intros q Hq. apply Hok, Hsub, Hq.
Qed.

(* parts that lay out s with length m_i on the axis concatenate to a layout of s with the sum on the axis *)
Lemma concat_parts_ok ax ov s parts ms r :
  (ax < length s)%nat -> Forall2 (fun q m => lay_ok q (set_nth ax m s)) parts ms ->
  lay_ok ov (set_nth ax (zsum ms) s) ->
  concat_chunks ax ov parts = Some r -> lay_ok r (set_nth ax (zsum ms) s).
Proof.
  intros Hax H2 Hov Hr.
  assert (ET : cat_shape ax s parts = set_nth ax (zsum ms) s).
  { clear Hov Hr. unfold cat_shape. do 2 f_equal. induction H2 as [|q m ps ms' [Hq _] _ IH]; [reflexivity|].
    cbn [map]. rewrite Hq, nth_set_nth_eq, IH by exact Hax. reflexivity. }
  rewrite <- ET in Hov |- *. apply (concat_chunks_ok ax ov s parts r); try assumption.
  intros q Hq. destruct (Forall2_In_l _ _ _ q H2 Hq) as (m & _ & Hm).
  assert (Eq : cshape q = set_nth ax m s) by apply Hm.
  split; [rewrite (lay_ok_length _ _ Hm); apply set_nth_length | split; [|apply (lay_ok_wf _ _ Hm)]].
  rewrite Eq. apply set_nth_set_nth.
Qed.

Lemma ax_ok_repeat_1 n : (0 < n)%nat -> ax_ok (repeat 1 n).
Proof.
  intros H. split; [|destruct n; [lia | discriminate]].
  apply Forall_forall. intros x Hx. apply repeat_spec in Hx. lia.
Qed.

(* stack of k equal shapes s: a new axis of length k at ax *)
Lemma stack_shape ax s srest :
  (ax <= length s)%nat -> Forall (eq s) srest ->
  concat_shape ax (insert_at ax 1 s) (map (insert_at ax 1) srest) = insert_at ax (Z.of_nat (S (length srest))) s.
Proof.
  intros Hax Hall. unfold concat_shape. rewrite set_nth_insert_at by exact Hax. f_equal.
  change (insert_at ax 1 s :: map (insert_at ax 1) srest) with (map (insert_at ax 1) (s :: srest)).
  assert (G : forall l, Forall (eq s) l -> zsum (map (fun t => nth ax t 0) (map (insert_at ax 1) l)) = Z.of_nat (length l)).
  { induction 1 as [|t l <- _ IH]; [reflexivity|]. cbn [map zsum length]. rewrite IH, nth_insert_at, Nat.ltb_irrefl, Nat.eqb_refl by exact Hax. lia. }
  rewrite G; [reflexivity | constructor; [reflexivity | exact Hall]].
Qed.

(* the lengths of the slices roll / diff / repeat use *)
Lemma slice_len_unit_step a b n :
  slice_len (mkslice a b None) n = Z.max (adjust_endpoint b n 1 (-1) n - adjust_endpoint a n 1 (n - 1) 0) 0.
Proof. unfold slice_len, indices, step_of. cbn [s_start s_stop s_step]. apply range_len_unit. Qed.

Lemma slice_len_from a n : 0 <= a -> 0 <= n -> slice_len (mkslice (Some a) None None) n = Z.max (n - a) 0.
Proof. intros Ha Hn. rewrite slice_len_unit_step. cbn [adjust_endpoint]. repeat break_if; lia. Qed.

Lemma slice_len_to a n : 0 <= a -> 0 <= n -> slice_len (mkslice None (Some a) None) n = Z.min a n.
Proof. intros Ha Hn. rewrite slice_len_unit_step. cbn [adjust_endpoint]. repeat break_if; lia. Qed.

Lemma slice_len_to_m1 n : 0 <= n -> slice_len (mkslice None (Some (-1)) None) n = Z.max (n - 1) 0.
Proof. intros Hn. rewrite slice_len_unit_step. cbn [adjust_endpoint]. repeat break_if; lia. Qed.

Lemma roll_chunks_ok shift ax ov cs s r :
  lay_ok cs s -> (ax < length s)%nat -> lay_ok ov s ->
  un_chunks (ORoll shift ax) ov cs = Some r -> lay_ok r s.
Proof.
  intros Hl Hax Hov Hr. cbn [un_chunks] in Hr.
  assert (Hs : cshape cs = s) by apply Hl. rewrite Hs in Hr.
  set (n := nth ax s 0) in *.
  assert (Hn : 0 <= n) by (apply nth_nonneg, (lay_ok_nonneg _ _ Hl)).
  set (sft := if n =? 0 then 0 else (- shift) mod n) in *.
  assert (Hsft : 0 <= sft <= n).
  { unfold sft. destruct (n =? 0) eqn:E; [lia|]. pose proof (Z.mod_pos_bound (- shift) n). lia. }
  assert (Ha := ax_slice_ok ax (mkslice (Some sft) None None) cs s Hl Hax ltac:(discriminate)).
  assert (Hb := ax_slice_ok ax (mkslice None (Some sft) None) cs s Hl Hax ltac:(discriminate)).
  fold n in Ha, Hb. rewrite slice_len_from in Ha by lia. rewrite slice_len_to in Hb by lia.
  rewrite <- (set_nth_same ax s 0) in Hov |- *. fold n in Hov |- *.
  replace n with (zsum [Z.max (n - sft) 0; Z.min sft n]) in Hov |- * at 1 by (cbn [zsum]; lia).
  refine (concat_parts_ok ax ov s _ _ r Hax _ Hov Hr).
  constructor; [exact Ha | constructor; [exact Hb | constructor]].
Qed.

Lemma diff_chunks_ok ax ov cs s :
  lay_ok cs s -> (ax < length s)%nat -> lay_ok ov (set_nth ax (Z.max (nth ax s 0 - 1) 0) s) ->
  lay_ok (elem_chunks ov [slice_chunks (ax_index ax (mkslice (Some 1) None None)) cs;
                          slice_chunks (ax_index ax (mkslice None (Some (-1)) None)) cs])
         (set_nth ax (Z.max (nth ax s 0 - 1) 0) s).
Proof.
  intros Hl Hax Hov.
  assert (Hn : 0 <= nth ax s 0) by (apply nth_nonneg, (lay_ok_nonneg _ _ Hl)).
  assert (Ha := ax_slice_ok ax (mkslice (Some 1) None None) cs s Hl Hax ltac:(discriminate)).
  assert (Hb := ax_slice_ok ax (mkslice None (Some (-1)) None) cs s Hl Hax ltac:(discriminate)).
  rewrite slice_len_from in Ha by lia. rewrite slice_len_to_m1 in Hb by exact Hn.
  set (T := set_nth ax (Z.max (nth ax s 0 - 1) 0) s) in *.
  assert (EB : bshape_all [T; T] = T).
  { cbn [bshape_all fold_right]. rewrite bshape_nil_r. apply bshape_same. }
  rewrite <- EB. apply elem_chunks_ok; [|rewrite EB; exact Hov].
  constructor; [exact Ha | constructor; [exact Hb | constructor]].
Qed.

Lemma lset_nth_nil k v : lset_nth k v [] = [].
Proof. unfold lset_nth. rewrite firstn_nil, skipn_nil. reflexivity. Qed.
Lemma lset_nth_S k v x l : lset_nth (S k) v (x :: l) = x :: lset_nth k v l.
Proof. reflexivity. Qed.

Lemma cshape_lset_nth k v : forall l, cshape (lset_nth k v l) = set_nth k (zsum v) (cshape l).
Proof.
  induction k as [|k IH]; intros [|x l]; try (rewrite lset_nth_nil; reflexivity); [reflexivity|].
  rewrite lset_nth_S. unfold cshape in *. cbn [map set_nth]. rewrite IH. reflexivity.
Qed.

Lemma length_lset_nth k v : forall l, length (lset_nth k v l) = length l.
Proof.
  induction k as [|k IH]; intros [|x l]; try (rewrite lset_nth_nil; reflexivity); [reflexivity|].
  rewrite lset_nth_S. cbn [length]. rewrite IH. reflexivity.
Qed.

Lemma lay_wf_lset_nth k v : forall l, lay_wf l -> ax_ok v -> lay_wf (lset_nth k v l).
Proof.
  unfold lay_wf. induction k as [|k IH]; intros [|x l] Hl Hv; try (rewrite lset_nth_nil; constructor).
  - inversion Hl; subst. constructor; assumption.
  - rewrite lset_nth_S. inversion Hl; subst. constructor; [assumption | apply IH; assumption].
Qed.

Lemma round_half_even2_range start c : 0 <= c ->
  start <= round_half_even2 (2 * start + c) <= start + c.
Proof.
  intros Hc. unfold round_half_even2.
  destruct ((2 * start + c) mod 2 =? 0) eqn:E1; [|destruct (((2 * start + c) / 2) mod 2 =? 0) eqn:E2];
    Z.to_euclidean_division_equations; lia.
Qed.

Lemma repeat_slabs_ok k c : forall start, Forall (fun x => 0 <= x) c ->
  Forall (fun x => 0 <= x) (repeat_slabs k start c) /\ zsum (repeat_slabs k start c) = zsum c.
Proof.
  induction c as [|x c IH]; intros start Hc; cbn [repeat_slabs zsum]; [split; [constructor | reflexivity]|].
  inversion Hc as [|x0 c0 Hx Hc']; subst. destruct (IH (start + x) Hc') as [IH1 IH2].
  pose proof (round_half_even2_range start x Hx) as Hr.
  destruct (k =? 2); cbn [app]; rewrite ?zsum_app; cbn [zsum]; (split; [repeat constructor; try lia; exact IH1 | lia]).
Qed.

Lemma repeat_chunks_ok k ax ov cs s r :
  lay_ok cs s -> (ax < length s)%nat -> 0 <= k ->
  lay_ok ov (set_nth ax (nth ax s 0 * k) s) ->
  repeat_chunks k ax ov cs = Some r -> lay_ok r (set_nth ax (nth ax s 0 * k) s).
Proof.
  intros Hl Hax Hk Hov Hr. unfold repeat_chunks in Hr.
  assert (Hn : 0 <= nth ax s 0) by (apply nth_nonneg, (lay_ok_nonneg _ _ Hl)).
  destruct (k =? 1) eqn:E1.
  { injection Hr as <-. replace k with 1 by lia. rewrite Z.mul_1_r, set_nth_same. exact Hl. }
  destruct (k =? 0) eqn:E0.
  { injection Hr as <-. replace k with 0 by lia. rewrite Z.mul_0_r.
    assert (G := ax_slice_ok ax (mkslice None (Some 0) None) cs s Hl Hax ltac:(discriminate)).
    rewrite slice_len_to in G by lia. replace (Z.min 0 (nth ax s 0)) with 0 in G by lia. exact G. }
  destruct ((k =? 2) || (k =? 3)) eqn:E23; [|discriminate].
  assert (Hs : cshape cs = s) by apply Hl.
  set (c := nth ax cs []) in *.
  assert (Hc : ax_ok c) by (apply Forall_nth_in; [apply Hl | rewrite (lay_ok_length _ _ Hl); exact Hax]).
  destruct (repeat_slabs_ok k c 0 (proj1 Hc)) as [Hsl1 Hsl2].
  set (F := filter (fun x => negb (x =? 0)) (repeat_slabs k 0 c)) in *.
  assert (HF1 : forall x, In x F -> 0 <= x).
  { intros x Hx. apply filter_In in Hx. rewrite Forall_forall in Hsl1. apply Hsl1, Hx. }
  assert (HF2 : zsum F = nth ax s 0).
  { unfold F. rewrite zsum_filter_nonzero, Hsl2. unfold c. rewrite <- Hs. symmetry. apply nth_cshape. }
  (* each slab is the operand's layout with one block of size slab * k on the axis *)
  set (g := fun sl => lset_nth ax [sl * k] cs) in *.
  assert (Hg : forall sl, In sl F -> lay_ok (g sl) (set_nth ax (sl * k) s)).
  { intros sl Hsl. apply HF1 in Hsl. unfold g. split.
    - rewrite cshape_lset_nth, Hs. cbn [zsum]. rewrite Z.add_0_r. reflexivity.
    - apply lay_wf_lset_nth; [apply Hl | apply ax_ok_singleton; nia]. }
  rewrite <- HF2, <- zsum_map_mul in Hov |- *.
  destruct F as [|sl0 slrest]; [discriminate|]. cbn [map] in Hr.
  refine (concat_parts_ok ax ov s _ _ r Hax _ Hov Hr).
  apply (Forall2_maps _ g (fun x => x * k) (sl0 :: slrest)), Forall_forall. exact Hg.
Qed.

Lemma un_chunks_ok o ov cs s r :
  lay_ok cs s -> un_ok o s = true -> lay_ok ov (un_shape o s) ->
  un_chunks o ov cs = Some r -> lay_ok r (un_shape o s).
Proof.
  intros Hl Hok Hov Hr.
  assert (Hs : cshape cs = s) by apply Hl.
  destruct o as [axes|ix|ax|ax|shp|ax|shift ax|idx ax|k ax|ax|req|f axes kd|f ax|spec];
    cbn [un_ok] in Hok; cbn [un_shape] in Hov |- *; cbn [un_chunks] in Hr;
    try discriminate; rewrite ?andb_true_iff, ?ltn_lt in Hok.
  - injection Hr as <-. apply transpose_chunks_ok; assumption.
  - injection Hr as <-. apply slice_chunks_ok; assumption.
  - injection Hr as <-. apply lay_ok_insert_at; [reflexivity | apply ax_ok_singleton; lia | exact Hl].
  - injection Hr as <-. apply lay_ok_remove_at. exact Hl.
  - injection Hr as <-. apply (bcast_chunks_ok shp cs s); tauto.
  - injection Hr as <-. apply flip_chunks_ok; assumption.
  - apply (roll_chunks_ok shift ax ov cs s r); assumption.
  - apply (repeat_chunks_ok k ax ov cs s r); try tauto. lia.
  - injection Hr as <-. apply diff_chunks_ok; assumption.
  - injection Hr as <-. rewrite Hs. unfold red_oshape.
    destruct kd; [apply red_kchunks_ok | apply red_dchunks_ok]; exact Hl.
  - injection Hr as <-. exact Hl.
  - rewrite Hs in Hr. destruct (layout_okb spec s) eqn:E; [|discriminate].
    injection Hr as <-. apply layout_okb_iff. exact E.
Qed.

Lemma n_chunks_ok o ov css ss r :
  Forall2 lay_ok css ss -> n_ok o ss = true -> lay_ok ov (n_shape o ss) ->
  n_chunks o ov css = Some r -> lay_ok r (n_shape o ss).
Proof.
  intros H2 Hok Hov Hr.
  destruct o as [f|ax|ax]; cbn [n_ok] in Hok; cbn [n_shape] in Hov |- *; cbn [n_chunks] in Hr.
  - injection Hr as <-. apply elem_chunks_ok; assumption.
  - apply Forall2_lay_ok in H2. destruct H2 as [-> Hwf]. destruct css as [|c0 crest]; [discriminate|].
    cbn [map] in *. apply andb_true_iff in Hok. destruct Hok as [Hax Hcomp]. apply ltn_lt in Hax.
    rewrite <- cat_shape_concat in Hov |- *. apply (concat_chunks_ok ax ov (cshape c0) (c0 :: crest) r); try assumption.
    rewrite Forall_forall in Hwf. intros q Hq.
    assert (Hcq : concat_compat ax (cshape c0) (cshape q) = true).
    { destruct Hq as [<- | Hq]; [|rewrite forallb_forall in Hcomp; apply Hcomp, in_map, Hq].
      unfold concat_compat. rewrite Nat.eqb_refl. apply zlist_eqb_eq. reflexivity. }
    apply andb_true_iff in Hcq. destruct Hcq as [Hc1 Hc2]. apply Nat.eqb_eq in Hc1. apply zlist_eqb_eq in Hc2.
    unfold cshape in Hc1 at 2. rewrite map_length in Hc1.
    split; [symmetry; exact Hc1 | split; [symmetry; exact Hc2 | apply Hwf, Hq]].
  - destruct H2 as [|c0 s crest srest Hc0 Hrest]; [discriminate|].
    apply andb_true_iff in Hok. destruct Hok as [Hax Hall]. apply Nat.leb_le in Hax.
    assert (Hall' : Forall (eq s) srest).
    { apply Forall_forall. intros t Ht. rewrite forallb_forall in Hall. apply zlist_eqb_eq, Hall, Ht. }
    rewrite (stack_shape ax s srest Hax Hall') in Hov |- *.
    injection Hr as <-. cbn [length]. replace (length crest) with (length srest)
      by (rewrite (proj1 (Forall2_lay_ok _ _ Hrest)); apply map_length).
    apply lay_ok_insert_at; [exact (eq_trans (zsum_repeat 1 (S (length srest))) (Z.mul_1_r _)) | apply (ax_ok_repeat_1 (S (length srest))); lia|].
    destruct (forallb (zlist2_eqb c0) crest); [exact Hc0|].
    apply (lay_ok_remove_at ax) in Hov. rewrite remove_insert_at in Hov by exact Hax. exact Hov.
Qed.

Lemma orc_wf_un orc o q : orc_wf orc (PUn o q) -> orc_wf (sub orc 0) q.
Proof. intros H pth q' s' Hq Hs. apply (H (0%nat :: pth) q' s'); [exact Hq | exact Hs]. Qed.

Lemma orc_wf_n orc o ps j q : orc_wf orc (PN o ps) -> nth_error ps j = Some q -> orc_wf (sub orc j) q.
Proof.
  intros H Hj pth q' s' Hq Hs. apply (H (j :: pth) q' s'); [|exact Hs].
  cbn [subprog_at]. rewrite Hj. exact Hq.
Qed.

Lemma pchunks_from_ok ps :
  Forall (fun p => forall orc cs s, orc_wf orc p -> pchunks orc p = Some cs -> pshape p = Some s -> lay_ok cs s) ps ->
  forall orc i css ss,
  (forall j q, nth_error ps j = Some q -> orc_wf (sub orc (i + j)) q) ->
  sequence (pchunks_from orc i ps) = Some css -> sequence (map pshape ps) = Some ss -> Forall2 lay_ok css ss.
Proof.
  induction 1 as [|p ps Hp _ IH]; intros orc i css ss Hwf Hc Hs; cbn [pchunks_from map sequence] in Hc, Hs.
  - injection Hc as <-. injection Hs as <-. constructor.
  - destruct (pchunks (sub orc i) p) as [c|] eqn:Ec; [|discriminate].
    destruct (sequence (pchunks_from orc (S i) ps)) as [crest|] eqn:Ecr; [|discriminate]. injection Hc as <-.
    destruct (pshape p) as [s|] eqn:Es; [|discriminate].
    destruct (sequence (map pshape ps)) as [srest|] eqn:Esr; [|discriminate]. injection Hs as <-.
    constructor.
    + apply (Hp (sub orc i) c s); [|exact Ec | reflexivity].
      specialize (Hwf O p eq_refl). rewrite Nat.add_0_r in Hwf. exact Hwf.
    + apply (IH orc (S i) crest srest); [|exact Ecr | reflexivity].
      intros j q Hj. specialize (Hwf (S j) q Hj). replace (S i + j)%nat with (i + S j)%nat by lia. exact Hwf.
Qed.

Theorem pchunks_layout p : forall orc cs s,
  orc_wf orc p -> pchunks orc p = Some cs -> pshape p = Some s -> lay_ok cs s.
Proof.
  induction p as [s0 d|s0|n|c|o q IH|o ps IH] using prog_ind2; intros orc cs s Hwf Hc Hs.
  1-3: cbn [pchunks] in Hc; injection Hc as <-; apply layout_okb_iff; exact (Hwf [] _ s eq_refl Hs).
  - cbn [pchunks pshape] in Hc, Hs. injection Hc as <-. injection Hs as <-. exact lay_ok_nil.
  - cbn [pchunks] in Hc. pose proof Hs as Hs0. cbn [pshape] in Hs.
    destruct (pchunks (sub orc 0) q) as [cq|] eqn:Ecq; [|discriminate].
    destruct (pshape q) as [sq|] eqn:Esq; [|discriminate].
    unfold un_rule in Hs. destruct (un_ok o sq) eqn:Eok; [|discriminate]. injection Hs as <-.
    apply (un_chunks_ok o (orc []) cq sq cs); [|exact Eok | | exact Hc].
    + apply (IH (sub orc 0) cq sq); [apply (orc_wf_un orc o q Hwf) | exact Ecq | reflexivity].
    + apply layout_okb_iff. apply (Hwf [] (PUn o q)); [reflexivity | exact Hs0].
  - rewrite pchunks_PN in Hc. pose proof Hs as Hs0. cbn [pshape] in Hs.
    destruct (sequence (pchunks_from orc 0 ps)) as [css|] eqn:Ecs; [|discriminate].
    destruct (sequence (map pshape ps)) as [ss|] eqn:Ess; [|discriminate].
    unfold n_rule in Hs. destruct (n_ok o ss) eqn:Eok; [|discriminate]. injection Hs as <-.
    apply (n_chunks_ok o (orc []) css ss cs); [|exact Eok | | exact Hc].
    + apply (pchunks_from_ok ps IH orc 0%nat css ss); [|exact Ecs | exact Ess].
      intros j q Hj. cbn [Nat.add]. apply (orc_wf_n orc o ps j q Hwf Hj).
    + apply layout_okb_iff. apply (Hwf [] (PN o ps)); [reflexivity | exact Hs0].
Qed.

(* slicing: along a sliced axis the advertised chunk sizes are the numbers of positions the blocks of the
   operand contribute (the plan _slice_1d builds, in output order), and those positions, concatenated, are
   exactly the positions NumPy's x[sl] selects *)
Theorem slice_chunks_axis_exact sl ix db rest :
  ax_ok db -> step_of sl <> 0 ->
  let d := zsum db in
  let idx := normalize_slice sl d in
  slice_chunks (ISlice sl :: ix) (db :: rest)
    = (if pslice_eqb idx colon then db
       else map (fun e => Z.of_nat (length (abs_positions db e))) (slice_1d_slice d db idx))
      :: slice_chunks ix rest
  /\ plan_positions db (slice_1d_slice d db idx) = sel sl d.
Proof.
  intros Hax Hk d idx. destruct (ax_ok_valid db Hax) as [Hv Hne].
  pose proof (ax_ok_nonneg db Hax) as Hd. fold d in Hd.
  pose proof (normalize_slice_normalized sl d Hd Hk) as Hn. fold idx in Hn.
  split.
  - cbn [slice_chunks hd tl]. fold d. fold idx. f_equal.
    destruct (pslice_eqb idx colon) eqn:Ec.
    + unfold new_blockdim. rewrite Ec. reflexivity.
    + apply new_blockdim_lengths; [exact Hv | exact Hn | intros E; rewrite E in Ec; discriminate].
  - rewrite (slice_1d_partition d db idx Hv Hn). apply normalize_slice_sel; assumption.
Qed.

(* transpose: axis i of the result carries the chunks of axis axes[i]; transposing back restores them *)
Theorem transpose_chunks_exact orc axes p cs :
  pchunks (sub orc 0) p = Some cs ->
  pchunks orc (PT axes p) = Some (map (fun j => nth j cs []) axes).
Proof. intros H. cbn [pchunks]. rewrite H. reflexivity. Qed.

Theorem transpose_chunks_inverse axes ov ov' cs r :
  is_permb axes (length cs) = true ->
  un_chunks (OT axes) ov cs = Some r -> un_chunks (OT (inv_axes axes)) ov' r = Some cs.
Proof.
  intros Hp Hr. cbn [un_chunks] in Hr |- *. injection Hr as <-. f_equal.
  apply (pickn_inv_l axes (length cs) Hp). reflexivity.
Qed.

(* concatenate: along the axis the result carries the chunks of the non-empty parts one after the other
   (whatever the oracle says) *)
Theorem concat_chunks_axis_exact ax ov p q rest r :
  (ax < length p)%nat -> Forall (fun c => lsize c <> 0) (p :: q :: rest) ->
  concat_chunks ax ov (p :: q :: rest) = Some r ->
  nth ax r [] = concat (map (fun c => nth ax c []) (p :: q :: rest)).
Proof.
  intros Hax Hne Hr. unfold concat_chunks in Hr.
  assert (E : filter (fun c => negb (lsize c =? 0)) (p :: q :: rest) = p :: q :: rest).
  { clear -Hne. induction Hne as [|c l Hc _ IH]; [reflexivity|]. cbn [filter].
    destruct (lsize c =? 0) eqn:E; [lia|]. cbn [negb]. rewrite IH. reflexivity. }
  rewrite E in Hr. injection Hr as <-.
  rewrite (concat_axes_nth ax ov p (q :: rest) (length p) 0%nat ax Hax). cbn [Nat.add]. rewrite Nat.eqb_refl. reflexivity.
Qed.

(* flip: the chunks along the axis are the piece lengths of the plan of the reversing slice, whose positions
   are d-1, ..., 0 *)
Theorem flip_chunks_exact db rest :
  ax_ok db -> let d := zsum db in
  slice_chunks (flip_index 0) (db :: rest) = new_blockdim d db rev_slice :: rest /\
  new_blockdim d db rev_slice = map (fun e => Z.of_nat (length (abs_positions db e))) (slice_1d_slice d db rev_slice) /\
  plan_positions db (slice_1d_slice d db rev_slice) = zrange (d - 1) (-1) (-1).
Proof.
  intros Hax d. destruct (ax_ok_valid db Hax) as [Hv Hne].
  pose proof (ax_ok_nonneg db Hax) as Hd. fold d in Hd.
  assert (En : normalize_slice rev_slice d = rev_slice).
  { unfold normalize_slice, rev_slice, indices, adjust_endpoint, step_of. cbn [s_start s_stop s_step].
    change (-1 <? 0) with true. change (-1 >? 0) with false. cbv iota.
    replace (d - 1 >=? d - 1) with true by lia. reflexivity. }
  assert (Hn : normalized rev_slice d). { rewrite <- En. apply normalize_slice_normalized; [exact Hd | cbn; lia]. }
  split; [|split].
  - unfold flip_index. cbn [repeat app slice_chunks hd tl]. fold d. rewrite En. reflexivity.
  - apply new_blockdim_lengths; [exact Hv | exact Hn | discriminate].
  - rewrite (slice_1d_partition d db rev_slice Hv Hn). unfold sel. rewrite indices_rev. reflexivity.
Qed.

(* "flip = the same chunks reversed" fails when a chunk has size 0: the slice drops empty blocks *)
Lemma flip_is_reversed_chunks_refuted :
  exists db, (Forall (fun x => 0 <= x) db /\ db <> []) /\ slice_chunks (flip_index 0) [db] <> [rev db].
Proof. exists [0; 3; 0; 2]. split; [split; [repeat constructor; lia | discriminate] | vm_compute; discriminate]. Qed.

(* element-wise on ONE array operand (unary ufuncs, operations with Python scalars), or on operands that agree:
   the operand's chunks, whatever the oracle says *)
Theorem elem_chunks_deterministic ov cs :
  elem_chunks ov [cs] = cs /\ elem_chunks ov [cs; []] = cs /\ elem_chunks ov [[]; cs] = cs /\ elem_chunks ov [cs; cs] = cs.
Proof.
  assert (R : zlist2_eqb cs cs = true) by (apply zlist2_eqb_eq; reflexivity).
  unfold elem_chunks. destruct cs as [|c cs]; cbn [filter is_nil negb forallb]; [repeat split; reflexivity|].
  rewrite R. repeat split; reflexivity.
Qed.

(* reductions: a reduced axis is one block of size 1 with keepdims, and is dropped without *)
Theorem reduce_chunks_exact f axes kd ov cs :
  un_chunks (OReduce f axes kd) ov cs =
  Some (let l := red_axes axes (cshape cs) in if kd then red_kchunks 0 l cs else red_dchunks 0 l cs).
Proof. reflexivity. Qed.

(* the advertised chunks lay out the shape of the COMPUTED value *)
Corollary pchunks_layout_eval p orc cs a :
  orc_wf orc p -> pchunks orc p = Some cs -> eval p = Some a -> lay_ok cs (nshape a).
Proof. intros Hw Hc He. apply (pchunks_layout p orc cs (nshape a) Hw Hc). apply eval_some_pshape. exact He. Qed.

Lemma orc_wf_b_PN orc o ps :
  orc_wf_b orc (PN o ps) =
  (match pshape (PN o ps) with Some s => layout_okb (orc []) s | None => true end) && orc_wf_from orc 0 ps.
Proof.
  cbn [orc_wf_b]. f_equal.
  assert (H : forall l i, (fix go (i : nat) (l : list prog) {struct l} : bool :=
                 match l with [] => true | q :: t => orc_wf_b (sub orc i) q && go (S i) t end) i l
              = orc_wf_from orc i l).
  { induction l as [|q t IH]; intros i; [reflexivity|]. cbn [orc_wf_from]. rewrite IH. reflexivity. }
  apply H.
Qed.

Lemma orc_wf_from_nth ps : forall orc i j q,
  orc_wf_from orc i ps = true -> nth_error ps j = Some q -> orc_wf_b (sub orc (i + j)) q = true.
Proof.
  induction ps as [|p ps IH]; intros orc i j q H Hj; [destruct j; discriminate|].
  cbn [orc_wf_from] in H. apply andb_true_iff in H. destruct H as [H1 H2].
  destruct j as [|j]; cbn [nth_error] in Hj.
  - injection Hj as <-. rewrite Nat.add_0_r. exact H1.
  - replace (i + S j)%nat with (S i + j)%nat by lia. apply (IH orc (S i) j q H2 Hj).
Qed.

Theorem orc_wf_b_sound p : forall orc, orc_wf_b orc p = true -> orc_wf orc p.
Proof.
  induction p as [s0 d|s0|n|c|o q IH|o ps IH] using prog_ind2; intros orc H pth q' s' Hq Hs.
  1-4: (destruct pth as [|i pth]; cbn [subprog_at] in Hq; [|discriminate]; injection Hq as <-;
        cbn [orc_wf_b] in H; apply andb_true_iff in H; destruct H as [H _]; rewrite Hs in H; exact H).
  - cbn [orc_wf_b] in H. apply andb_true_iff in H. destruct H as [H1 H2].
    destruct pth as [|i pth]; cbn [subprog_at] in Hq.
    + injection Hq as <-. rewrite Hs in H1. exact H1.
    + destruct i as [|i]; [|discriminate]. apply (IH (sub orc 0) H2 pth q' s' Hq Hs).
  - rewrite orc_wf_b_PN in H. apply andb_true_iff in H. destruct H as [H1 H2].
    destruct pth as [|i pth]; cbn [subprog_at] in Hq.
    + injection Hq as <-. rewrite Hs in H1. exact H1.
    + destruct (nth_error ps i) as [q|] eqn:Ei; [|discriminate].
      pose proof (orc_wf_from_nth ps orc 0%nat i q H2 Ei) as Hw. cbn [Nat.add] in Hw.
      rewrite Forall_forall in IH. apply (IH q (nth_error_In ps i Ei) (sub orc i) Hw pth q' s' Hq Hs).
Qed.

Print Assumptions pchunks_layout.
Print Assumptions orc_wf_b_sound.
