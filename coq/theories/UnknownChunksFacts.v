(* Facts about the unknown-chunk-size models of UnknownChunks.v (property C28). *)
From DA Require Import PyBase PyBaseFacts Slicing Rechunk RechunkBase Unify UnifyFacts FuseFacts BlockInfoFacts UnknownChunks.
Open Scope Z_scope.

Lemma forallb_combine_Forall2 {A B} (f : A -> B -> bool) : forall a b,
  length a = length b ->
  (forallb (fun p => f (fst p) (snd p)) (combine a b) = true <-> Forall2 (fun x y => f x y = true) a b).
Proof.
  induction a as [|x a IH]; intros [|y b] Hl; cbn [length] in Hl; try discriminate.
  - cbn. split; [constructor|reflexivity].
  - cbn [combine forallb fst snd]. rewrite andb_true_iff, IH by lia. split.
    + intros [H1 H2]. constructor; assumption.
    + intros H. inversion H; subst. split; assumption.
Qed.

Lemma Forall2_iff {A B} (R S : A -> B -> Prop) a b :
  (forall x y, R x y <-> S x y) -> (Forall2 R a b <-> Forall2 S a b).
Proof. intros H. split; apply Forall2_impl; intros x y; apply H. Qed.

Lemma Forall2_compose {A B C} (R : A -> B -> Prop) (S : A -> C -> Prop) (T : B -> C -> Prop) :
  (forall x y z, R x y -> S x z -> T y z) ->
  forall a b c, Forall2 R a b -> Forall2 S a c -> Forall2 T b c.
Proof.
  intros H a b c F. revert c. induction F as [|x y a b Hxy F IH]; intros c G; inversion G; subst; constructor.
  - eapply H; eassumption.
  - apply IH. assumption.
Qed.

Lemma Forall2_nth_error {A B} (R : A -> B -> Prop) a b :
  Forall2 R a b -> forall k x y, nth_error a k = Some x -> nth_error b k = Some y -> R x y.
Proof.
  intros F k x y Hx Hy. destruct (Forall2_nth_error_l _ _ _ _ _ F Hx) as (y' & Hy' & H). congruence.
Qed.

Lemma In_combine_nth_error {A B} (x : A) (y : B) a b :
  In (x, y) (combine a b) <-> exists k, nth_error a k = Some x /\ nth_error b k = Some y.
Proof.
  split.
  - intros H. apply In_nth_error in H as [k Hk]. exists k. apply nth_error_combine. exact Hk.
  - intros (k & H). apply nth_error_combine in H. exact (nth_error_In _ _ H).
Qed.

Lemma filter_ext_in' {A} (f g : A -> bool) l : (forall x, f x = g x) -> filter f l = filter g l.
Proof. intros H. apply filter_ext. exact H. Qed.

Lemma filter_head {A} (f : A -> bool) l x t : filter f l = x :: t -> In x l /\ f x = true.
Proof. intros H. apply filter_In. rewrite H. left. reflexivity. Qed.

Lemma existsb_map' {A B} (f : B -> bool) (g : A -> B) l : existsb f (map g l) = existsb (fun x => f (g x)) l.
Proof. induction l as [|x l IH]; [reflexivity|]. cbn. rewrite IH. reflexivity. Qed.

Lemma existsb_ext' {A} (f g : A -> bool) l : (forall x, f x = g x) -> existsb f l = existsb g l.
Proof. intros H. induction l as [|x l IH]; [reflexivity|]. cbn. rewrite H, IH. reflexivity. Qed.

Lemma ochunks_eqb_eq a b : ochunks_eqb a b = true <-> a = b.
Proof. apply list_eqb_eq. apply oZ_eqb_eq. Qed.

Theorem chunks_match_eq a b : chunks_match a b = true <-> a = b.
Proof. apply list_eqb_eq. apply ochunks_eqb_eq. Qed.

Lemma is_nil_true {A} (l : list A) : is_nil l = true <-> l = [].
Proof. destruct l; split; intros H; try reflexivity; discriminate. Qed.

Lemma has_nan_map_Some l : has_nan (map Some l) = false.
Proof. induction l as [|x l IH]; [reflexivity|]. cbn. exact IH. Qed.

Lemma oknown_map_Some l : oknown (map Some l) = Some l.
Proof. induction l as [|x l IH]; [reflexivity|]. cbn [map oknown]. rewrite IH. reflexivity. Qed.

Lemma oknown_spec d l : oknown d = Some l <-> d = map Some l.
Proof.
  split; [|intros ->; apply oknown_map_Some].
  revert l. induction d as [|[c|] d IH]; intros l H; cbn [oknown] in H.
  - injection H as <-. reflexivity.
  - destruct (oknown d) as [r|] eqn:E; cbn in H; [|discriminate]. injection H as <-.
    cbn [map]. f_equal. apply IH. reflexivity.
  - discriminate.
Qed.

Lemma has_nan_false_iff d : has_nan d = false <-> exists l, d = map Some l.
Proof.
  split; [|intros [l ->]; apply has_nan_map_Some].
  induction d as [|[c|] d IH]; intros H.
  - exists []. reflexivity.
  - cbn in H. destruct (IH H) as [l ->]. exists (c :: l). reflexivity.
  - discriminate.
Qed.

Lemma oknown_none d : oknown d = None <-> has_nan d = true.
Proof.
  split; intros H.
  - destruct (has_nan d) eqn:E; [reflexivity|].
    apply has_nan_false_iff in E as [l ->]. rewrite oknown_map_Some in H. discriminate.
  - destruct (oknown d) as [l|] eqn:E; [|reflexivity].
    apply oknown_spec in E. subst d. rewrite has_nan_map_Some in H. discriminate.
Qed.

Lemma oknown_all_map_Some kds : oknown_all (map (map Some) kds) = Some kds.
Proof. induction kds as [|k kds IH]; [reflexivity|]. cbn [map oknown_all]. rewrite oknown_map_Some, IH. reflexivity. Qed.

Lemma oknown_all_spec ds kds : oknown_all ds = Some kds <-> ds = map (map Some) kds.
Proof.
  split; [|intros ->; apply oknown_all_map_Some].
  revert kds. induction ds as [|d ds IH]; intros kds H; cbn [oknown_all] in H; [injection H as <-; reflexivity|].
  destruct (oknown d) as [x|] eqn:Ed; [|discriminate]. destruct (oknown_all ds) as [r|]; [|discriminate].
  injection H as <-. cbn [map]. f_equal; [apply oknown_spec; exact Ed|apply IH; reflexivity].
Qed.

(* np.isnan(sum(map(sum, blockdims))) holds iff some layout has an unknown size *)
Lemma oknown_all_none ds : oknown_all ds = None <-> exists d, In d ds /\ has_nan d = true.
Proof.
  split.
  - induction ds as [|a ds IH]; cbn [oknown_all]; [discriminate|]. destruct (oknown a) as [x|] eqn:Ed.
    + destruct (oknown_all ds) as [r|] eqn:Er; [discriminate|]. intros _.
      destruct (IH eq_refl) as (d & Hd & Hn). exists d. split; [right; exact Hd|exact Hn].
    + intros _. exists a. split; [left; reflexivity|apply oknown_none; exact Ed].
  - intros (d & Hd & Hn). destruct (oknown_all ds) as [kds|] eqn:E; [|reflexivity].
    apply oknown_all_spec in E. subst ds. apply in_map_iff in Hd as (k & <- & _).
    rewrite has_nan_map_Some in Hn. discriminate.
Qed.

Lemma osum_map_Some l : osum (map Some l) = Some (zsum l).
Proof. induction l as [|x l IH]; [reflexivity|]. cbn [map osum zsum]. rewrite IH. reflexivity. Qed.

Lemma osum_has_nan d : has_nan d = true -> osum d = None.
Proof.
  induction d as [|[c|] d IH]; intros H; cbn in H; [discriminate| |reflexivity].
  cbn [osum]. rewrite (IH H). reflexivity.
Qed.

(* np.isnan(sum(d)) is any(isnan(c) for c in d) *)
Theorem is_nan_osum d : is_nan (osum d) = has_nan d.
Proof.
  destruct (has_nan d) eqn:E.
  - rewrite (osum_has_nan d E). reflexivity.
  - apply has_nan_false_iff in E as [l ->]. rewrite osum_map_Some. reflexivity.
Qed.

Lemma known_sound_b_spec adv tr : known_sound_b adv tr = true <-> known_sound adv tr.
Proof.
  unfold known_sound. revert tr. induction adv as [|a adv IH]; intros [|t tr]; cbn [known_sound_b].
  - split; [constructor|reflexivity].
  - split; [discriminate|intros H; inversion H].
  - split; [discriminate|intros H; inversion H].
  - rewrite andb_true_iff, IH. split.
    + intros [H1 H2]. constructor; [|exact H2]. destruct a as [x|]; [right; f_equal; lia|left; reflexivity].
    + intros H. inversion H as [|? ? ? ? Ha Hr]; subst. split; [|exact Hr].
      destruct Ha as [-> | ->]; [reflexivity|lia].
Qed.

Lemma known_soundN_b_spec adv tr : known_soundN_b adv tr = true <-> known_soundN adv tr.
Proof.
  unfold known_soundN. revert tr. induction adv as [|a adv IH]; intros [|t tr]; cbn [known_soundN_b].
  - split; [constructor|reflexivity].
  - split; [discriminate|intros H; inversion H].
  - split; [discriminate|intros H; inversion H].
  - rewrite andb_true_iff, IH, known_sound_b_spec. split.
    + intros [H1 H2]. constructor; assumption.
    + intros H. inversion H; subst. split; assumption.
Qed.

(* a fully known layout is sound iff it IS the true layout *)
Lemma known_sound_known l tr : known_sound (map Some l) tr <-> l = tr.
Proof.
  unfold known_sound. revert tr. induction l as [|x l IH]; intros [|t tr]; cbn [map].
  - split; [reflexivity|constructor].
  - split; [intros H; inversion H|discriminate].
  - split; [intros H; inversion H|discriminate].
  - split.
    + intros H. inversion H as [|? ? ? ? Ha Hr]; subst. apply IH in Hr. subst.
      destruct Ha as [Ha|Ha]; [discriminate|]. injection Ha as ->. reflexivity.
    + intros H. injection H as -> ->. constructor; [right; reflexivity|]. apply IH. reflexivity.
Qed.

Lemma known_sound_length adv tr : known_sound adv tr -> length adv = length tr.
Proof. apply Forall2_length. Qed.

Lemma validate_axis_spec od nd :
  validate_axis od nd = true <-> (if has_nan od || has_nan nd then od = nd else osum od = osum nd).
Proof.
  unfold validate_axis. rewrite <- !is_nan_osum.
  destruct (osum od) as [a|] eqn:Eo, (osum nd) as [b|] eqn:En; cbn [py_eq is_nan orb andb].
  - destruct (Z.eqb_spec a b) as [->|Hne]; split; [reflexivity..|discriminate|intros [= E]; contradiction].
  - split; [discriminate|]. intros <-. congruence.
  - split; [discriminate|]. intros <-. congruence.
  - apply ochunks_eqb_eq.
Qed.

(* an accepted axis is untouched if the old sizes are not all known; otherwise both are known *)
Lemma validate_axis_cases od nd :
  (if has_nan od || has_nan nd then od = nd else osum od = osum nd) ->
  (has_nan od = true /\ nd = od) \/ exists o n, od = map Some o /\ nd = map Some n /\ zsum n = zsum o.
Proof.
  destruct (has_nan od) eqn:Eo; cbn [orb]; [auto|]. destruct (has_nan nd) eqn:En; [intros <-; congruence|].
  apply has_nan_false_iff in Eo as [o ->]. apply has_nan_false_iff in En as [n ->].
  rewrite !osum_map_Some. intros [= E]. right. exists o, n. auto.
Qed.

Theorem validate_rechunk_accepts old new :
  validate_rechunk old new = Proceed tt <->
  Forall2 (fun od nd => if has_nan od || has_nan nd then od = nd else osum od = osum nd) old new.
Proof.
  unfold validate_rechunk. destruct (Nat.eqb (length old) (length new)) eqn:El; cbn [negb].
  - apply Nat.eqb_eq in El.
    rewrite <- (Forall2_iff _ _ old new validate_axis_spec).
    rewrite <- (forallb_combine_Forall2 validate_axis old new El).
    destruct (forallb _ _); split; intros H; try reflexivity; discriminate.
  - apply Nat.eqb_neq in El. split; [discriminate|].
    intros F. apply Forall2_length in F. contradiction.
Qed.

Theorem validate_rechunk_assertion old new :
  validate_rechunk old new = Refuse AssertionError <-> length old <> length new.
Proof.
  unfold validate_rechunk. destruct (Nat.eqb (length old) (length new)) eqn:El; cbn [negb].
  - apply Nat.eqb_eq in El. destruct (forallb _ _); split; intros H; try discriminate; contradiction.
  - apply Nat.eqb_neq in El. split; intros; [exact El|reflexivity].
Qed.

(* an accepted rechunk leaves every axis that has unknown sizes untouched, so what the new
   layout advertises there is still sound for the same true sizes; a fully known axis keeps
   the true length *)
Theorem validate_rechunk_sound old new tr :
  validate_rechunk old new = Proceed tt -> known_soundN old tr ->
  Forall2 (fun nd t => known_sound nd t \/ exists n, nd = map Some n /\ zsum n = zsum t) new tr.
Proof.
  intros H S. apply validate_rechunk_accepts in H. unfold known_soundN in S.
  refine (Forall2_compose _ _ _ _ old new tr H S).
  intros od nd t Hax Hs. destruct (validate_axis_cases _ _ Hax) as [[_ ->]|(o & n & -> & -> & E)]; [left; exact Hs|].
  right. apply known_sound_known in Hs. subst t. exists n. auto.
Qed.

(* block j of an axis with unknown sizes is exactly old block j, whole: (j, slice(0, size_j or None)) *)
Theorem unknown_axis_crosswalk_spec dim :
  length (unknown_axis_crosswalk dim) = length dim /\
  forall j size, nth_error dim j = Some size ->
    nth_error (unknown_axis_crosswalk dim) j = Some [(Z.of_nat j, 0, size)].
Proof.
  (* enumerate_from is the same fixpoint as BlockInfo.index_from *)
  unfold unknown_axis_crosswalk. change (@enumerate_from) with (@BlockInfo.index_from). split.
  - rewrite map_length. apply index_from_length.
  - intros j size H. rewrite nth_error_map, index_from_nth_error, H. reflexivity.
Qed.

Lemma old_to_new_axis_unknown od nd :
  has_nan od = true -> old_to_new_axis od nd = Some (unknown_axis_crosswalk od).
Proof. intros H. unfold old_to_new_axis. rewrite H. reflexivity. Qed.

Lemma old_to_new_axis_known o n :
  old_to_new_axis (map Some o) (map Some n) = Some (map (map lift_piece) (intersect_1d o n)).
Proof. unfold old_to_new_axis. rewrite has_nan_map_Some, !oknown_map_Some. reflexivity. Qed.

Lemma old_to_new_axis_known_inv od nd r :
  has_nan od = false -> old_to_new_axis od nd = Some r ->
  exists o n, od = map Some o /\ nd = map Some n /\ r = map (map lift_piece) (intersect_1d o n).
Proof.
  intros Hn H. unfold old_to_new_axis in H. rewrite Hn in H.
  destruct (oknown od) as [o|] eqn:Eo; [|discriminate].
  destruct (oknown nd) as [n|] eqn:En; [|discriminate].
  injection H as <-. apply oknown_spec in Eo, En. exists o, n. auto.
Qed.

Theorem old_to_new_u_spec : forall old new cw,
  old_to_new_u old new = Some cw ->
  length cw = length old /\
  forall k od nd, nth_error old k = Some od -> nth_error new k = Some nd ->
    (has_nan od = true -> nth_error cw k = Some (unknown_axis_crosswalk od)) /\
    (has_nan od = false -> exists o n, od = map Some o /\ nd = map Some n /\
                             nth_error cw k = Some (map (map lift_piece) (intersect_1d o n))).
Proof.
  induction old as [|od0 old IH]; intros [|nd0 new] cw H; cbn [old_to_new_u] in H; try discriminate.
  - injection H as <-. split; [reflexivity|]. intros [|k]; discriminate.
  - injection H as <-. split; [reflexivity|]. intros [|k]; discriminate.
  - destruct (old_to_new_axis od0 nd0) as [a|] eqn:Ea; [|discriminate].
    destruct (old_to_new_u old new) as [r|] eqn:Er; [|discriminate].
    injection H as <-. destruct (IH new r Er) as [Hl Hk]. split; [cbn; lia|].
    intros [|k] od nd Ho Hn; cbn [nth_error] in *.
    + injection Ho as <-. injection Hn as <-. split.
      * intros Hnan. rewrite (old_to_new_axis_unknown _ _ Hnan) in Ea. exact (eq_sym Ea).
      * intros Hnan. destruct (old_to_new_axis_known_inv _ _ _ Hnan Ea) as (o & n & -> & -> & ->).
        exists o, n. auto.
    + apply Hk; assumption.
Qed.

(* _validate_rechunk establishes the domain on which old_to_new is modelled *)
Theorem validate_rechunk_old_to_new_defined : forall old new,
  validate_rechunk old new = Proceed tt -> exists cw, old_to_new_u old new = Some cw.
Proof.
  intros old new H. apply validate_rechunk_accepts in H.
  induction H as [|od nd old new Hax F IH].
  - exists []. reflexivity.
  - destruct IH as [r Hr]. cbn [old_to_new_u]. rewrite Hr.
    destruct (validate_axis_cases _ _ Hax) as [[Hn ->]|(o & n & -> & -> & _)];
      [rewrite (old_to_new_axis_unknown _ _ Hn)|rewrite old_to_new_axis_known]; eexists; reflexivity.
Qed.

(* agreement with the known-sizes model of Rechunk.v *)
Theorem old_to_new_u_known : forall old new, length old = length new ->
  old_to_new_u (map (map Some) old) (map (map Some) new) =
  Some (map (map (map lift_piece)) (old_to_new old new)).
Proof.
  unfold old_to_new. induction old as [|o old IH]; intros [|n new] Hl; cbn [length] in Hl; try discriminate.
  - reflexivity.
  - cbn [map old_to_new_u combine fst snd]. rewrite old_to_new_axis_known, IH by lia. reflexivity.
Qed.

Theorem plan_rechunk_early_exit_spec old new :
  (plan_rechunk_early_exit old new = Some [new] <->
     (exists d, In d new /\ d = []) \/ (exists d, In d old /\ has_nan d = true)) /\
  (forall steps, plan_rechunk_early_exit old new = Some steps -> steps = [new]).
Proof.
  unfold plan_rechunk_early_exit. split.
  - setoid_rewrite <- is_nil_true. rewrite <- !existsb_exists, <- orb_true_iff.
    destruct (_ || _); split; intros H; try reflexivity; discriminate.
  - intros steps H. destruct (_ || _); [|discriminate]. injection H as <-. reflexivity.
Qed.

(* planning proper (Rechunk.plan_rechunk) only ever sees fully known old chunks and new chunks
   with at least one block on every axis *)
Theorem plan_rechunk_no_early_exit old new :
  plan_rechunk_early_exit old new = None ->
  (exists o, old = map (map Some) o) /\ Forall (fun d => d <> []) new.
Proof.
  unfold plan_rechunk_early_exit. destruct (_ || _) eqn:E; [discriminate|]. intros _.
  apply orb_false_iff in E as [E1 E2]. split.
  - destruct (oknown_all old) as [o|] eqn:Ek; [exists o; apply oknown_all_spec; exact Ek|].
    apply oknown_all_none, existsb_exists in Ek. congruence.
  - apply Forall_forall. intros d Hd ->. discriminate (existsb_false_In _ _ _ E1 Hd).
Qed.

Lemma ploc_eqb_eq a b : ploc_eqb a b = true <-> a = b.
Proof.
  destruct a as [x|s], b as [y|t]; cbn [ploc_eqb].
  - rewrite Z.eqb_eq. split; [intros ->; reflexivity|intros H; injection H as ->; reflexivity].
  - split; discriminate.
  - split; discriminate.
  - rewrite pslice_eqb_eq. split; [intros ->; reflexivity|intros H; injection H as ->; reflexivity].
Qed.

Lemma slice_guard_total chunks index :
  slice_guard chunks index = Proceed tt \/ slice_guard chunks index = Refuse ValueError.
Proof. unfold slice_guard. destruct (existsb _ _); auto. Qed.

Theorem slice_guard_refuses chunks index :
  slice_guard chunks index = Refuse ValueError <->
  exists k dim ind, nth_error chunks k = Some dim /\ nth_error index k = Some ind /\
                    has_nan dim = true /\ ind <> LSlice colon.
Proof.
  unfold slice_guard.
  transitivity (existsb (fun p => is_nan (osum (fst p)) && negb (ploc_eqb (snd p) (LSlice colon))) (combine chunks index) = true).
  { destruct (existsb _ _); split; intros H; try reflexivity; discriminate. }
  rewrite existsb_exists. split.
  - intros ([dim ind] & Hin & Hp). cbn [fst snd] in Hp.
    apply andb_true_iff in Hp as [Hn Hne]. rewrite is_nan_osum in Hn.
    apply In_combine_nth_error in Hin as (k & H1 & H2).
    exists k, dim, ind. repeat split; try assumption. intros ->. discriminate.
  - intros (k & dim & ind & H1 & H2 & Hn & Hne). exists (dim, ind).
    split; [apply In_combine_nth_error; exists k; auto|]. cbn [fst snd]. rewrite is_nan_osum, Hn.
    destruct (ploc_eqb ind (LSlice colon)) eqn:Ee; [|reflexivity]. apply ploc_eqb_eq in Ee. contradiction.
Qed.

Theorem slice_guard_spec chunks index :
  slice_guard chunks index = Proceed tt <->
  forall k dim ind, nth_error chunks k = Some dim -> nth_error index k = Some ind ->
    has_nan dim = true -> ind = LSlice colon.
Proof.
  pose proof (slice_guard_refuses chunks index) as R.
  destruct (slice_guard_total chunks index) as [E|E]; rewrite E in *.
  - split; [|reflexivity]. intros _ k dim ind H1 H2 Hn.
    destruct (ploc_eqb ind (LSlice colon)) eqn:Ee; [apply ploc_eqb_eq; exact Ee|].
    assert (Hr : Proceed tt = Refuse ValueError); [|discriminate Hr].
    apply R. exists k, dim, ind. repeat split; try assumption. intros ->. discriminate.
  - split; [discriminate|]. intros H. destruct (proj1 R eq_refl) as (k & dim & ind & H1 & H2 & Hn & Hne).
    elim Hne. exact (H k dim ind H1 H2 Hn).
Qed.

Lemma omax_by_first_In ds r : omax_by_first ds = Proceed r -> In r ds.
Proof.
  unfold omax_by_first. destruct (existsb is_nil ds); [discriminate|].
  destruct ds as [|d t]; [discriminate|]. intros H. injection H as <-. apply fold_best_In.
Qed.

Lemma odedup_In d l : In d (odedup l) <-> In d l.
Proof. exact (dedup_eqs_In ochunks_eqb odedup ochunks_eqb_eq eq_refl (fun _ _ => eq_refl) d l). Qed.

(* `if not any(blockdims)`: all layouts empty *)
Lemma all_empty_In (ds : list ochunks) :
  ds <> [] -> existsb (fun d => negb (is_nil d)) ds = false -> In [] ds.
Proof.
  destruct ds as [|[|c d] ds]; [contradiction|left; reflexivity|discriminate].
Qed.

Lemma has_nan_nonempty (ds : list ochunks) d :
  In d ds -> has_nan d = true -> existsb (fun d => negb (is_nil d)) ds = true.
Proof. intros Hd Hn. apply existsb_exists. exists d. split; [exact Hd|]. destruct d; [discriminate|reflexivity]. Qed.

(* whatever the iteration order and the tie-break: a result of a blockdim function is one of
   the given layouts, unless every layout is fully known and it is what the known-sizes
   algorithm of Unify.v returns *)
Theorem common_blockdim_u_cases ds r :
  ds <> [] -> common_blockdim_u ds = Proceed r ->
  In r ds \/ exists kds, ds = map (map Some) kds /\ of_ures (common_blockdim kds) = Proceed r.
Proof.
  intros Hne. unfold common_blockdim_u.
  destruct (existsb (fun d => negb (is_nil d)) ds) eqn:Eany; cbn [negb].
  - destruct (odedup (filter ontrivial ds)) as [|d [|d2 nt]] eqn:Ent.
    + intros H. left. apply omax_by_first_In. exact H.
    + destruct (has_nan d && existsb (fun x => negb (ochunks_eqb x d)) ds); [discriminate|].
      intros H. injection H as <-. left.
      assert (Hin : In d (odedup (filter ontrivial ds))) by (rewrite Ent; left; reflexivity).
      apply odedup_In, filter_In in Hin. apply Hin.
    + destruct (oknown_all ds) as [kds|] eqn:Ek; [|discriminate].
      intros H. right. exists kds. split; [apply oknown_all_spec; exact Ek|exact H].
  - intros H. injection H as <-. left. apply all_empty_In; assumption.
Qed.

Theorem coarse_blockdim_u_cases pick ds r :
  ds <> [] -> coarse_blockdim_u pick ds = Proceed r ->
  In r ds \/ exists kds, ds = map (map Some) kds /\ of_ures (coarse_blockdim pick kds) = Proceed r.
Proof.
  intros Hne. unfold coarse_blockdim_u.
  destruct (existsb (fun d => negb (is_nil d)) ds) eqn:Eany; cbn [negb].
  - destruct (filter has_nan ds) as [|u us] eqn:Ef.
    + destruct (oknown_all ds) as [kds|] eqn:Ek; [|discriminate]. apply oknown_all_spec in Ek.
      destruct (filter nontrivial kds); [intros H; left; apply omax_by_first_In; exact H|].
      intros H. right. exists kds. auto.
    + destruct (all_same_length ds); [|discriminate]. intros H. injection H as <-. left.
      apply (filter_head _ _ _ _ Ef).
  - intros H. injection H as <-. left. apply all_empty_In; assumption.
Qed.

(* as soon as one layout has an unknown size, common_blockdim either refuses or returns one of
   the given layouts unchanged *)
Theorem common_blockdim_u_unknown ds r :
  (exists d, In d ds /\ has_nan d = true) -> common_blockdim_u ds = Proceed r -> In r ds.
Proof.
  intros (d & Hd & Hn) H. assert (Hne : ds <> []) by (intros ->; destruct Hd).
  destruct (common_blockdim_u_cases ds r Hne H) as [Hin|(kds & -> & _)]; [exact Hin|].
  apply in_map_iff in Hd as (k & <- & _). rewrite has_nan_map_Some in Hn. discriminate.
Qed.

(* with an unknown size in some operand coarse_blockdim looks at the numbers of blocks only *)
Lemma coarse_blockdim_u_unknown_eq pick ds :
  (exists d, In d ds /\ has_nan d = true) ->
  exists u, In u ds /\ has_nan u = true /\
    coarse_blockdim_u pick ds = if all_same_length ds then Proceed u else Refuse ValueError.
Proof.
  intros (d & Hd & Hn). unfold coarse_blockdim_u. rewrite (has_nan_nonempty ds d Hd Hn). cbn [negb].
  destruct (filter has_nan ds) as [|u us] eqn:Ef.
  - assert (H : In d (filter has_nan ds)) by (apply filter_In; auto). rewrite Ef in H. destruct H.
  - exists u. destruct (filter_head _ _ _ _ Ef). auto.
Qed.

Lemma all_same_length_spec ds :
  all_same_length ds = true -> forall x y, In x ds -> In y ds -> length x = length y.
Proof.
  destruct ds as [|d t]; [intros _ x y []|]. cbn [all_same_length]. rewrite forallb_forall. intros Es.
  assert (Hall : forall x, In x (d :: t) -> length x = length d).
  { intros x [<-|Hx]; [reflexivity|]. apply Nat.eqb_eq, Es, Hx. }
  intros x y Hx Hy. rewrite (Hall x Hx), (Hall y Hy). reflexivity.
Qed.

Theorem coarse_blockdim_u_unknown pick ds r :
  (exists d, In d ds /\ has_nan d = true) -> coarse_blockdim_u pick ds = Proceed r ->
  In r ds /\ has_nan r = true /\ forall d, In d ds -> length d = length r.
Proof.
  intros Hex H. destruct (coarse_blockdim_u_unknown_eq pick ds Hex) as (u & Hu & Hun & E). rewrite E in H.
  destruct (all_same_length ds) eqn:Es; [|discriminate]. injection H as <-.
  split; [exact Hu|]. split; [exact Hun|]. intros x Hx. exact (all_same_length_spec ds Es x u Hx Hu).
Qed.

(* the known-sizes algorithms of Unify.v return the one layout of a constant family *)
Lemma blockdim_const pick c l :
  (forall x, In x l -> x = c) -> l <> [] -> common_blockdim l = UOk c /\ coarse_blockdim pick l = UOk c.
Proof.
  intros H Hne. unfold common_blockdim, coarse_blockdim.
  rewrite (dedup_all_same c l H) by (destruct l; [contradiction|]; left; apply H; left; reflexivity).
  destruct c as [|x [|y c]]; split; reflexivity.
Qed.

(* soundness under the hypothesis that every operand advertises the SAME true layout (its
   blocks align): fully known operands are then all that layout, and so is the result of the
   known-sizes algorithm g.  Without the hypothesis the clause is refuted: finding C28-F32 /
   misaligned_unknown_refuted *)
Lemma blockdim_cases_sound (g : list (list Z) -> ures) ds tr r :
  (forall kds, (forall x, In x kds -> x = tr) -> kds <> [] -> g kds = UOk tr) ->
  ds <> [] -> Forall (fun d => known_sound d tr) ds ->
  In r ds \/ (exists kds, ds = map (map Some) kds /\ of_ures (g kds) = Proceed r) ->
  In r ds /\ known_sound r tr.
Proof.
  intros Hg Hne Hs H. rewrite Forall_forall in Hs. enough (Hin : In r ds) by (split; [exact Hin|apply Hs; exact Hin]).
  destruct H as [Hin|(kds & -> & Hr)]; [exact Hin|].
  assert (Hc : forall x, In x kds -> x = tr).
  { intros x Hx. apply known_sound_known, Hs, in_map, Hx. }
  destruct kds as [|k kds]; [contradiction|]. rewrite (Hg _ Hc) in Hr by discriminate. injection Hr as <-.
  left. unfold of_known. f_equal. apply Hc. left. reflexivity.
Qed.

Theorem common_blockdim_u_sound ds tr r :
  ds <> [] -> Forall (fun d => known_sound d tr) ds ->
  common_blockdim_u ds = Proceed r -> In r ds /\ known_sound r tr.
Proof.
  intros Hne Hs H. apply (blockdim_cases_sound common_blockdim); [|exact Hne|exact Hs|exact (common_blockdim_u_cases ds r Hne H)].
  intros kds Hc Hk. apply (blockdim_const 0 tr kds Hc Hk).
Qed.

Theorem coarse_blockdim_u_sound pick ds tr r :
  ds <> [] -> Forall (fun d => known_sound d tr) ds ->
  coarse_blockdim_u pick ds = Proceed r -> In r ds /\ known_sound r tr.
Proof.
  intros Hne Hs H. apply (blockdim_cases_sound (coarse_blockdim pick)); [|exact Hne|exact Hs|exact (coarse_blockdim_u_cases pick ds r Hne H)].
  intros kds Hc Hk. apply (blockdim_const pick tr kds Hc Hk).
Qed.

(* two or more distinct multi-block layouts, one of them with an unknown size: refused *)
Theorem common_blockdim_u_refuses ds :
  (exists d, In d ds /\ has_nan d = true) -> (2 <= length (odedup (filter ontrivial ds)))%nat ->
  common_blockdim_u ds = Refuse ValueError.
Proof.
  intros (d & Hd & Hn) Hlen. unfold common_blockdim_u. rewrite (has_nan_nonempty ds d Hd Hn). cbn [negb].
  destruct (odedup (filter ontrivial ds)) as [|d1 [|d2 nt]]; cbn [length] in Hlen; try lia.
  assert (E : oknown_all ds = None) by (apply oknown_all_none; exists d; auto).
  rewrite E. reflexivity.
Qed.

(* a multi-block layout with an unknown size next to ANY other layout (in particular a known single chunk,
   which would be paired whole with every block): refused *)
Theorem common_blockdim_u_refuses_other ds d x :
  In d ds -> ontrivial d = true -> has_nan d = true -> In x ds -> x <> d ->
  common_blockdim_u ds = Refuse ValueError.
Proof.
  intros Hd Hnt Hn Hx Hxd.
  assert (Hdin : In d (odedup (filter ontrivial ds))) by (apply odedup_In, filter_In; auto).
  destruct (odedup (filter ontrivial ds)) as [|d1 [|d2 nt]] eqn:Ent.
  - destruct Hdin.
  - destruct Hdin as [->|[]]. unfold common_blockdim_u.
    rewrite (has_nan_nonempty ds d Hd Hn). cbn [negb]. rewrite Ent, Hn. cbn [andb].
    assert (E : existsb (fun y => negb (ochunks_eqb y d)) ds = true).
    { apply existsb_exists. exists x. split; [exact Hx|].
      destruct (ochunks_eqb x d) eqn:Exd; [|reflexivity]. apply ochunks_eqb_eq in Exd. contradiction. }
    rewrite E. reflexivity.
  - apply common_blockdim_u_refuses; [exists d; auto|]. rewrite Ent. cbn [length]. lia.
Qed.

(* an unknown layout next to a layout with a different number of blocks: refused *)
Theorem coarse_blockdim_u_refuses pick ds :
  (exists d, In d ds /\ has_nan d = true) -> all_same_length ds = false ->
  coarse_blockdim_u pick ds = Refuse ValueError.
Proof.
  intros Hex Hl. destruct (coarse_blockdim_u_unknown_eq pick ds Hex) as (u & _ & _ & E). rewrite E, Hl. reflexivity.
Qed.

(* agreement with the known-sizes models of Unify.v on fully known layouts *)
Lemma ochunks_eqb_map_Some a b : ochunks_eqb (map Some a) (map Some b) = zlist_eqb a b.
Proof.
  unfold ochunks_eqb, zlist_eqb. revert b. induction a as [|x a IH]; intros [|y b]; cbn [map list_eqb]; try reflexivity.
  rewrite IH. reflexivity.
Qed.

Lemma odedup_map_Some l : odedup (map (map Some) l) = map (map Some) (dedup l).
Proof.
  induction l as [|x t IH]; [reflexivity|]. cbn [map odedup dedup].
  rewrite existsb_map'. rewrite (existsb_ext' _ (zlist_eqb x)) by (intros y; apply ochunks_eqb_map_Some).
  destruct (existsb (zlist_eqb x) t); cbn [map]; rewrite IH; reflexivity.
Qed.

Lemma filter_ontrivial_map l : filter ontrivial (map (map Some) l) = map (map Some) (filter nontrivial l).
Proof.
  induction l as [|x t IH]; [reflexivity|]. cbn [map filter].
  unfold ontrivial at 1, nontrivial at 1. rewrite map_length.
  destruct (Nat.ltb 1 (length x)); cbn [map]; rewrite IH; reflexivity.
Qed.

Lemma filter_has_nan_map l : filter has_nan (map (map Some) l) = [].
Proof. induction l as [|x t IH]; [reflexivity|]. cbn [map filter]. rewrite has_nan_map_Some. exact IH. Qed.

Lemma NoDup_dedup l : NoDup l -> dedup l = l.
Proof.
  induction 1 as [|x t Hx Hnd IH]; [reflexivity|]. cbn [dedup].
  destruct (existsb (zlist_eqb x) t) eqn:E.
  - apply existsb_zlist_eqb in E. contradiction.
  - rewrite IH. reflexivity.
Qed.

Lemma omax_fold_known t : forall d, d <> [] -> Forall (fun x => x <> []) t ->
  fold_left (fun best x => if ohead_lt best x then x else best) (map (map Some) t) (map Some d) =
  map Some (fold_left (fun best x => if hd 0 best <? hd 0 x then x else best) t d).
Proof.
  induction t as [|x t IH]; intros d Hd Ht; [reflexivity|]. cbn [map fold_left].
  inversion Ht as [|? ? Hx Ht']; subst.
  assert (E : ohead_lt (map Some d) (map Some x) = (hd 0 d <? hd 0 x)).
  { destruct d as [|a d']; [contradiction|]. destruct x as [|b x']; [contradiction|]. reflexivity. }
  rewrite E. destruct (hd 0 d <? hd 0 x); apply IH; assumption.
Qed.

Lemma omax_by_first_known ds : ds <> [] -> Forall (fun d => d <> []) ds ->
  omax_by_first (map (map Some) ds) = Proceed (map Some (first_by_max_head ds)).
Proof.
  intros Hne Hf. unfold omax_by_first.
  assert (E : existsb is_nil (map (map Some) ds) = false).
  { rewrite existsb_map'. induction Hf as [|d t Hd Hf IH]; [reflexivity|]. cbn [existsb].
    destruct d; [contradiction|]. cbn. destruct t; [reflexivity|]. apply IH. discriminate. }
  rewrite E. destruct ds as [|d t]; [contradiction|]. cbn [map first_by_max_head].
  inversion Hf; subst. rewrite omax_fold_known by assumption. reflexivity.
Qed.

Lemma any_nonempty_known ds : ds <> [] -> Forall (fun d => d <> []) ds ->
  existsb (fun d => negb (is_nil d)) (map (map Some) ds) = true /\
  existsb (fun d : list Z => match d with [] => false | _ :: _ => true end) ds = true.
Proof.
  intros Hne Hf. destruct ds as [|d t]; [contradiction|]. inversion Hf; subst.
  destruct d; [contradiction|]. split; reflexivity.
Qed.

Theorem common_blockdim_u_known ds :
  NoDup ds -> Forall (fun d => d <> []) ds ->
  common_blockdim_u (map (map Some) ds) = of_ures (common_blockdim ds).
Proof.
  intros Hnd Hf. destruct (list_eq_dec (list_eq_dec Z.eq_dec) ds []) as [->|Hne]; [reflexivity|].
  destruct (any_nonempty_known ds Hne Hf) as [E1 E2].
  unfold common_blockdim_u. rewrite E1. cbn [negb].
  rewrite filter_ontrivial_map, odedup_map_Some, (NoDup_dedup _ (NoDup_filter nontrivial Hnd)).
  destruct (filter nontrivial ds) as [|d [|d2 nt]] eqn:Ent; cbn [map].
  - unfold common_blockdim. rewrite (NoDup_dedup ds Hnd), E2, Ent. cbn [negb of_ures].
    apply omax_by_first_known; assumption.
  - rewrite has_nan_map_Some. cbn [andb].
    unfold common_blockdim. rewrite (NoDup_dedup ds Hnd), E2, Ent. reflexivity.
  - rewrite oknown_all_map_Some. reflexivity.
Qed.

Theorem coarse_blockdim_u_known pick ds :
  NoDup ds -> Forall (fun d => d <> []) ds ->
  coarse_blockdim_u pick (map (map Some) ds) = of_ures (coarse_blockdim pick ds).
Proof.
  intros Hnd Hf. destruct (list_eq_dec (list_eq_dec Z.eq_dec) ds []) as [->|Hne]; [reflexivity|].
  destruct (any_nonempty_known ds Hne Hf) as [E1 E2].
  unfold coarse_blockdim_u. rewrite E1, filter_has_nan_map. cbn [negb].
  rewrite oknown_all_map_Some. destruct (filter nontrivial ds) as [|d nt] eqn:Ent; [|reflexivity].
  unfold coarse_blockdim. rewrite (NoDup_dedup ds Hnd), E2, Ent. cbn [negb of_ures].
  apply omax_by_first_known; assumption.
Qed.

Lemma map_seq_eq {A} (d : A) : forall (l : list A) (f : nat -> A) s,
  (forall i, (i < length l)%nat -> f (s + i)%nat = nth i l d) -> map f (seq s (length l)) = l.
Proof.
  induction l as [|x l IH]; intros f s H; [reflexivity|]. cbn [length seq map]. f_equal.
  - rewrite <- (Nat.add_0_r s). apply (H 0%nat). cbn. lia.
  - apply IH. intros i Hi. replace (S s + i)%nat with (s + S i)%nat by lia. apply (H (S i)). cbn. lia.
Qed.

Lemma Forall2_map_seq {A} (P : A -> Z -> Prop) (d : A) (h : nat -> Z) : forall (l : list A) s,
  (forall k, (k < length l)%nat -> P (nth k l d) (h (s + k)%nat)) -> Forall2 P l (map h (seq s (length l))).
Proof.
  induction l as [|x l IH]; intros s H; [constructor|]. cbn [length seq map]. constructor.
  - rewrite <- (Nat.add_0_r s). apply (H 0%nat). cbn. lia.
  - apply IH. intros k Hk. replace (S s + k)%nat with (s + S k)%nat by lia. apply (H (S k)). cbn. lia.
Qed.

Lemma zrange_unit_nat m : zrange 0 (Z.of_nat m) 1 = map Z.of_nat (seq 0 m).
Proof.
  unfold zrange. rewrite range_len_unit.
  replace (Z.to_nat (Z.max (Z.of_nat m - 0) 0)) with m by lia.
  apply map_ext. intros i. lia.
Qed.

Lemma true_shape_nth : forall tr loc i, (i < length tr)%nat -> length loc = length tr ->
  nth i (true_shape tr loc) 0 = nthZ (nth i tr []) (nth i loc 0).
Proof.
  induction tr as [|t tr IH]; intros [|j loc] i Hi Hl; cbn [length] in *; try lia.
  destruct i as [|i]; cbn [true_shape nth]; [reflexivity|]. apply IH; lia.
Qed.

(* if the executed blocks form a grid whose true sizes along axis k are tr[k], the sizes that
   compute_chunk_sizes reads off the first row/column/... of blocks ARE the true sizes.
   Every axis must have at least one block: the Python indexes the other axes at 0
   (on a zero-block axis chunk_shapes[..., 0, ...] raises IndexError). *)
Theorem compute_chunk_sizes_exact measure tr :
  Forall (fun t => t <> []) tr ->
  (forall loc, valid_loc tr loc -> measure loc = true_shape tr loc) ->
  compute_chunk_sizes_model measure (map (@lenZ Z) tr) = tr.
Proof.
  intros Hne Hm. unfold compute_chunk_sizes_model. rewrite map_length.
  apply (map_seq_eq []). intros i Hi. cbn [Nat.add].
  rewrite (map_nth (@lenZ Z) tr [] i : nth i (map (@lenZ Z) tr) 0 = lenZ (nth i tr [])).
  set (t := nth i tr []). unfold lenZ at 1. rewrite zrange_unit_nat, map_map.
  apply (map_seq_eq 0). intros j Hj. cbn [Nat.add].
  assert (Hv : valid_loc tr (loc_on_axis (length tr) i (Z.of_nat j))).
  { unfold valid_loc, loc_on_axis. apply (Forall2_map_seq _ []). intros k Hk. cbn [Nat.add].
    destruct (Nat.eqb k i) eqn:Eki.
    - apply Nat.eqb_eq in Eki. subst k. fold t. unfold lenZ. lia.
    - assert (Hin : In (nth k tr []) tr) by (apply nth_In; exact Hk).
      rewrite Forall_forall in Hne. specialize (Hne _ Hin). unfold lenZ.
      destruct (nth k tr []); [contradiction|]. cbn [length]. lia. }
  rewrite (Hm _ Hv).
  rewrite true_shape_nth by (try exact Hi; unfold loc_on_axis; rewrite map_length, seq_length; reflexivity).
  unfold loc_on_axis. rewrite nth_map_seq by exact Hi. rewrite Nat.eqb_refl.
  fold t. unfold nthZ. rewrite Nat2Z.id. reflexivity.
Qed.

Lemma grid_product ns : grid ns = BlockInfo.product (map (fun n => zrange 0 n 1) ns).
Proof. induction ns as [|n ns IH]; cbn [grid map BlockInfo.product]; [reflexivity|]. rewrite IH. reflexivity. Qed.

Theorem grid_spec : forall ns idx, In idx (grid ns) <-> Forall2 (fun i n => 0 <= i < n) idx ns.
Proof.
  intros ns idx. rewrite grid_product, In_product, Forall2_map_r. apply Forall2_iff. intros i n. apply zrange_unit_In.
Qed.

(* the layer aliases every block of the grid to the block with the SAME index of the wrapped
   array (values untouched), and nothing else *)
Theorem chunks_override_layer_identity chunks :
  (forall p, In p (chunks_override_layer chunks) -> fst p = snd p) /\
  (forall idx, In (idx, idx) (chunks_override_layer chunks) <-> Forall2 (fun i d => 0 <= i < lenZ d) idx chunks).
Proof.
  unfold chunks_override_layer. split.
  - intros p Hp. apply in_map_iff in Hp as (idx & <- & _). reflexivity.
  - intros idx. rewrite <- (Forall2_map_r (fun i n => 0 <= i < n) (@lenZ (option Z))), <- grid_spec, in_map_iff. split.
    + intros (x & [= -> _] & Hin). exact Hin.
    + intros H. exists idx. auto.
Qed.

Lemma chunks_override_layer_known tr idx :
  In (idx, idx) (chunks_override_layer (map (map Some) tr)) <-> valid_loc tr idx.
Proof.
  rewrite (proj2 (chunks_override_layer_identity _)). unfold valid_loc. rewrite Forall2_map_r.
  split; intros H; apply Forall2_swap in H; revert H; apply Forall2_impl; intros ? ?;
    unfold lenZ; rewrite map_length; exact (fun H => H).
Qed.

Lemma known_soundN_refl tr : known_soundN (map (map Some) tr) tr.
Proof. unfold known_soundN. induction tr as [|t tr IH]; constructor; [apply known_sound_known; reflexivity|exact IH]. Qed.

(* C28-F32: without the common-true-layout hypothesis the blockdim guards are NOT sound.
   Two operands whose advertised layouts are both (nan, nan) — each sound for its own true
   layout, same axis length, DIFFERENT block sizes — form the one-element set {(nan, nan)}:
   common_blockdim and coarse_blockdim return it, the rechunk of each operand to it validates
   (a no-op), and the blocks are then combined pairwise although their true sizes differ. *)
Theorem misaligned_unknown_refuted :
  exists d1 d2 tr1 tr2 r,
    known_sound d1 tr1 /\ known_sound d2 tr2 /\ zsum tr1 = zsum tr2 /\ tr1 <> tr2 /\
    common_blockdim_u (odedup [d1; d2]) = Proceed r /\
    (forall pick, coarse_blockdim_u pick (odedup [d1; d2]) = Proceed r) /\
    validate_rechunk [d1] [r] = Proceed tt /\ validate_rechunk [d2] [r] = Proceed tt.
Proof.
  exists [None; None], [None; None], [2; 1], [1; 2], [None; None].
  split; [apply known_sound_b_spec; reflexivity|]. split; [apply known_sound_b_spec; reflexivity|].
  split; [reflexivity|]. split; [discriminate|].
  split; [vm_compute; reflexivity|]. split; [intros pick; vm_compute; reflexivity|].
  split; vm_compute; reflexivity.
Qed.
