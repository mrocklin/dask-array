(* Facts about the definitions of PyBase.v: range_len and zrange, sums and prefix sums, the boolean equalities. *)
From DA Require Import PyBase.
From DA Require Export ListFacts.
From Coq Require Import ZifyBool.

(* ZifyBool's own post hook destructs every boolean of the context before lia runs (2^k calls
   for k booleans); its instances alone let lia read the comparisons.  No file below this one
   requires ZifyBool again: that would switch the hook back on. *)
Ltac Zify.zify_post_hook ::= idtac.
Open Scope Z_scope.

(* destruct one boolean test / option match occurring in the goal *)
Ltac break_if :=
  match goal with
  | |- context [if ?c then _ else _] =>
      let E := fresh "E" in destruct c eqn:E
  | |- context [match ?c with Some _ => _ | None => _ end] =>
      let E := fresh "E" in destruct c eqn:E
  end.

Lemma mod0_divide x p : 0 < p -> (x mod p = 0 <-> (p | x)).
Proof. intros Hp. apply Z.mod_divide. lia. Qed.

Lemma range_len_nonneg a b k : 0 <= range_len a b k.
Proof.
  unfold range_len. destruct (k >? 0) eqn:Ek.
  - destruct (a <? b) eqn:E; [|lia]. pose proof (Z_div_nonneg_nonneg (b - a - 1) k). lia.
  - destruct (b <? a) eqn:E; [|lia]. pose proof (Z_div_nonneg_nonneg (a - b - 1) (- k)). lia.
Qed.

Lemma range_len_pos_step a b k : 0 < k -> range_len a b k = if a <? b then (b - a - 1) / k + 1 else 0.
Proof. intros. unfold range_len. destruct (k >? 0) eqn:E; [reflexivity | lia]. Qed.

Lemma range_len_neg_step a b k : k < 0 -> range_len a b k = if b <? a then (a - b - 1) / (- k) + 1 else 0.
Proof. intros. unfold range_len. destruct (k >? 0) eqn:E; [lia | reflexivity]. Qed.

Lemma range_len_empty_pos a b k : 0 < k -> b <= a -> range_len a b k = 0.
Proof. intros. rewrite range_len_pos_step by lia. destruct (a <? b) eqn:E; lia. Qed.

Lemma range_len_empty_neg a b k : k < 0 -> a <= b -> range_len a b k = 0.
Proof. intros. rewrite range_len_neg_step by lia. destruct (b <? a) eqn:E; lia. Qed.

Lemma zrange_empty a b k : range_len a b k = 0 -> zrange a b k = [].
Proof. intros H. unfold zrange. rewrite H. reflexivity. Qed.

Lemma zrange_length a b k : Z.of_nat (length (zrange a b k)) = range_len a b k.
Proof.
  unfold zrange. rewrite map_length, seq_length.
  pose proof (range_len_nonneg a b k). lia.
Qed.

Lemma zrange_nth a b k (i : nat) d :
  (Z.of_nat i < range_len a b k) -> nth i (zrange a b k) d = a + Z.of_nat i * k.
Proof.
  intros H. unfold zrange.
  set (f := fun j : nat => a + Z.of_nat j * k).
  rewrite (nth_indep _ d (f 0%nat)) by (rewrite map_length, seq_length; lia).
  rewrite (map_nth f). rewrite seq_nth by lia. reflexivity.
Qed.

Lemma zrange_ext a b b' k : range_len a b k = range_len a b' k -> zrange a b k = zrange a b' k.
Proof. intros H. unfold zrange. rewrite H. reflexivity. Qed.

Lemma zrange_cons a b k :
  0 < range_len a b k ->
  zrange a b k = a :: map (fun x => x + k) (map (fun i => a + Z.of_nat i * k) (seq 0 (Z.to_nat (range_len a b k - 1)))).
Proof.
  intros H. unfold zrange.
  replace (Z.to_nat (range_len a b k)) with (S (Z.to_nat (range_len a b k - 1))) by lia.
  cbn [seq map]. f_equal; [lia|].
  rewrite <- seq_shift. rewrite !map_map. apply map_ext. intros i. lia.
Qed.

(* the last element lies before the stop, one more step reaches it (step of either sign) *)
Lemma range_len_pos_last a b k : 0 < k -> a < b -> a + (range_len a b k - 1) * k < b.
Proof. intros. rewrite range_len_pos_step by lia. destruct (a <? b) eqn:E; [|lia]. Z.to_euclidean_division_equations; nia. Qed.

Lemma range_len_pos_next a b k : 0 < k -> a < b -> b <= a + range_len a b k * k.
Proof. intros. rewrite range_len_pos_step by lia. destruct (a <? b) eqn:E; [|lia]. Z.to_euclidean_division_equations; nia. Qed.

Lemma range_len_neg_last a b k : k < 0 -> b < a -> b < a + (range_len a b k - 1) * k.
Proof. intros. rewrite range_len_neg_step by lia. destruct (b <? a) eqn:E; [|lia]. Z.to_euclidean_division_equations; nia. Qed.

Lemma range_len_neg_next a b k : k < 0 -> b < a -> a + range_len a b k * k <= b.
Proof. intros. rewrite range_len_neg_step by lia. destruct (b <? a) eqn:E; [|lia]. Z.to_euclidean_division_equations; nia. Qed.

(* range_len is characterised by these two inequalities *)
Lemma range_len_pos_unique a b k m :
  0 < k -> 0 <= m -> (m = 0 -> b <= a) -> (0 < m -> a + (m - 1) * k < b) -> b <= a + m * k ->
  range_len a b k = m.
Proof.
  intros Hk Hm H0 H1 H2. rewrite range_len_pos_step by lia.
  destruct (a <? b) eqn:E.
  - assert (0 < m) by nia. specialize (H1 H). Z.to_euclidean_division_equations. nia.
  - assert (m = 0 \/ 0 < m) as [->|Hp] by lia; [reflexivity|]. specialize (H1 Hp). Z.to_euclidean_division_equations. nia.
Qed.

Lemma range_len_neg_unique a b k m :
  k < 0 -> 0 <= m -> (m = 0 -> a <= b) -> (0 < m -> b < a + (m - 1) * k) -> a + m * k <= b ->
  range_len a b k = m.
Proof.
  intros Hk Hm H0 H1 H2. rewrite range_len_neg_step by lia.
  destruct (b <? a) eqn:E.
  - assert (0 < m) by nia. specialize (H1 H). Z.to_euclidean_division_equations. nia.
  - assert (m = 0 \/ 0 < m) as [->|Hp] by lia; [reflexivity|]. specialize (H1 Hp). Z.to_euclidean_division_equations. nia.
Qed.

(* splitting a range: first m elements, then the rest *)
Lemma zrange_split_count a b k (m : Z) :
  0 <= m <= range_len a b k ->
  zrange a b k =
    map (fun i => a + Z.of_nat i * k) (seq 0 (Z.to_nat m)) ++
    map (fun i => (a + m * k) + Z.of_nat i * k) (seq 0 (Z.to_nat (range_len a b k - m))).
Proof.
  intros H. unfold zrange.
  replace (Z.to_nat (range_len a b k)) with (Z.to_nat m + Z.to_nat (range_len a b k - m))%nat by lia.
  rewrite seq_app, map_app. f_equal.
  rewrite seq_shift_add, map_map. apply map_ext. intros i. rewrite Nat2Z.inj_add, Z2Nat.id by lia. ring.
Qed.

Lemma zrange_NoDup a b k : k <> 0 -> NoDup (zrange a b k).
Proof. intros Hk. unfold zrange. apply NoDup_map_inj; [|apply seq_NoDup]. intros i j H. nia. Qed.

(* unit step *)
Lemma range_len_unit a b : range_len a b 1 = Z.max (b - a) 0.
Proof. unfold range_len. cbn [Z.gtb Z.compare]. rewrite Z.div_1_r. destruct (a <? b) eqn:E; lia. Qed.

Lemma zrange_unit_In a b x : In x (zrange a b 1) <-> a <= x < b.
Proof.
  unfold zrange. rewrite range_len_unit, in_map_iff. split.
  - intros (i & <- & Hi). apply in_seq in Hi. lia.
  - intros H. exists (Z.to_nat (x - a)). split; [lia|]. apply in_seq. lia.
Qed.

(* sums, prefix sums *)
Lemma cumsum_from_length acc l : length (cumsum_from acc l) = length l.
Proof. revert acc. induction l as [|x t IH]; intros acc; cbn; [reflexivity|]. rewrite IH. reflexivity. Qed.

Lemma zsum_app l1 l2 : zsum (l1 ++ l2) = zsum l1 + zsum l2.
Proof. induction l1 as [|x t IH]; cbn [zsum app]; lia. Qed.

Lemma zsum_snoc l x : zsum (l ++ [x]) = zsum l + x.
Proof. rewrite zsum_app. cbn [zsum]. lia. Qed.

Lemma zsum_repeat c k : zsum (repeat c k) = Z.of_nat k * c.
Proof. induction k as [|k IH]; cbn [repeat zsum]; lia. Qed.

Lemma zsum_concat l : zsum (concat l) = zsum (map zsum l).
Proof. induction l as [|x l IH]; cbn [concat map zsum]; [reflexivity|]. rewrite zsum_app, IH. reflexivity. Qed.

Lemma length_concat_z {A} (ds : list (list A)) :
  zsum (map (fun d => Z.of_nat (length d)) ds) = Z.of_nat (length (concat ds)).
Proof. induction ds as [|d t IH]; [reflexivity|]. cbn [map zsum concat]. rewrite app_length, IH. lia. Qed.

Lemma zsum_filter_nonzero l : zsum (filter (fun c => negb (c =? 0)) l) = zsum l.
Proof.
  induction l as [|x t IH]; [reflexivity|]. cbn [filter zsum].
  destruct (x =? 0) eqn:E; cbn [negb zsum]; lia.
Qed.

Lemma zsum_firstn_S cs : forall k, (k < length cs)%nat -> zsum (firstn (S k) cs) = zsum (firstn k cs) + nth k cs 0.
Proof.
  induction cs as [|x t IH]; intros k Hk; cbn [length] in Hk; [lia|].
  destruct k as [|k]; [cbn [firstn zsum nth]; lia|].
  change (x + zsum (firstn (S k) t) = x + zsum (firstn k t) + nth k t 0). rewrite IH by lia. lia.
Qed.

(* the i-th boundary of the layout l laid out from acc *)
Lemma cumsum_from_nth : forall l acc i,
  (i <= length l)%nat -> nth i (acc :: cumsum_from acc l) 0 = acc + zsum (firstn i l).
Proof.
  induction l as [|x t IH]; intros acc [|i] Hi; cbn [length] in Hi; try lia;
    cbn [cumsum_from firstn zsum nth]; try lia.
  change (nth i (acc + x :: cumsum_from (acc + x) t) 0 = acc + (x + zsum (firstn i t))).
  rewrite IH by lia. lia.
Qed.

(* non-negative entries *)
Lemma zsum_nonneg l : Forall (fun c => 0 <= c) l -> 0 <= zsum l.
Proof. induction 1; cbn [zsum]; lia. Qed.

Lemma Forall_pos_nonneg cs : Forall (fun c => 0 < c) cs -> Forall (fun c => 0 <= c) cs.
Proof. apply Forall_impl. intros c Hc. lia. Qed.

Lemma nth_nonneg l i : Forall (fun c => 0 <= c) l -> 0 <= nth i l 0.
Proof.
  intros H. destruct (nth_in_or_default i l 0) as [Hin | ->]; [|lia].
  rewrite Forall_forall in H. exact (H _ Hin).
Qed.

Lemma nthZ_nonneg l i : Forall (fun c => 0 <= c) l -> 0 <= nthZ l i.
Proof. apply nth_nonneg. Qed.

Lemma fold_max_nonneg l : 0 <= fold_right Z.max 0 l.
Proof. induction l as [|x l IH]; cbn [fold_right]; lia. Qed.

Lemma all_nonneg_iff l : all_nonneg l = true <-> Forall (fun c => 0 <= c) l.
Proof.
  unfold all_nonneg. rewrite forallb_forall, Forall_forall.
  split; intros H x Hx; specialize (H x Hx); lia.
Qed.

Lemma valid_chunks_b_iff cs n : valid_chunks_b cs n = true <-> valid_chunks cs n.
Proof. unfold valid_chunks_b, valid_chunks. rewrite andb_true_iff, all_nonneg_iff, Z.eqb_eq. reflexivity. Qed.

(* boolean equalities *)
Lemma list_eqb_eq {A} (eqb : A -> A -> bool) :
  (forall x y, eqb x y = true <-> x = y) ->
  forall a b, list_eqb eqb a b = true <-> a = b.
Proof.
  intros He. induction a as [|x a IH]; intros [|y b]; cbn [list_eqb]; try (split; [discriminate | congruence]).
  - split; reflexivity.
  - rewrite andb_true_iff, He, IH. split; [intros [-> ->]; reflexivity | intros H; injection H; tauto].
Qed.

Lemma zlist_eqb_eq a b : zlist_eqb a b = true <-> a = b.
Proof. apply list_eqb_eq, Z.eqb_eq. Qed.

Lemma zlist2_eqb_eq a b : zlist2_eqb a b = true <-> a = b.
Proof. apply list_eqb_eq, zlist_eqb_eq. Qed.

Lemma oZ_eqb_eq a b : oZ_eqb a b = true <-> a = b.
Proof.
  destruct a, b; cbn; split; intros H; try discriminate; try reflexivity.
  - apply Z.eqb_eq in H. congruence.
  - injection H as ->. apply Z.eqb_refl.
Qed.

Lemma pslice_eqb_eq a b : pslice_eqb a b = true <-> a = b.
Proof.
  destruct a as [a1 a2 a3], b as [b1 b2 b3]. unfold pslice_eqb. cbn.
  rewrite !andb_true_iff, !oZ_eqb_eq. split.
  - intros [[-> ->] ->]. reflexivity.
  - intros H. injection H as -> -> ->. auto.
Qed.
