(* Soundness of the crosswalk checker crosswalk_ok with respect to a
   Prop-level specification in terms of element positions. *)
From DA Require Import PyBase PyBaseFacts Rechunk RechunkBase.
Open Scope Z_scope.

(* the integers lo, lo+1, ..., hi-1 *)
Definition seqZ (lo hi : Z) : list Z := map (fun k => lo + Z.of_nat k) (seq 0 (Z.to_nat (hi - lo))).

(* start position of block j of a chunking (independent of the model's cum0) *)
Definition cum (l : list Z) (j : nat) : Z := zsum (firstn j l).

(* the global positions covered by piece (i, a, b): slice [a, b) of old block i *)
Definition piece_positions (old : list Z) (p : Z * Z * Z) : list Z :=
  let '(i, a, b) := p in seqZ (cum old (Z.to_nat i) + a) (cum old (Z.to_nat i) + b).

Definition piece_in_bounds (old : list Z) (p : Z * Z * Z) : Prop :=
  let '(i, a, b) := p in 0 <= i < Z.of_nat (length old) /\ 0 <= a /\ a <= b /\ b <= nthZ old i.

Lemma seqZ_nil lo : seqZ lo lo = [].
Proof. unfold seqZ. rewrite Z.sub_diag. reflexivity. Qed.

Lemma seqZ_app lo mid hi : lo <= mid -> mid <= hi -> seqZ lo mid ++ seqZ mid hi = seqZ lo hi.
Proof.
  intros H1 H2. unfold seqZ.
  replace (Z.to_nat (hi - lo)) with (Z.to_nat (mid - lo) + Z.to_nat (hi - mid))%nat by lia.
  rewrite seq_app, map_app. f_equal.
  rewrite seq_shift_add, map_map. apply map_ext. intros k. lia.
Qed.

Lemma seqZ_length lo hi : lo <= hi -> Z.of_nat (length (seqZ lo hi)) = hi - lo.
Proof. intros H. unfold seqZ. rewrite map_length, seq_length. lia. Qed.

Lemma In_seqZ lo hi x : In x (seqZ lo hi) <-> lo <= x < hi.
Proof.
  unfold seqZ. rewrite in_map_iff. split.
  - intros (k & <- & Hk). apply in_seq in Hk. lia.
  - intros H. exists (Z.to_nat (x - lo)). split; [lia|]. apply in_seq. lia.
Qed.

Lemma cum0_nthZ old i : 0 <= i <= Z.of_nat (length old) -> nthZ (cum0 old) i = cum old (Z.to_nat i).
Proof.
  intros Hi. unfold nthZ, cum0, cumsum, cum. rewrite cumsum_from_nth by lia. lia.
Qed.

(* the block that follows the prefix od: where it starts, and its size *)
Lemma nthZ_app_middle od co oc' :
  nthZ (cum0 (od ++ co :: oc')) (Z.of_nat (length od)) = zsum od /\
  nthZ (od ++ co :: oc') (Z.of_nat (length od)) = co.
Proof.
  split.
  - rewrite cum0_nthZ by (rewrite app_length; cbn [length]; lia).
    unfold cum. rewrite Nat2Z.id, firstn_app, Nat.sub_diag, firstn_all. cbn [firstn].
    rewrite app_nil_r. reflexivity.
  - unfold nthZ. rewrite Nat2Z.id. apply nth_middle.
Qed.

Lemma cum_S l : forall j c, nth_error l j = Some c -> cum l (S j) = cum l j + c.
Proof.
  unfold cum. induction l as [|x t IH]; intros [|j] c H; cbn [nth_error] in H; try discriminate.
  - injection H as <-. cbn [firstn zsum]. lia.
  - change (x + zsum (firstn (S j) t) = x + zsum (firstn j t) + c). rewrite (IH j c H). lia.
Qed.

Lemma pieces_tile_sound old : forall pieces pos hi,
  pieces_tile (cum0 old) old pieces pos hi = true ->
  pos <= hi /\ Forall (piece_in_bounds old) pieces /\
  concat (map (piece_positions old) pieces) = seqZ pos hi.
Proof.
  induction pieces as [|[[i a] b] t IH]; intros pos hi H; cbn [pieces_tile] in H.
  - apply Z.eqb_eq in H. subst hi. split; [lia|]. split; [constructor|]. rewrite seqZ_nil. reflexivity.
  - rewrite !andb_true_iff in H. destruct H as [[[[[[Hi0 Hi1] Ha] Hab] Hb] Hpos] Ht].
    apply IH in Ht. destruct Ht as (Hle & Hbd & Hcat).
    unfold lenZ' in *.
    rewrite cum0_nthZ in * by lia.
    split; [lia|]. split.
    + constructor; [|exact Hbd]. cbn. lia.
    + cbn [map concat piece_positions]. rewrite Hcat.
      replace (cum old (Z.to_nat i) + a) with pos by lia.
      apply seqZ_app; lia.
Qed.

(* block j of an accepted crosswalk tiles [cum new j, cum new (j+1)), shifted by pos *)
Lemma crosswalk_ok_from_tiles old : forall new cw pos,
  crosswalk_ok_from (cum0 old) old new cw pos = true ->
  length cw = length new /\
  forall j ps, nth_error cw j = Some ps ->
    ps <> [] /\ exists c, nth_error new j = Some c /\
    pieces_tile (cum0 old) old ps (pos + cum new j) (pos + cum new (S j)) = true.
Proof.
  induction new as [|c new IH]; intros [|ps0 cw] pos H; cbn [crosswalk_ok_from] in H; try discriminate.
  - split; [reflexivity|]. intros [|j] ps Hj; discriminate.
  - apply andb_true_iff in H. destruct H as [H H3]. apply andb_true_iff in H. destruct H as [H1 H2].
    destruct (IH cw (pos + c) H3) as [Hlen Hrest]. split; [cbn [length]; congruence|].
    intros [|j] ps Hj; cbn [nth_error] in *.
    + injection Hj as <-. split; [destruct ps0; [discriminate|congruence]|]. exists c. split; [reflexivity|].
      unfold cum. cbn [firstn zsum]. rewrite !Z.add_0_r. exact H2.
    + destruct (Hrest j ps Hj) as (Hne & c' & Hc' & Ht). split; [exact Hne|]. exists c'. split; [exact Hc'|].
      unfold cum in *. cbn [firstn zsum]. rewrite !Z.add_assoc. exact Ht.
Qed.

(* A crosswalk accepted by the checker gives, for every new block j, a
   non-empty list of in-bounds pieces of old blocks whose positions,
   concatenated in order, are exactly the positions of new block j. *)
Theorem crosswalk_sound old new cw :
  crosswalk_ok old new cw = true ->
  length cw = length new /\
  forall j pieces, nth_error cw j = Some pieces ->
    pieces <> [] /\
    Forall (piece_in_bounds old) pieces /\
    concat (map (piece_positions old) pieces) = seqZ (cum new j) (cum new (S j)).
Proof.
  unfold crosswalk_ok. intros H. apply crosswalk_ok_from_tiles in H. destruct H as [Hlen H].
  split; [exact Hlen|]. intros j pieces Hp. destruct (H j pieces Hp) as (Hne & _ & _ & Ht).
  apply pieces_tile_sound in Ht. rewrite !Z.add_0_l in Ht. tauto.
Qed.

(* every position of a piece really lies inside its old block
   [cum old i, cum old (i+1)) and inside new block j *)
Corollary crosswalk_piece_inside old new cw j pieces i a b x :
  crosswalk_ok old new cw = true ->
  nth_error cw j = Some pieces -> In (i, a, b) pieces -> In x (piece_positions old (i, a, b)) ->
  cum old (Z.to_nat i) <= x < cum old (S (Z.to_nat i)) /\ cum new j <= x < cum new (S j).
Proof.
  intros H Hp Hin Hx. apply crosswalk_sound in H. destruct H as [_ H].
  destruct (H j pieces Hp) as (_ & Hb & Hcat). split.
  - rewrite Forall_forall in Hb. specialize (Hb _ Hin). cbn in Hb, Hx. apply In_seqZ in Hx.
    assert (Z.to_nat i < length old)%nat as Hi by lia.
    destruct (nth_error old (Z.to_nat i)) as [c|] eqn:En; [|apply nth_error_None in En; lia].
    rewrite (cum_S old _ c En). unfold nthZ in Hb. rewrite (nth_error_nth _ _ _ En) in Hb. lia.
  - apply In_seqZ. rewrite <- Hcat. apply in_concat. exists (piece_positions old (i, a, b)).
    split; [|exact Hx]. apply in_map. exact Hin.
Qed.

Example crosswalk_sound_hyps_sat :
  crosswalk_ok [10;10;10;10;10] [25;5;20]
    [[(0,0,10);(1,0,10);(2,0,5)]; [(2,5,10)]; [(3,0,10);(4,0,10)]] = true.
Proof. vm_compute. reflexivity. Qed.
