(* Every step of a plan returned by plan_rechunk is within the block-size
   budget max(bsl / itemsize, largest old block, largest new block). *)
From DA Require Import PyBase PyBaseFacts Rechunk RechunkBase.
Open Scope Z_scope.

(* cs fits the rational limit lnum / lden *)
Definition fits (lnum lden : Z) (cs : chunksN) : Prop := largest_block_size cs * lden <= lnum.

(* find_merge_rechunk only returns when its two final assertions hold *)
Lemma find_merge_fits order old new lnum lden chunks hit :
  find_merge_rechunk order old new lnum lden = Some (chunks, hit) -> fits lnum lden chunks.
Proof.
  unfold find_merge_rechunk. intros H.
  destruct (negb _); [discriminate|].
  destruct (fm_loop _ _ _ _ _ _ _ _) as [[[c l] h]|]; [|discriminate].
  destruct ((l =? largest_block_size c) && (l * lden <=? lnum)) eqn:E; [|discriminate].
  injection H as <- <-. apply andb_true_iff in E. destruct E as [E1 E2].
  apply Z.eqb_eq in E1. apply Z.leb_le in E2. unfold fits. rewrite <- E1. exact E2.
Qed.

Lemma within_budget_iff old new itemsize bsl plan :
  plan_within_budget old new itemsize bsl plan = true <->
  Forall (fits (budget_num old new itemsize bsl) itemsize) plan.
Proof.
  unfold plan_within_budget, budget_num, fits. rewrite forallb_forall, Forall_forall.
  split; intros H x Hx; specialize (H x Hx); lia.
Qed.

(* an intermediate of bound_degree that is capped by its end points fits when
   the end points fit *)
Lemma fits_capped lnum lden a b inter :
  0 < lden -> fits lnum lden a -> fits lnum lden b ->
  largest_block_size inter <= Z.max (largest_block_size a) (largest_block_size b) ->
  fits lnum lden inter.
Proof. unfold fits. intros. nia. Qed.

Theorem plan_budget_any_rank :
  forall orders oracle old new itemsize threshold bsl degree_limit plan,
    0 < itemsize ->
    plan_rechunk orders oracle old new itemsize threshold bsl degree_limit = Some plan ->
    plan_within_budget old new itemsize bsl plan = true.
Proof.
  intros orders oracle old new itemsize threshold bsl degree_limit plan Hi H.
  apply within_budget_iff. set (fit := fits (budget_num old new itemsize bsl) itemsize).
  assert (fit old /\ fit new) as [Hold Hnew] by (unfold fit, fits, budget_num; lia).
  (* nothing has to be known of the chunkings find_split_rechunk makes: the invariant is True *)
  apply (plan_rechunk_forall (fun _ => True) fit) in H; [apply H|auto| | |exact I|exact Hold|exact Hnew].
  - (* find_merge_rechunk asserts the limit itself *)
    intros order c0 chunks hit _ Hm. split; [exact I|exact (find_merge_fits _ _ _ _ _ _ _ Hm)].
  - (* the capped intermediates of bound_degree *)
    intros a b inter cs cs' Ha Hb _ Hcap. exact (fits_capped _ _ a b inter Hi Ha Hb Hcap).
Qed.

Theorem plan_budget :
  forall orders oracle old new itemsize threshold bsl degree_limit plan,
    0 < itemsize ->
    plan_rechunk orders oracle old new itemsize threshold bsl degree_limit = Some plan ->
    (2 <= length new)%nat ->
    plan_within_budget old new itemsize bsl plan = true.
Proof. intros. eapply plan_budget_any_rank; eauto. Qed.

(* rank <= 1: size planning is skipped; the budget is the larger end point,
   whatever block_size_limit and itemsize are *)
Definition plan_within_endpoints (old new : chunksN) (plan : list chunksN) : bool :=
  forallb (fun cs => largest_block_size cs <=? Z.max (largest_block_size old) (largest_block_size new)) plan.

Theorem plan_budget_rank_le1 :
  forall orders oracle old new itemsize threshold bsl degree_limit plan,
    plan_rechunk orders oracle old new itemsize threshold bsl degree_limit = Some plan ->
    (length new <= 1)%nat ->
    plan_within_endpoints old new plan = true.
Proof.
  intros orders oracle old new itemsize threshold bsl degree_limit plan H Hr.
  unfold plan_rechunk in H.
  destruct (Nat.leb (length new) 1) eqn:E; [|apply Nat.leb_gt in E; lia].
  unfold plan_within_endpoints. apply forallb_forall, Forall_forall.
  refine (bound_all_forall
            (fun cs => largest_block_size cs <=? Z.max (largest_block_size old) (largest_block_size new) = true)
            _ _ _ _ _ _ _ _ H).
  - intros a b inter cs cs' Ha Hb _ Hcap. lia.
  - lia.
  - constructor; [lia|constructor].
Qed.

(* The hypotheses are satisfiable on a plan with two steps. *)
Definition ex_old : chunksN := [[1;1;1;1;1;1;1;1];[8]].
Definition ex_new : chunksN := [[8];[1;1;1;1;1;1;1;1]].
Definition ex_orders : list (list nat) := [[0%nat];[0%nat];[0%nat];[0%nat]].

(* size planning inserts one intermediate (budget 16 elements) *)
Example plan_budget_hyps_sat :
  0 < 1 /\ (2 <= length ex_new)%nat /\
  plan_rechunk ex_orders [] ex_old ex_new 1 1 16 100
  = Some [[[2;2;2;2];[8]]; ex_new].
Proof. split; [lia|]. split; [apply le_n|]. vm_compute. reflexivity. Qed.

(* size planning and degree bounding together: four steps *)
Example plan_budget_hyps_sat_degree :
  plan_rechunk ex_orders [3;4;2;2;4;3;2;2;1;1] ex_old ex_new 1 1 16 2
  = Some [[[2;2;2;2];[8]]; [[2;2;2;2];[4;4]]; [[4;4];[2;2;2;2]]; ex_new].
Proof. vm_compute. reflexivity. Qed.

(* rank 1: only degree bounding *)
Example plan_budget_rank_le1_hyps_sat :
  (length [[8]] <= 1)%nat /\
  plan_rechunk [] [3;4;2] [[1;1;1;1;1;1;1;1]] [[8]] 1 1 16 2 = Some [[[2;2;2;2]]; [[4;4]]; [[8]]].
Proof. split; [apply le_n | vm_compute; reflexivity]. Qed.
