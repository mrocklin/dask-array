(* Proofs about fuse_slice / _compose_slices (models in Slicing.v):
   composing two selections on one axis versus the fused slice. *)
From DA Require Import PyBase PyBaseFacts Slicing NormalizeFacts Slice1dBase.
Open Scope Z_scope.

(* Applying a second selection [js] to the list of positions [l] selected by
   a first one. *)
Definition pick (l js : list Z) : list Z := map (fun j => nth (Z.to_nat j) l 0) js.

Lemma list_eq_nth (l l' : list Z) :
  length l = length l' -> (forall i, (i < length l)%nat -> nth i l 0 = nth i l' 0) -> l = l'.
Proof. intros Hl Hn. apply (nth_ext l l' 0 0); assumption. Qed.

Lemma pick_length l js : length (pick l js) = length js.
Proof. unfold pick. apply map_length. Qed.

Lemma pick_nth l js i :
  (i < length js)%nat -> nth i (pick l js) 0 = nth (Z.to_nat (nth i js 0)) l 0.
Proof.
  intros H. unfold pick.
  set (f := fun j : Z => nth (Z.to_nat j) l 0).
  rewrite (nth_indep _ 0 (f 0)) by (rewrite map_length; exact H).
  rewrite (map_nth f). reflexivity.
Qed.

Lemma pick_zrange A B k C D j A' S K :
  range_len A' S K = range_len C D j ->
  (forall i, 0 <= i < range_len C D j -> 0 <= C + i * j < range_len A B k) ->
  (0 < range_len C D j -> A' = A + C * k) -> K = k * j ->
  pick (zrange A B k) (zrange C D j) = zrange A' S K.
Proof.
  intros Hlen Hin Hstart HK.
  apply list_eq_nth.
  - rewrite pick_length. apply Nat2Z.inj. rewrite !zrange_length. lia.
  - intros i Hi. rewrite pick_length in Hi.
    assert (Z.of_nat i < range_len C D j) as Hi' by (rewrite <- zrange_length; lia).
    rewrite pick_nth by exact Hi.
    rewrite (zrange_nth C D j i 0 Hi').
    specialize (Hin (Z.of_nat i) ltac:(lia)).
    rewrite zrange_nth by (rewrite Z2Nat.id; lia).
    rewrite zrange_nth by lia.
    rewrite Z2Nat.id by lia. rewrite Hstart by lia. subst K. ring.
Qed.

(* slice.indices clips the start to n as well; past a stop that is at most n this
   changes nothing *)
Lemma sel_nonneg s n :
  0 <= n -> 0 < step_of s ->
  (forall x, s_start s = Some x -> 0 <= x) -> (forall x, s_stop s = Some x -> 0 <= x) ->
  sel s n = zrange (start_or0 s) (clip_stop (s_stop s) n) (step_of s) /\
  slice_len s n = range_len (start_or0 s) (clip_stop (s_stop s) n) (step_of s).
Proof.
  intros Hn Hk Hs He. unfold sel, slice_len. rewrite (indices_nonneg s n Hn Hk Hs He).
  pose proof (clip_stop_le (s_stop s) n) as Hc.
  destruct (Z_le_gt_dec n (start_or0 s)) as [H|H].
  - rewrite Z.min_r, !zrange_empty, !range_len_empty_pos by (try apply range_len_empty_pos; lia).
    split; reflexivity.
  - rewrite Z.min_l by lia. split; reflexivity.
Qed.

(* The arithmetic of fusing: the i-th position of the second range is p = b + i*j; it
   is taken while p stays below the stop y and inside the first range, i.e. while
   a + p*k stays below B; the fused range a + k*b + i*(k*j) = a + p*k stops at the
   same i. *)
Lemma fuse_range_len a k b j B yo :
  0 < k -> 0 < j -> 0 <= b ->
  range_len (a + k * b) (match yo with None => B | Some y => Z.min B (a + k * y) end) (k * j)
  = range_len b (clip_stop yo (range_len a B k)) j.
Proof.
  intros Hk Hj Hb. apply range_len_pos_char; [lia | apply range_len_nonneg |].
  intros i Hi. rewrite range_len_pos_lt by assumption.
  assert (0 <= b + i * j) as Hp by nia.
  pose proof (range_len_pos_lt a B k _ Hk Hp) as Hm.
  unfold clip_stop. destruct yo as [y|]; [|lia].
  pose proof (Z.mul_lt_mono_pos_l k (b + i * j) y Hk). lia.
Qed.

Lemma pick_fused_ranges a k B b j yo :
  0 < k -> 0 < j -> 0 <= b ->
  pick (zrange a B k) (zrange b (clip_stop yo (range_len a B k)) j) =
  zrange (a + k * b) (match yo with None => B | Some y => Z.min B (a + k * y) end) (k * j).
Proof.
  intros Hk Hj Hb. apply pick_zrange.
  - apply fuse_range_len; assumption.
  - intros i Hi. rewrite range_len_pos_lt in Hi by lia.
    pose proof (clip_stop_le yo (range_len a B k)). nia.
  - intros _. ring.
  - reflexivity.
Qed.

Lemma nff_inv s a0 st k :
  normalize_slice_for_fusion s = Some (a0, st, k) ->
  a0 = start_or0 s /\ st = s_stop s /\ k = step_of s /\ 0 <= a0 /\ 0 <= k /\
  (forall x, s_start s = Some x -> 0 <= x) /\ (forall x, s_stop s = Some x -> 0 <= x).
Proof.
  unfold normalize_slice_for_fusion. fold (start_or0 s) (step_of s).
  destruct (_ || _ || _) eqn:E; [discriminate|]. intros [= <- <- <-].
  apply orb_false_iff in E as [E Estop]. apply orb_false_iff in E as [Estart Estep].
  repeat split; try lia; intros x Hx.
  - unfold start_or0 in Estart. rewrite Hx in Estart. lia.
  - rewrite Hx in Estop. lia.
Qed.

Theorem fuse_slice_ss_exact a b c n :
  0 <= n -> step_of a <> 0 -> step_of b <> 0 ->
  fuse_slice_ss a b = Some c ->
  pick (sel a n) (sel b (slice_len a n)) = sel c n.
Proof.
  intros Hn Hka Hkb H. unfold fuse_slice_ss in H.
  destruct (normalize_slice_for_fusion a) as [[[a0 ast] k]|] eqn:Ea; [|discriminate].
  destruct (normalize_slice_for_fusion b) as [[[b0 bst] j]|] eqn:Eb; [|discriminate].
  apply nff_inv in Ea as (Ha0 & Hast & Hk & Ha0n & Hk0 & Has & Hae).
  apply nff_inv in Eb as (Hb0 & Hbst & Hj & Hb0n & Hj0 & Hbs & Hbe).
  assert (0 < k) as Hkp by lia. assert (0 < j) as Hjp by lia.
  injection H as <-.
  destruct (sel_nonneg a n Hn) as [-> ->]; [lia | assumption | assumption |].
  rewrite <- Ha0, <- Hk, <- Hast.
  destruct (sel_nonneg b (range_len a0 (clip_stop ast n) k)) as [-> _];
    [apply range_len_nonneg | lia | assumption | assumption |].
  rewrite <- Hb0, <- Hj, <- Hbst, pick_fused_ranges by assumption.
  assert (0 <= k * b0) as Hkb0 by nia.
  assert (forall y, bst = Some y -> 0 <= k * y) as Hky.
  { intros y Hy. apply Z.mul_nonneg_nonneg; [lia | apply Hbe; congruence]. }
  rewrite <- Hast in Hae.
  (* sel_nonneg for the fused slice: its step is positive, its start and its stop are
     non-negative; then the two ranges are the same *)
  match goal with |- _ = sel ?c n => destruct (sel_nonneg c n Hn) as [-> _] end;
    unfold step_of, start_or0; cbn [s_start s_stop s_step].
  - destruct (k * j =? 1) eqn:Ekj; [lia | nia].
  - intros x [= <-]. lia.
  - intros x Hx. destruct ast as [x'|], bst as [y|]; try discriminate; injection Hx as <-;
      try specialize (Hky y eq_refl); try specialize (Hae x' eq_refl); lia.
  - f_equal; [|destruct (k * j =? 1) eqn:Ekj; lia]. unfold clip_stop. clear. destruct ast as [x|], bst as [y|]; lia.
Qed.

Theorem fuse_slice_si_exact a i p n :
  0 <= n -> step_of a <> 0 -> fuse_slice_si a i = Some p ->
  0 <= i < slice_len a n -> nth (Z.to_nat i) (sel a n) 0 = p.
Proof.
  intros Hn Hka H Hi. unfold fuse_slice_si in H.
  destruct (normalize_slice_for_fusion a) as [[[a0 ast] k]|] eqn:Ea; [|discriminate].
  apply nff_inv in Ea. destruct Ea as (Ha0 & Hast & Hk & Ha0n & Hk0 & Has & Hae).
  assert (0 < k) as Hkp by lia.
  destruct (i <? 0) eqn:Ei; [discriminate|]. injection H as <-.
  destruct (sel_nonneg a n Hn) as [Hs Hl]; [lia | assumption | assumption |].
  rewrite Hl in Hi. rewrite Hs, zrange_nth, Z2Nat.id by (rewrite ?Z2Nat.id; lia). congruence.
Qed.

Definition neg_field (o : option Z) : Prop := exists x, o = Some x /\ x < 0.
Definition has_negative (s : pslice) : Prop :=
  neg_field (s_start s) \/ neg_field (s_step s) \/ neg_field (s_stop s).

Definition neg_fieldb (o : option Z) : bool := match o with Some x => x <? 0 | None => false end.

Lemma neg_fieldb_iff o : neg_fieldb o = true <-> neg_field o.
Proof.
  unfold neg_field. destruct o as [z|]; cbn [neg_fieldb]; split.
  - intros H. exists z. split; [reflexivity|lia].
  - intros (x & Hx & Hlt). injection Hx as <-. lia.
  - discriminate.
  - intros (x & Hx & _). discriminate.
Qed.

Lemma nff_none_b s :
  normalize_slice_for_fusion s = None <->
  neg_fieldb (s_start s) || neg_fieldb (s_step s) || neg_fieldb (s_stop s) = true.
Proof.
  unfold normalize_slice_for_fusion.
  (* field by field the model's test is neg_fieldb: an absent start counts as 0, an absent step as 1 *)
  assert (forall o d, 0 <= d -> (match o with None => d | Some a => a end <? 0) = neg_fieldb o) as Hf
    by (intros [a|] d Hd; cbn [neg_fieldb]; [reflexivity | lia]).
  rewrite (Hf (s_start s) 0), (Hf (s_step s) 1) by lia. fold (neg_fieldb (s_stop s)).
  destruct (neg_fieldb (s_start s) || neg_fieldb (s_step s) || neg_fieldb (s_stop s)).
  - split; reflexivity.
  - split; discriminate.
Qed.

Lemma nff_none_iff s : normalize_slice_for_fusion s = None <-> has_negative s.
Proof.
  rewrite nff_none_b, !orb_true_iff, !neg_fieldb_iff. unfold has_negative. tauto.
Qed.

Theorem fuse_declines_iff a b :
  fuse_slice_ss a b = None <-> has_negative a \/ has_negative b.
Proof.
  rewrite <- !nff_none_iff. unfold fuse_slice_ss.
  destruct (normalize_slice_for_fusion a) as [[[a0 ast] k]|];
    [|split; [intros _; left; reflexivity | intros _; reflexivity]].
  destruct (normalize_slice_for_fusion b) as [[[b0 bst] j]|];
    [|split; [intros _; right; reflexivity | intros _; reflexivity]].
  split; [discriminate | intros [H|H]; discriminate].
Qed.

Lemma indices_unit s n :
  0 <= n -> (s_step s = None \/ s_step s = Some 1) ->
  exists A B, indices s n = (A, B, 1) /\ 0 <= A <= n /\ 0 <= B <= n.
Proof.
  intros Hn Hs.
  destruct (indices s n) as [[A B] k] eqn:Hi.
  pose proof (indices_bounds s n A B k Hn Hi) as (Hk & Hpos & _).
  assert (k = 1) as -> by (unfold step_of in Hk; destruct Hs as [Hs|Hs]; rewrite Hs in Hk; lia).
  exists A, B. split; [reflexivity|]. apply Hpos. lia.
Qed.

Lemma indices_inbounds a b n :
  0 <= a <= n -> 0 <= b <= n -> indices (mkslice (Some a) (Some b) None) n = (a, b, 1).
Proof. intros Ha Hb. apply (indices_opt_pos false false true); (lia || discriminate). Qed.

Theorem compose_slices_unit_exact outer inner n :
  0 <= n -> (s_step outer = None \/ s_step outer = Some 1) ->
  (s_step inner = None \/ s_step inner = Some 1) ->
  sel (compose_slices outer inner n) n = pick (sel outer n) (sel inner (slice_len outer n)).
Proof.
  intros Hn Ho Hi.
  destruct (indices_unit outer n Hn Ho) as (A & B & HO & HA & HB).
  unfold compose_slices, sel at 2, slice_len. rewrite HO.
  pose proof (range_len_nonneg A B 1) as Hm0.
  destruct (indices_unit inner _ Hm0 Hi) as (C & D & HI & HC & HD).
  unfold sel at 2. rewrite HI.
  cbn [negb Z.eqb Pos.eqb orb].
  rewrite range_len_unit in *.
  unfold sel. rewrite (indices_inbounds (A + C) (A + D) n) by lia.
  symmetry. apply pick_zrange.
  - rewrite !range_len_unit. lia.
  - intros i Hi'. rewrite !range_len_unit in *. lia.
  - intros _. lia.
  - reflexivity.
Qed.

Theorem compose_slices_general_refuted :
  exists outer inner n, 0 <= n /\
    sel (compose_slices outer inner n) n <> pick (sel outer n) (sel inner (slice_len outer n)).
Proof.
  exists (mkslice None None (Some (-1))), colon, 10. split; [lia|].
  vm_compute. discriminate.
Qed.

Lemma sel_colon n : 0 <= n -> sel colon n = zrange 0 n 1 /\ slice_len colon n = n.
Proof.
  intros Hn. unfold sel, slice_len, indices, adjust_endpoint, step_of, colon.
  cbn [s_start s_stop s_step Z.ltb Z.compare]. split; [reflexivity|].
  rewrite range_len_unit. lia.
Qed.

Theorem fuse_elem_none_colon b c :
  fuse_elem INone b = Some c <-> b = ISlice colon /\ c = INone.
Proof.
  split.
  - destruct b as [i|t|]; cbn [fuse_elem]; try discriminate.
    destruct (pslice_eqb t colon) eqn:E; [|discriminate].
    apply pslice_eqb_eq in E. subst t. intros H. injection H as <-. split; reflexivity.
  - intros [-> ->]. reflexivity.
Qed.

(* fuse_elem, one axis: [elem_spec a b c n] is the meaning of "c is the fusion of a then b"
   on an axis of length n. *)
Definition elem_spec (a b c : pidx) (n : Z) : Prop :=
  match a, b, c with
  | ISlice s, ISlice t, ISlice u => pick (sel s n) (sel t (slice_len s n)) = sel u n
  | ISlice s, IInt i, IInt p => 0 <= i < slice_len s n -> nth (Z.to_nat i) (sel s n) 0 = p
  | INone, ISlice t, INone =>
      (* np.newaxis makes an axis of length 1; [:] keeps it whole *)
      t = colon /\ sel t 1 = [0] /\ slice_len t 1 = 1
  | _, _, _ => False
  end.

Theorem fuse_elem_exact a b c n :
  0 <= n ->
  (forall s, a = ISlice s -> step_of s <> 0) ->
  (forall t, b = ISlice t -> step_of t <> 0) ->
  fuse_elem a b = Some c -> elem_spec a b c n.
Proof.
  intros Hn Hsa Hsb H.
  destruct a as [ia|s|], b as [ib|t|]; cbn [fuse_elem] in H; try discriminate.
  - destruct (fuse_slice_si s ib) as [p|] eqn:E; [|discriminate]. injection H as <-.
    cbn [elem_spec]. intros Hi.
    apply (fuse_slice_si_exact s ib p n Hn (Hsa s eq_refl) E Hi).
  - destruct (fuse_slice_ss s t) as [u|] eqn:E; [|discriminate]. injection H as <-.
    cbn [elem_spec].
    apply (fuse_slice_ss_exact s t u n Hn (Hsa s eq_refl) (Hsb t eq_refl) E).
  - apply (proj1 (fuse_elem_none_colon (ISlice t) c)) in H. destruct H as [Ht ->]. injection Ht as ->.
    cbn [elem_spec]. split; [reflexivity|]. split; reflexivity.
Qed.

(* fuse_tuple on equal-length tuples, every element of [a] a slice, no None in
   [b]: it is the element-wise fuse_elem. *)
Fixpoint fuse_zip (a b : list pidx) : option (list pidx) :=
  match a, b with
  | [], [] => Some []
  | x :: a', y :: b' =>
      match fuse_elem x y, fuse_zip a' b' with
      | Some c, Some r => Some (c :: r)
      | _, _ => None
      end
  | _, _ => None
  end.

Definition is_slice (x : pidx) : Prop := exists s, x = ISlice s.

Theorem fuse_tuple_zip a b :
  length a = length b -> Forall is_slice a -> Forall (fun y => y <> INone) b ->
  fuse_tuple a b = fuse_zip a b.
Proof.
  revert b. induction a as [|x a' IH]; intros b Hlen Ha Hb.
  - destruct b as [|y b']; [reflexivity|discriminate].
  - destruct b as [|y b']; [discriminate|].
    cbn [length] in Hlen. injection Hlen as Hlen.
    inversion Ha as [|x0 a0 [s Hx] Ha']; subst.
    inversion Hb as [|y0 b0 Hy Hb']; subst.
    cbn [fuse_tuple fuse_zip].
    destruct y as [i|t|]; [| |congruence]; cbn [length skip_nones app];
      rewrite (IH b' Hlen Ha' Hb'); reflexivity.
Qed.

(* A successful fusion has one result per axis, each satisfying elem_spec for its own
   axis length. *)
Theorem fuse_tuple_exact a b c ns :
  length a = length b -> Forall is_slice a -> Forall (fun y => y <> INone) b ->
  length ns = length a -> Forall (fun n => 0 <= n) ns ->
  Forall (fun x => forall s, x = ISlice s -> step_of s <> 0) a ->
  Forall (fun y => forall t, y = ISlice t -> step_of t <> 0) b ->
  fuse_tuple a b = Some c ->
  length c = length a /\
  forall i, (i < length a)%nat ->
    elem_spec (nth i a INone) (nth i b INone) (nth i c INone) (nth i ns 0).
Proof.
  intros Hlen Ha Hb Hnl Hns Hsa Hsb H. rewrite fuse_tuple_zip in H by assumption. clear Hlen Ha Hb.
  revert b c ns H Hnl Hns Hsa Hsb. induction a as [|x a' IH]; intros b c ns H Hlen Hns Hsa Hsb.
  - destruct b; [|discriminate]. injection H as <-. split; [reflexivity|].
    intros i Hi. cbn [length] in Hi. lia.
  - destruct b as [|y b']; [discriminate|]. cbn [fuse_zip] in H.
    destruct (fuse_elem x y) as [e|] eqn:Ee; [|discriminate].
    destruct (fuse_zip a' b') as [r|] eqn:Er; [|discriminate]. injection H as <-.
    destruct ns as [|n ns']; [discriminate|]. cbn [length] in Hlen. injection Hlen as Hlen.
    inversion Hns as [|n0 l0 Hn Hns']; subst.
    inversion Hsa as [|x0 l1 Hx Hsa']; subst.
    inversion Hsb as [|y0 l2 Hy Hsb']; subst.
    destruct (IH b' r ns' Er Hlen Hns' Hsa' Hsb') as [Hl Hall].
    split; [cbn [length]; congruence|].
    intros [|i] Hi; cbn [nth].
    + apply fuse_elem_exact; assumption.
    + apply Hall. cbn [length] in Hi. lia.
Qed.

Example fuse_slice_ss_exact_ex :
  let a := mkslice (Some 2) None (Some 3) in          (* 2::3 *)
  let b := mkslice (Some 1) (Some 4) (Some 2) in      (* 1:4:2 *)
  let c := mkslice (Some 5) (Some 14) (Some 6) in
  0 <= 20 /\ step_of a <> 0 /\ step_of b <> 0 /\ fuse_slice_ss a b = Some c /\
  sel a 20 = [2; 5; 8; 11; 14; 17] /\ sel b (slice_len a 20) = [1; 3] /\
  pick (sel a 20) (sel b (slice_len a 20)) = [5; 11] /\ sel c 20 = [5; 11].
Proof. vm_compute. repeat split; try discriminate; reflexivity. Qed.

(* the counterexample that forces the step hypotheses: b = 1:0:0 on a = [:] , n = 1 *)
Example fuse_slice_ss_step0_counterexample :
  let a := colon in let b := mkslice (Some 1) (Some 0) (Some 0) in
  exists c, fuse_slice_ss a b = Some c /\
            pick (sel a 1) (sel b (slice_len a 1)) <> sel c 1.
Proof. eexists. split; [vm_compute; reflexivity|]. vm_compute. discriminate. Qed.

Example fuse_slice_si_exact_ex :
  let a := mkslice (Some 2) None (Some 3) in
  0 <= 20 /\ step_of a <> 0 /\ fuse_slice_si a 4 = Some 14 /\ 0 <= 4 < slice_len a 20 /\
  nth (Z.to_nat 4) (sel a 20) 0 = 14.
Proof. vm_compute. repeat split; try discriminate; reflexivity. Qed.

Example fuse_slice_si_step0_counterexample :
  let a := mkslice (Some 2) (Some 0) (Some 0) in
  exists p, fuse_slice_si a 0 = Some p /\ 0 <= 0 < slice_len a 1 /\
            nth (Z.to_nat 0) (sel a 1) 0 <> p.
Proof. eexists. split; [vm_compute; reflexivity|]. vm_compute. repeat split; discriminate. Qed.

Example fuse_declines_ex :
  fuse_slice_ss (mkslice (Some (-2)) None None) colon = None /\
  has_negative (mkslice (Some (-2)) None None) /\
  fuse_slice_ss colon (mkslice None None (Some (-1))) = None /\
  ~ has_negative colon /\ ~ has_negative (mkslice (Some 2) (Some 7) (Some 3)).
Proof.
  split; [reflexivity|]. split; [left; exists (-2); split; [reflexivity|lia]|].
  split; [reflexivity|].
  split; intros [(x & Hx & Hlt)|[(x & Hx & Hlt)|(x & Hx & Hlt)]];
    cbn [s_start s_stop s_step colon] in Hx; try discriminate; injection Hx as <-; lia.
Qed.

Example compose_slices_unit_exact_ex :
  let outer := mkslice (Some (-8)) (Some 9) None in       (* -8:9 on n = 10 is 2:9 *)
  let inner := mkslice (Some 1) (Some (-2)) (Some 1) in   (* 1:-2 on length 7 is 1:5 *)
  0 <= 10 /\ (s_step outer = None \/ s_step outer = Some 1) /\
  (s_step inner = None \/ s_step inner = Some 1) /\
  compose_slices outer inner 10 = mkslice (Some 3) (Some 7) None /\
  sel (compose_slices outer inner 10) 10 = [3; 4; 5; 6] /\
  pick (sel outer 10) (sel inner (slice_len outer 10)) = [3; 4; 5; 6].
Proof.
  cbv zeta. split; [lia|]. split; [left; reflexivity|]. split; [right; reflexivity|].
  vm_compute. repeat split; reflexivity.
Qed.

Example fuse_tuple_exact_ex :
  let a := [ISlice (mkslice (Some 2) None (Some 3)); ISlice (mkslice (Some 1) (Some 9) None)] in
  let b := [ISlice (mkslice (Some 1) (Some 4) (Some 2)); IInt 3] in
  length a = length b /\ Forall is_slice a /\ Forall (fun y => y <> INone) b /\
  fuse_tuple a b = Some [ISlice (mkslice (Some 5) (Some 14) (Some 6)); IInt 4].
Proof.
  cbv zeta. split; [reflexivity|]. split; [|split].
  - repeat constructor; eexists; reflexivity.
  - repeat constructor; discriminate.
  - vm_compute. reflexivity.
Qed.

Print Assumptions fuse_slice_ss_exact.
Print Assumptions fuse_slice_si_exact.
Print Assumptions fuse_declines_iff.
Print Assumptions compose_slices_unit_exact.
Print Assumptions compose_slices_general_refuted.
Print Assumptions fuse_elem_none_colon.
Print Assumptions fuse_elem_exact.
Print Assumptions fuse_tuple_zip.
Print Assumptions fuse_tuple_exact.
