(* Arithmetic and list facts used by the proofs about _slice_1d (Slice1dFacts.v)
   and fuse_slice (FuseFacts.v): length, shifting and splitting of ranges, prefix
   sums of chunk lists, and what bisect on the cumulative sums computes. *)
From DA Require Import PyBase PyBaseFacts Slicing.
Open Scope Z_scope.

Definition nonneg (c : Z) : Prop := 0 <= c.

Lemma range_len_shift c a b k : range_len (c + a) (c + b) k = range_len a b k.
Proof.
  unfold range_len.
  replace (c + b - (c + a) - 1) with (b - a - 1) by ring.
  replace (c + a - (c + b) - 1) with (a - b - 1) by ring.
  assert ((c + a <? c + b) = (a <? b)) as -> by lia.
  assert ((c + b <? c + a) = (b <? a)) as -> by lia.
  reflexivity.
Qed.

Lemma zrange_shift c a b k : map (fun p => c + p) (zrange a b k) = zrange (c + a) (c + b) k.
Proof.
  unfold zrange. rewrite range_len_shift, map_map. apply map_ext. intros i. ring.
Qed.

Lemma zrange_eq a a' b b' k :
  a = a' -> range_len a b k = range_len a' b' k -> zrange a b k = zrange a' b' k.
Proof. intros <- H. apply zrange_ext. exact H. Qed.

Lemma zrange_nil_pos a b k : 0 < k -> b <= a -> zrange a b k = [].
Proof. intros. apply zrange_empty, range_len_empty_pos; assumption. Qed.

Lemma zrange_nil_neg a b k : k < 0 -> a <= b -> zrange a b k = [].
Proof. intros. apply zrange_empty, range_len_empty_neg; assumption. Qed.

Lemma zrange_In p a b k :
  In p (zrange a b k) -> exists i, 0 <= i < range_len a b k /\ p = a + i * k.
Proof.
  unfold zrange. intros H. apply in_map_iff in H as (i & Hp & Hi).
  apply in_seq in Hi. exists (Z.of_nat i). split; [lia | symmetry; exact Hp].
Qed.

(* With a positive step, i counts an element of range(a, b, k) exactly when
   a + i*k lies below b; this determines the length. *)
Lemma range_len_pos_lt a b k i : 0 < k -> 0 <= i -> i < range_len a b k <-> a + i * k < b.
Proof.
  intros Hk Hi. destruct (Z_lt_le_dec a b) as [Hab|Hab].
  - pose proof (range_len_pos_last a b k Hk Hab). pose proof (range_len_pos_next a b k Hk Hab).
    generalize dependent (range_len a b k). intros m. nia.
  - rewrite range_len_empty_pos by lia. nia.
Qed.

Lemma range_len_pos_char a b k m :
  0 < k -> 0 <= m -> (forall i, 0 <= i -> i < m <-> a + i * k < b) -> range_len a b k = m.
Proof.
  intros Hk Hm H. pose proof (range_len_nonneg a b k) as Hr.
  pose proof (H m Hm) as H1. pose proof (H _ Hr) as H2.
  rewrite <- range_len_pos_lt in H1, H2 by assumption. lia.
Qed.

(* A range with a negative step is the mirror image of one with a positive step. *)
Lemma range_len_opp a b k : k <> 0 -> range_len (- a) (- b) (- k) = range_len a b k.
Proof.
  intros Hk. unfold range_len. rewrite Z.opp_involutive.
  replace (- k >? 0) with (negb (k >? 0)) by lia.
  replace (- a <? - b) with (b <? a) by lia. replace (- b <? - a) with (a <? b) by lia.
  replace (- b - - a - 1) with (a - b - 1) by ring. replace (- a - - b - 1) with (b - a - 1) by ring.
  destruct (k >? 0); reflexivity.
Qed.

Lemma zrange_opp a b k : k <> 0 -> zrange a b k = map Z.opp (zrange (- a) (- b) (- k)).
Proof.
  intros Hk. unfold zrange. rewrite range_len_opp, map_map by exact Hk.
  apply map_ext. intros i. ring.
Qed.

Lemma range_len_pos_drop a b k m :
  0 < k -> 0 <= m <= range_len a b k -> range_len (a + m * k) b k = range_len a b k - m.
Proof.
  intros Hk Hm. apply range_len_pos_char; [exact Hk | lia |]. intros i Hi.
  rewrite <- Z.add_assoc, <- Z.mul_add_distr_r, <- range_len_pos_lt by lia. lia.
Qed.

Lemma range_len_pos_mono a b1 b k : 0 < k -> b1 <= b -> range_len a b1 k <= range_len a b k.
Proof.
  intros Hk Hb. pose proof (range_len_nonneg a b k) as H0.
  destruct (Z_le_gt_dec (range_len a b1 k) 0) as [Hz|Hp]; [lia|].
  assert (range_len a b1 k - 1 < range_len a b k); [|lia].
  pose proof (range_len_pos_lt a b1 k (range_len a b1 k - 1) Hk).
  apply range_len_pos_lt; lia.
Qed.

(* cutting a range at an earlier stop b1: the rest starts at the first element at or after b1 *)
Lemma zrange_split_stop a b b1 k :
  0 < k -> b1 <= b -> zrange a b k = zrange a b1 k ++ zrange (a + range_len a b1 k * k) b k.
Proof.
  intros Hk Hb. pose proof (range_len_nonneg a b1 k) as Hm. pose proof (range_len_pos_mono a b1 b k Hk Hb) as Hle.
  rewrite (zrange_split_count a b k (range_len a b1 k)) by lia.
  f_equal. unfold zrange at 1. rewrite range_len_pos_drop by lia. reflexivity.
Qed.

(* c + (a - c) mod k is the first element of range(a, oo, k) at or after c *)
Lemma range_first_from a c k : 0 < k -> a <= c -> c + (a - c) mod k = a + range_len a c k * k.
Proof.
  intros Hk Hac. pose proof (range_len_nonneg a c k) as Hm.
  pose proof (range_len_pos_lt a c k (range_len a c k) Hk Hm) as Hnext.
  assert (a + (range_len a c k - 1) * k < c) as Hlast.
  { destruct (Z.eq_dec (range_len a c k) 0) as [->|Hne]; [lia | apply range_len_pos_lt; lia]. }
  rewrite <- (Z.mod_unique_pos (a - c) k (- range_len a c k) (a + range_len a c k * k - c)); lia.
Qed.

(* the positive-step loop step: cut the range at a block end c *)
Lemma zrange_split_pos a b c k :
  0 < k -> a <= c ->
  zrange a b k = zrange a (Z.min b c) k ++ zrange (c + (a - c) mod k) b k.
Proof.
  intros Hk Hac. destruct (Z_le_gt_dec b c) as [Hbc|Hbc].
  - pose proof (Z.mod_pos_bound (a - c) k Hk).
    rewrite Z.min_l, (zrange_nil_pos (c + (a - c) mod k)), app_nil_r by lia. reflexivity.
  - rewrite Z.min_r, range_first_from by lia. apply zrange_split_stop; lia.
Qed.

(* the negative-step loop step, the mirror image: cut the range just below a block
   start (c1 = chunk_start - 1 is the last position outside the block) *)
Lemma zrange_split_neg a b c1 k :
  k < 0 -> c1 <= a ->
  zrange a b k = zrange a (Z.max b c1) k ++ zrange (c1 + (a - c1) mod k) b k.
Proof.
  intros Hk Hac.
  rewrite (zrange_opp a b), (zrange_split_pos (- a) (- b) (- c1) (- k)), map_app by lia.
  replace (Z.min (- b) (- c1)) with (- Z.max b c1) by lia.
  replace (- a - - c1) with (- (a - c1)) by ring. rewrite Z.mod_opp_opp by lia.
  replace (- c1 + - ((a - c1) mod k)) with (- (c1 + (a - c1) mod k)) by ring.
  rewrite <- !zrange_opp by lia. reflexivity.
Qed.

Lemma lenZ_nonneg {A} (l : list A) : 0 <= lenZ l.
Proof. unfold lenZ. lia. Qed.

Lemma lenZ_app {A} (l1 l2 : list A) : lenZ (l1 ++ l2) = lenZ l1 + lenZ l2.
Proof. unfold lenZ. rewrite app_length. lia. Qed.

Lemma lenZ_cons {A} (x : A) l : lenZ (x :: l) = lenZ l + 1.
Proof. unfold lenZ. cbn [length]. lia. Qed.

Lemma lenZ_map {A B} (f : A -> B) l : lenZ (map f l) = lenZ l.
Proof. unfold lenZ. rewrite map_length. reflexivity. Qed.

Lemma lenZ_0_nil {A} (l : list A) : lenZ l = 0 -> l = [].
Proof. unfold lenZ. destruct l; [reflexivity|cbn [length]; lia]. Qed.

Lemma zsum_map_length {A B} (f : A -> list B) (l : list A) :
  zsum (map (fun e => lenZ (f e)) l) = lenZ (concat (map f l)).
Proof. unfold lenZ. rewrite <- length_concat_z, map_map. reflexivity. Qed.

Lemma firstnZ_lenZ_app {A} (l1 l2 : list A) : firstnZ (lenZ l1) (l1 ++ l2) = l1.
Proof.
  unfold firstnZ, lenZ. rewrite Nat2Z.id.
  rewrite firstn_app, Nat.sub_diag, firstn_all. cbn [firstn]. apply app_nil_r.
Qed.

Lemma skipnZ_lenZ_app {A} (l1 l2 : list A) : skipnZ (lenZ l1) (l1 ++ l2) = l2.
Proof.
  unfold skipnZ, lenZ. rewrite Nat2Z.id, skipn_app, skipn_all, Nat.sub_diag. reflexivity.
Qed.

Lemma nthZ_lenZ_app (l1 l2 : list Z) x : nthZ (l1 ++ x :: l2) (lenZ l1) = x.
Proof. unfold nthZ, lenZ. rewrite Nat2Z.id. apply nth_middle. Qed.

Lemma split3 {A} (l : list A) (a m : nat) :
  l = firstn a l ++ firstn m (skipn a l) ++ skipn m (skipn a l).
Proof. rewrite firstn_skipn, firstn_skipn. reflexivity. Qed.

Lemma zsum_firstn_le ls :
  Forall nonneg ls -> forall a b, (a <= b)%nat -> zsum (firstn a ls) <= zsum (firstn b ls).
Proof.
  intros H a b Hab. replace b with (a + (b - a))%nat by lia. rewrite firstn_add, zsum_app.
  pose proof (zsum_nonneg _ (Forall_firstn _ (b - a) _ (Forall_skipn _ a _ H))). lia.
Qed.

Lemma zsum_firstnZ_le ls a b :
  Forall nonneg ls -> a <= b -> zsum (firstnZ a ls) <= zsum (firstnZ b ls).
Proof. intros H Hab. unfold firstnZ. apply zsum_firstn_le; [exact H | lia]. Qed.

Lemma zsum_firstnZ_all ls n : lenZ ls <= n -> zsum (firstnZ n ls) = zsum ls.
Proof. unfold lenZ, firstnZ. intros H. rewrite firstn_all2 by lia. reflexivity. Qed.

Lemma zsum_firstnZ_le_all ls a : Forall nonneg ls -> zsum (firstnZ a ls) <= zsum ls.
Proof.
  intros H. rewrite <- (zsum_firstnZ_all ls (Z.max a (lenZ ls))) by lia.
  apply zsum_firstnZ_le; [exact H | lia].
Qed.

Lemma zsum_firstnZ_0 ls a : a <= 0 -> zsum (firstnZ a ls) = 0.
Proof. intros H. unfold firstnZ. replace (Z.to_nat a) with 0%nat by lia. reflexivity. Qed.

Lemma zsum_firstnZ_succ l i :
  0 <= i < lenZ l -> zsum (firstnZ (i + 1) l) = zsum (firstnZ i l) + nthZ l i.
Proof.
  unfold lenZ, firstnZ, nthZ. intros H.
  replace (Z.to_nat (i + 1)) with (S (Z.to_nat i)) by lia.
  apply zsum_firstn_S. lia.
Qed.

Lemma zsum_firstnZ_add ls a m :
  0 <= a -> 0 <= m ->
  zsum (firstnZ (a + m) ls) = zsum (firstnZ a ls) + zsum (firstnZ m (skipnZ a ls)).
Proof.
  intros Ha Hm. unfold firstnZ, skipnZ.
  rewrite Z2Nat.inj_add by lia. rewrite firstn_add, zsum_app. reflexivity.
Qed.

Lemma zsum_firstnZ_add_le ls a m :
  Forall nonneg ls -> 0 <= a ->
  zsum (firstnZ (a + m) ls) <= zsum (firstnZ a ls) + zsum (firstnZ m (skipnZ a ls)).
Proof.
  intros H Ha. destruct (Z_le_gt_dec 0 m) as [Hm|Hm].
  - rewrite zsum_firstnZ_add by lia. lia.
  - rewrite (zsum_firstnZ_0 _ m) by lia. pose proof (zsum_firstnZ_le ls (a + m) a H). lia.
Qed.

Lemma nonneg_segment (pre ls post : list Z) : Forall nonneg (pre ++ ls ++ post) -> Forall nonneg ls.
Proof. intros H. apply Forall_app in H as [_ H]. apply Forall_app in H as [H _]. exact H. Qed.

(* one step along a segment of blocks: its first block joins the prefix *)
Lemma segment_step lengths pre len t post i :
  Forall nonneg lengths -> lengths = pre ++ (len :: t) ++ post -> i = lenZ pre ->
  lengths = (pre ++ [len]) ++ t ++ post /\ i + 1 = lenZ (pre ++ [len]) /\
  zsum (pre ++ [len]) = zsum pre + len /\ 0 <= len /\ Forall nonneg t.
Proof.
  intros Hnn -> ->. apply nonneg_segment in Hnn. inversion Hnn as [|x l Hlen Ht]; subst x l.
  rewrite <- app_assoc, lenZ_app, zsum_app. cbn [zsum].
  repeat split; try reflexivity; try assumption; lia.
Qed.

(* the same from the other end: the last block of the segment joins the suffix *)
Lemma segment_last lengths pre B x post i :
  lengths = pre ++ (B ++ [x]) ++ post -> i = lenZ pre ->
  lengths = pre ++ B ++ x :: post /\ lengths = (pre ++ B) ++ x :: post /\
  i + lenZ B = lenZ (pre ++ B) /\ zsum (pre ++ B) = zsum pre + zsum B.
Proof.
  intros -> ->. rewrite <- !app_assoc, lenZ_app, zsum_app. repeat split; reflexivity.
Qed.

Lemma lenZ_firstnZ {A} (l : list A) a : 0 <= a <= lenZ l -> lenZ (firstnZ a l) = a.
Proof. unfold lenZ, firstnZ. intros H. rewrite firstn_length. lia. Qed.

Lemma lenZ_firstnZ_le {A} (l : list A) m : lenZ (firstnZ m l) <= lenZ l.
Proof. unfold lenZ, firstnZ. rewrite firstn_length. lia. Qed.

Lemma lenZ_skipnZ {A} (l : list A) a : 0 <= a <= lenZ l -> lenZ (skipnZ a l) = lenZ l - a.
Proof. unfold lenZ, skipnZ. intros H. rewrite skipn_length. lia. Qed.

Lemma skipnZ_add {A} (l : list A) a b : 0 <= a -> 0 <= b -> skipnZ (a + b) l = skipnZ b (skipnZ a l).
Proof. intros Ha Hb. unfold skipnZ. rewrite Z2Nat.inj_add by lia. symmetry. apply skipn_skipn. Qed.

Lemma cumsum_nthZ ls j :
  0 < j <= lenZ ls -> nthZ (cumsum ls) (j - 1) = zsum (firstnZ j ls).
Proof.
  unfold lenZ, nthZ, cumsum, firstnZ. intros H.
  change (nth (Z.to_nat (j - 1)) (cumsum_from 0 ls) 0) with (nth (S (Z.to_nat (j - 1))) (0 :: cumsum_from 0 ls) 0).
  rewrite cumsum_from_nth by lia.
  replace (S (Z.to_nat (j - 1))) with (Z.to_nat j) by lia. lia.
Qed.

Lemma cumsum_lenZ ls : lenZ (cumsum ls) = lenZ ls.
Proof. unfold lenZ, cumsum. rewrite cumsum_from_length. reflexivity. Qed.

Lemma firstnZ_succ_cons {A} (x : A) t j : 0 <= j -> firstnZ (1 + j) (x :: t) = x :: firstnZ j t.
Proof.
  intros H. unfold firstnZ. replace (Z.to_nat (1 + j)) with (S (Z.to_nat j)) by lia. reflexivity.
Qed.

(* bisect_right on the block boundaries: j blocks end at or before v, the
   next one ends after v *)
Lemma bisect_right_cumsum ls : forall acc v,
  let j := bisect_right (cumsum_from acc ls) v in
  0 <= j <= lenZ ls /\
  (0 < j \/ acc <= v -> acc + zsum (firstnZ j ls) <= v) /\
  (j < lenZ ls -> v < acc + zsum (firstnZ (j + 1) ls)).
Proof.
  induction ls as [|x t IH]; intros acc v; cbn [cumsum_from bisect_right].
  - cbn. lia.
  - rewrite lenZ_cons. pose proof (lenZ_nonneg t). destruct (acc + x <=? v) eqn:E.
    + destruct (IH (acc + x) v) as (IH1 & IH2 & IH3).
      rewrite <- Z.add_assoc, !firstnZ_succ_cons by lia. cbn [zsum]. lia.
    + rewrite zsum_firstnZ_0 by lia. change (firstnZ (0 + 1) (x :: t)) with [x]. cbn [zsum]. lia.
Qed.

(* on integers, y < v is y <= v - 1 *)
Lemma bisect_left_right l v : bisect_left l v = bisect_right l (v - 1).
Proof.
  induction l as [|y t IH]; [reflexivity|]. cbn [bisect_left bisect_right]. rewrite IH.
  replace (y <=? v - 1) with (y <? v) by lia. reflexivity.
Qed.

Lemma bisect_left_cumsum ls : forall acc v,
  let j := bisect_left (cumsum_from acc ls) v in
  0 <= j <= lenZ ls /\
  (0 < j \/ acc < v -> acc + zsum (firstnZ j ls) < v) /\
  (j < lenZ ls -> v <= acc + zsum (firstnZ (j + 1) ls)).
Proof.
  intros acc v. rewrite bisect_left_right.
  pose proof (bisect_right_cumsum ls acc (v - 1)) as H. cbv zeta in *. lia.
Qed.

(* every prefix longer than bisect_right / bisect_left blocks reaches past v (resp. reaches v) *)
Lemma bisect_right_reach ls v m :
  Forall nonneg ls -> v < zsum ls ->
  bisect_right (cumsum ls) v < m \/ lenZ ls <= m -> v < zsum (firstnZ m ls).
Proof.
  intros Hnn Hv Hm. destruct (Z_lt_le_dec m (lenZ ls)) as [Hlt|Hge].
  - pose proof (bisect_right_cumsum ls 0 v) as (_ & _ & Hhi). fold (cumsum ls) in Hhi.
    pose proof (zsum_firstnZ_le ls (bisect_right (cumsum ls) v + 1) m Hnn). lia.
  - rewrite zsum_firstnZ_all by exact Hge. exact Hv.
Qed.

Lemma bisect_left_reach ls v m :
  Forall nonneg ls -> v <= zsum ls ->
  bisect_left (cumsum ls) v < m \/ lenZ ls <= m -> v <= zsum (firstnZ m ls).
Proof.
  intros Hnn Hv Hm. rewrite bisect_left_right in Hm.
  pose proof (bisect_right_reach ls (v - 1) m Hnn). lia.
Qed.
