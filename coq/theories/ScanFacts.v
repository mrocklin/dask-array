(* C19 — proofs about the cumulative-scan wirings of Scan.v *)
From DA Require Import PyBase PyBaseFacts Scan.
Open Scope Z_scope.

Section ScanFacts.
  Variable M : Type.
  Variable op : M -> M -> M.
  Variable e : M.
  Hypothesis op_assoc : forall a b c, op a (op b c) = op (op a b) c.
  Hypothesis op_e_l : forall a, op e a = a.
  Hypothesis op_e_r : forall a, op a e = a.

  Local Notation scan_from := (scan_from op).
  Local Notation scan := (scan op).
  Local Notation mtotal := (mtotal op e).
  Local Notation cum_tail := (cum_tail e).
  Local Notation bcast := (bcast op).

  Lemma scan_from_app acc l1 l2 :
    scan_from acc (l1 ++ l2) = scan_from acc l1 ++ scan_from (fold_left op l1 acc) l2.
  Proof.
    revert acc. induction l1 as [|x t IH]; intros acc; cbn [app Scan.scan_from fold_left]; [reflexivity|].
    rewrite IH. reflexivity.
  Qed.

  (* ufunc.accumulate: entry j is the reduction of the first j+1 values *)
  Lemma scan_from_as_map : forall l acc,
    scan_from acc l = map (fun j => fold_left op (firstn (S j) l) acc) (seq 0 (length l)).
  Proof.
    induction l as [|x t IH]; intros acc; [reflexivity|].
    cbn [Scan.scan_from length seq map]. f_equal. rewrite IH, <- seq_shift, map_map. reflexivity.
  Qed.

  Lemma map_op_scan_from a x t : map (op a) (scan_from x t) = scan_from (op a x) t.
  Proof.
    revert x. induction t as [|y t IH]; intros x; cbn [Scan.scan_from map]; [reflexivity|].
    rewrite IH, op_assoc. reflexivity.
  Qed.

  Lemma bcast_scan a b : bcast a (scan b) = scan_from a b.
  Proof.
    destruct b as [|x t]; [reflexivity|].
    unfold Scan.bcast. cbn [Scan.scan map Scan.scan_from]. rewrite map_op_scan_from. reflexivity.
  Qed.

  Lemma scan_from_e l : scan_from e l = scan l.
  Proof. destruct l as [|x t]; [reflexivity|]. cbn [Scan.scan_from Scan.scan]. rewrite op_e_l. reflexivity. Qed.

  Lemma last_scan_from d x t : last (x :: scan_from x t) d = fold_left op t x.
  Proof.
    revert x. induction t as [|y t IH]; intros x; [reflexivity|].
    cbn [Scan.scan_from fold_left]. rewrite <- IH. reflexivity.
  Qed.

  Lemma cum_tail_scan b : cum_tail (scan b) = mtotal b.
  Proof.
    destruct b as [|x t]; [reflexivity|].
    unfold Scan.cum_tail, Scan.mtotal. cbn [Scan.scan]. apply last_scan_from.
  Qed.

  Lemma fold_left_mtotal b a : fold_left op b a = op a (mtotal b).
  Proof.
    destruct b as [|x t]; cbn [fold_left Scan.mtotal]; [symmetry; apply op_e_r|].
    apply fold_left_op_out, op_assoc.
  Qed.

  Lemma seq_rest_concat : forall blocks extra prev,
    concat (seq_rest op e extra prev blocks) = scan_from (op extra (cum_tail prev)) (concat blocks).
  Proof.
    induction blocks as [|b t IH]; intros extra prev; [reflexivity|].
    cbn [Scan.seq_rest concat]. rewrite IH, bcast_scan, cum_tail_scan, scan_from_app.
    rewrite fold_left_mtotal. reflexivity.
  Qed.

  Theorem cum_sequential_correct blocks :
    concat (cum_sequential op e blocks) = scan (concat blocks).
  Proof.
    destruct blocks as [|b0 t]; [reflexivity|].
    cbn [Scan.cum_sequential concat]. rewrite seq_rest_concat, cum_tail_scan, op_e_l.
    destruct b0 as [|x t0].
    - cbn [Scan.scan Scan.mtotal app]. apply scan_from_e.
    - cbn [Scan.scan Scan.mtotal app]. rewrite scan_from_app. reflexivity.
  Qed.

  Lemma scan_from_length acc l : length (scan_from acc l) = length l.
  Proof. revert acc. induction l as [|x t IH]; intros acc; cbn; [reflexivity|]. rewrite IH. reflexivity. Qed.
  Lemma scan_length l : length (scan l) = length l.
  Proof. destruct l; cbn; [reflexivity|]. rewrite scan_from_length. reflexivity. Qed.

  Lemma seq_rest_lengths : forall blocks extra prev,
    map (@length M) (seq_rest op e extra prev blocks) = map (@length M) blocks.
  Proof.
    induction blocks as [|b t IH]; intros extra prev; [reflexivity|].
    cbn [Scan.seq_rest map]. rewrite IH. unfold Scan.bcast. rewrite map_length, scan_length. reflexivity.
  Qed.

  Theorem cum_sequential_lengths blocks :
    map (@length M) (cum_sequential op e blocks) = map (@length M) blocks.
  Proof.
    destruct blocks as [|b0 t]; [reflexivity|]. cbn [Scan.cum_sequential map].
    rewrite seq_rest_lengths, scan_length. reflexivity.
  Qed.

  (* C19_cumsum_sequential *)
  Theorem cum_sequential_spec blocks :
    concat (cum_sequential op e blocks) = scan (concat blocks) /\
    map (@length M) (cum_sequential op e blocks) = map (@length M) blocks.
  Proof. split; [apply cum_sequential_correct | apply cum_sequential_lengths]. Qed.

  Lemma combine_rest_seq_rest : forall t acc extra prev,
    op extra (cum_tail prev) = acc ->
    combine_rest op (acc :: scan_from acc (map mtotal (removelast t))) t = seq_rest op e extra prev t.
  Proof.
    induction t as [|b t IH]; intros acc extra prev Hacc; [reflexivity|].
    cbn [Scan.seq_rest]. rewrite Hacc.
    destruct t as [|b' t'].
    - reflexivity.
    - change (removelast (b :: b' :: t')) with (b :: removelast (b' :: t')).
      cbn [map Scan.scan_from Scan.combine_rest]. f_equal.
      apply IH. rewrite cum_tail_scan. reflexivity.
  Qed.

  (* if the two sweeps leave the inclusive scan of the block totals in prefix_vals, the
     Blelloch scheme produces block for block what the sequential scheme produces *)
  Lemma cum_blelloch_of_prefix blocks :
    (forall ts, blelloch_prefix op e ts = Some (scan ts)) ->
    cum_blelloch op e blocks = Some (cum_sequential op e blocks).
  Proof.
    intros Hcore. destruct blocks as [|b0 t]; [reflexivity|].
    unfold Scan.cum_blelloch. rewrite Hcore. cbn [Scan.cum_sequential]. do 2 f_equal.
    destruct t as [|b1 t1]; [reflexivity|].
    change (removelast (b0 :: b1 :: t1)) with (b0 :: removelast (b1 :: t1)).
    cbn [map Scan.scan]. apply combine_rest_seq_rest.
    rewrite cum_tail_scan. apply op_e_l.
  Qed.
End ScanFacts.

(* naturality: the sweeps commute with monoid homomorphisms *)
Section Hom.
  Variables A B : Type.
  Variable opA : A -> A -> A. Variable eA : A.
  Variable opB : B -> B -> B. Variable eB : B.
  Variable h : A -> B.
  Hypothesis h_op : forall a b, h (opA a b) = opB (h a) (h b).
  Hypothesis h_e : h eA = eB.

  Lemma map_upd l i v : map h (upd l i v) = upd (map h l) i (h v).
  Proof.
    revert i. induction l as [|x t IH]; intros i; [destruct i; reflexivity|].
    destruct i; cbn [upd map]; [reflexivity|]. rewrite IH. reflexivity.
  Qed.

  Lemma getZ_map l i : getZ eB (map h l) i = h (getZ eA l i).
  Proof. unfold getZ. rewrite <- h_e. apply map_nth. Qed.

  Lemma sweep_pass_hom pv start n s s2 :
    map h (sweep_pass opA eA pv start n s s2) = sweep_pass opB eB (map h pv) start n s s2.
  Proof.
    unfold sweep_pass. generalize (zrange start n s2) as idxs. intros idxs. revert pv.
    induction idxs as [|i t IH]; intros pv; [reflexivity|].
    cbn [fold_left]. rewrite IH. f_equal. rewrite map_upd. f_equal. rewrite h_op, !getZ_map. reflexivity.
  Qed.

  Lemma upsweep_hom : forall fuel pv n s s2,
    option_map (map h) (upsweep opA eA fuel pv n s s2) = upsweep opB eB fuel (map h pv) n s s2.
  Proof.
    induction fuel as [|f IH]; intros pv n s s2; cbn [upsweep]; destruct (s2 <=? n); try reflexivity.
    rewrite IH, sweep_pass_hom. reflexivity.
  Qed.

  Lemma downsweep_hom : forall fuel pv n s s2,
    option_map (map h) (downsweep opA eA fuel pv n s s2) = downsweep opB eB fuel (map h pv) n s s2.
  Proof.
    induction fuel as [|f IH]; intros pv n s s2; cbn [downsweep]; destruct (s >? 0); try reflexivity.
    rewrite IH, sweep_pass_hom. reflexivity.
  Qed.

  Lemma blelloch_prefix_hom ts :
    option_map (map h) (blelloch_prefix opA eA ts) = blelloch_prefix opB eB (map h ts).
  Proof.
    unfold blelloch_prefix. rewrite !map_length.
    destruct (Z.of_nat (length ts) >=? 2); [|reflexivity].
    rewrite <- upsweep_hom.
    destruct (upsweep opA eA (length ts) ts (Z.of_nat (length ts)) 1 2) as [pv|]; [|reflexivity].
    cbn [option_map]. apply downsweep_hom.
  Qed.
End Hom.

(* from the free monoid to every monoid *)
Section Free.
  Variable M : Type.
  Variable op : M -> M -> M.
  Variable e : M.
  Hypothesis op_assoc : forall a b c, op a (op b c) = op (op a b) c.
  Hypothesis op_e_l : forall a, op e a = a.
  Hypothesis op_e_r : forall a, op a e = a.

  (* interpretation of a word of block indices in (M, op, e) *)
  Definition interp (ts : list M) (w : list Z) : M :=
    fold_right (fun i acc => op (getZ e ts i) acc) e w.

  Lemma interp_app ts a b : interp ts (a ++ b) = op (interp ts a) (interp ts b).
  Proof.
    induction a as [|i a IH]; cbn [app interp fold_right]; [symmetry; apply op_e_l|].
    fold (interp ts (a ++ b)). fold (interp ts a). rewrite IH. apply op_assoc.
  Qed.

  Lemma map_nth_seq_id (l : list M) d : map (fun i => nth i l d) (seq 0 (length l)) = l.
  Proof.
    induction l as [|x t IH]; [reflexivity|].
    cbn [length seq map nth]. f_equal. rewrite <- seq_shift, map_map. exact IH.
  Qed.

  Lemma interp_gens ts :
    map (interp ts) (map (fun i => [Z.of_nat i]) (seq 0 (length ts))) = ts.
  Proof.
    rewrite map_map. rewrite <- (map_nth_seq_id ts e) at 2.
    apply map_ext. intros i. cbn [interp fold_right]. rewrite op_e_r. unfold getZ. rewrite Nat2Z.id. reflexivity.
  Qed.

  (* the real prefix_vals are the interpretation of the wiring *)
  Lemma blelloch_prefix_interp ts :
    blelloch_prefix op e ts = option_map (map (interp ts)) (blelloch_wiring (length ts)).
  Proof.
    unfold blelloch_wiring.
    rewrite (blelloch_prefix_hom (list Z) M (@app Z) [] op e (interp ts) (interp_app ts) eq_refl).
    rewrite interp_gens. reflexivity.
  Qed.

  (* the word 0,1,...,i is interpreted as the i-th entry of the inclusive scan *)
  Definition iota (i : nat) : list Z := map Z.of_nat (seq 0 (S i)).

  Lemma interp_snoc ts w i : interp ts (w ++ [i]) = op (interp ts w) (getZ e ts i).
  Proof. rewrite interp_app. cbn [interp fold_right]. rewrite op_e_r. reflexivity. Qed.

  Lemma iota_S i : iota (S i) = iota i ++ [Z.of_nat (S i)].
  Proof. unfold iota. rewrite (seq_S (S i) 0), map_app. reflexivity. Qed.

  Lemma scan_from_nth l acc k d : (k < length l)%nat ->
    nth k (scan_from op acc l) d = fold_left op (firstn (S k) l) acc.
  Proof. intros Hk. rewrite scan_from_as_map, nth_map_seq by exact Hk. reflexivity. Qed.

  Lemma firstn_S_nth (l : list M) : forall k d, (k < length l)%nat ->
    firstn (S k) l = firstn k l ++ [nth k l d].
  Proof.
    induction l as [|x t IH]; intros k d Hk; [cbn in Hk; lia|].
    destruct k; [reflexivity|]. cbn [firstn nth app]. f_equal. apply IH. cbn in Hk. lia.
  Qed.

  Lemma interp_iota ts : forall i, (i < length ts)%nat ->
    interp ts (iota i) = nth i (scan op ts) e.
  Proof.
    destruct ts as [|x t]; [intros i Hi; cbn in Hi; lia|].
    induction i as [|i IH]; intros Hi.
    - cbn. apply op_e_r.
    - rewrite iota_S, interp_snoc, IH by lia.
      cbn [scan]. cbn [length] in Hi.
      destruct i.
      + cbn [nth]. unfold getZ. change (Z.to_nat (Z.of_nat 1)) with 1%nat. cbn [nth].
        destruct t as [|y t']; [cbn in Hi; lia|]. reflexivity.
      + cbn [nth]. rewrite !scan_from_nth by lia.
        unfold getZ. rewrite Nat2Z.id. cbn [nth].
        rewrite (firstn_S_nth t (S i) e) by lia.
        rewrite fold_left_app. reflexivity.
  Qed.

  Lemma blelloch_prefix_of_wiring ts :
    blelloch_wiring (length ts) = Some (map iota (seq 0 (length ts))) ->
    blelloch_prefix op e ts = Some (scan op ts).
  Proof.
    intros Hw. rewrite blelloch_prefix_interp, Hw. cbn [option_map]. f_equal.
    rewrite map_map, <- (map_nth_seq_id (scan op ts) e), scan_length.
    apply map_ext_in. intros i Hi. apply in_seq in Hi. rewrite interp_iota by lia. reflexivity.
  Qed.
End Free.
