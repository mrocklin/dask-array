(* BlockInfo.v restates, for ChunksFreeze, the _chunks_match and _validate_rechunk that UnknownChunks.v (C28)
   models; the two models agree. *)
From DA Require Import PyBase PyBaseFacts BlockInfo BlockInfoFacts.
From DA Require UnknownChunks.
Open Scope Z_scope.

(* osum is the same function in both files, up to conversion; so are odim_eqb and UnknownChunks.ochunks_eqb *)
Lemma validate_axis_agrees o n :
  (match BlockInfo.osum o, BlockInfo.osum n with
   | Some a, Some b => a =? b
   | None, None => odim_eqb o n
   | _, _ => false
   end) = UnknownChunks.validate_axis o n.
Proof.
  unfold UnknownChunks.validate_axis. change BlockInfo.osum with UnknownChunks.osum.
  destruct (UnknownChunks.osum o) as [a|], (UnknownChunks.osum n) as [b|]; try reflexivity.
  cbn [UnknownChunks.py_eq]. destruct (a =? b); reflexivity.
Qed.

Lemma validate_rechunk_agrees old new :
  length old = length new ->
  UnknownChunks.validate_rechunk old new =
  if validate_rechunk_b old new then UnknownChunks.Proceed tt else UnknownChunks.Refuse UnknownChunks.ValueError.
Proof.
  intros Hlen. unfold UnknownChunks.validate_rechunk, validate_rechunk_b.
  rewrite Hlen, Nat.eqb_refl. cbn [negb].
  erewrite forallb_ext'; [reflexivity|]. intros [o n]. symmetry. apply validate_axis_agrees.
Qed.

(* BlockInfo.ochunks_eqb and UnknownChunks.chunks_match are both list_eqb (list_eqb oZ_eqb) *)
Lemma chunks_match_agrees a b : BlockInfo.chunks_match a b = UnknownChunks.chunks_match a b.
Proof. exact (chunks_match_ochunks_eqb a b). Qed.
