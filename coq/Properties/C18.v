(* C18 — Reductions are independent of chunking and tree shape.
   Statements only; proofs in theories/TreeReduceFacts.v (partition_all, depth, 1-D tree),
   TreeReduceInst.v (the concrete chunk/combine/aggregate triples), TreeReduceND.v (N-D grids),
   TreeReduceSlice.v (_accept_slice_impl).  Model: theories/TreeReduce.v.
   The float-derived choices of the Python (int(split_every ** (1/len(axis))) and
   math.ceil(math.log(n, k))) are oracle arguments; every theorem holds for ALL fan-ins >= 2 and
   all oracle depths satisfying the checked precondition k^c >= n (logs_ok). *)
From DA Require Import PyBase TreeReduce TreeReduceFacts TreeReduceInst TreeReduceND TreeReduceSlice TreeReduceMoment.
From Coq Require Import Permutation.
Open Scope Z_scope.

(* ------------------------------------------------------------------ *)
(* one level: tlz.partition_all groups the block indices in order      *)

(* the groups concatenate back to the input (so they partition the block indices, in order),
   none is empty, none is longer than k, there are ceil(n/k) of them, and group j is the
   stretch [j*k, j*k + k) of the input *)
Theorem C18_partition_all_valid :
  forall (A : Type) (k : Z) (l : list A), 1 <= k ->
  concat (partition_all k l) = l /\
  Forall (fun g => g <> [] /\ Z.of_nat (length g) <= k) (partition_all k l) /\
  Z.of_nat (length (partition_all k l)) = cdiv (Z.of_nat (length l)) k /\
  (forall j, (j < length (partition_all k l))%nat ->
     nth j (partition_all k l) [] = firstn (Z.to_nat k) (skipn (j * Z.to_nat k) l)).
Proof. exact @partition_all_valid. Qed.

(* ------------------------------------------------------------------ *)
(* depth                                                               *)

(* iterating ceil-division d times from n reaches 1 as soon as k^d >= n *)
Theorem C18_iter_cdiv_reaches_one :
  forall (d : nat) (k n : Z), 1 <= k -> 1 <= n -> n <= k ^ Z.of_nat d -> iter_cdiv d k n = 1.
Proof. exact iter_cdiv_reaches_one. Qed.

(* the integer loop of the model computes exactly ceil(log_k n) *)
Theorem C18_ceil_log_exact :
  forall k n, 2 <= k ->
  0 <= ceil_log k n /\ n <= k ^ ceil_log k n /\ (forall d, 0 <= d < ceil_log k n -> k ^ d < n).
Proof. exact ceil_log_spec. Qed.

(* the depth chosen by _build_tree_reduce_expr, for ANY oracle values of ceil(log(n, k)) that
   satisfy k^c >= n: after `depth` levels every axis with fan-in >= 2 is down to one block *)
Theorem C18_depth_reaches_one :
  forall nb se logs d,
  tree_depth nb se logs = Some d -> logs_ok nb se logs = true ->
  1 <= d /\
  forall j n k, nth_error nb j = Some n -> 1 <= n -> dict_find se (Z.of_nat j) = Some k -> 2 <= k ->
    iter_cdiv (Z.to_nat d) k n = 1.
Proof. exact tree_depth_reaches_one. Qed.

(* the exact integer logarithm is an admissible oracle *)
Theorem C18_exact_depth_oracle_ok :
  forall nb se,
  Forall (fun n => 1 <= n) nb -> (forall a k, dict_find se a = Some k -> 1 <= k) ->
  logs_ok nb se (exact_logs nb se) = true.
Proof. exact exact_logs_ok. Qed.

(* ------------------------------------------------------------------ *)
(* the tree equals the flat fold                                       *)

(* 1-D, any monoid (associativity only: groups are consecutive and order is preserved):
   every level preserves the total ... *)
Theorem C18_tree_total_invariant :
  forall (S : Type) (op : S -> S -> S) (e : S) (k : Z) (d : nat) (l : list S),
  monoid_laws op e -> 1 <= k ->
  mfold op e (tree_iter (mfold op e) k d l) = mfold op e l.
Proof. exact @tree_iter_mfold. Qed.

(* ... and once k^d >= number of blocks a single block is left holding the flat fold *)
Theorem C18_tree_equals_flat_1d :
  forall (S : Type) (op : S -> S -> S) (e : S) (k : Z) (d : nat) (l : list S),
  monoid_laws op e -> 2 <= k -> l <> [] -> Z.of_nat (length l) <= k ^ Z.of_nat d ->
  tree_iter (mfold op e) k d l = [mfold op e l].
Proof. exact @tree_iter_flat. Qed.

(* 1-D, chunk / combine / aggregate: for a list-homomorphic triple the tree with ANY fan-in
   k >= 2 and any sufficient depth returns spec(concatenated data) *)
Theorem C18_tree_1d_hom :
  forall (B D S R : Type) (r : reduction B S R) (phi : B -> list D) (h : list D -> S) (spec : list D -> R),
  hom_reduction r phi h spec ->
  forall k depth (blocks : list B),
  2 <= k -> 1 <= depth -> blocks <> [] -> Z.of_nat (length blocks) <= k ^ depth ->
  tree_reduce_1d r k depth blocks = [spec (concat (map phi blocks))].
Proof. exact @tree_reduce_1d_hom. Qed.

(* N-D grids, per-axis fan-ins (the per-axis dict), all axes grouped at once in every level:
   the value at an output block is the aggregate of the chunk summaries of exactly the input
   blocks below it (a product of per-axis index sets) *)
Theorem C18_tree_nd_cover :
  forall (S : Type) (comb : list S -> S) (kn : list (Z * Z)) (R : Type) (agg : list S -> R)
         (depth : nat) (f : list Z -> S) (key : list Z),
  tree_laws comb agg -> (1 <= depth)%nat -> length key = length kn ->
  nd_tree_value comb agg (map fst kn) depth (map snd kn) f key
  = agg (map f (cprod (nd_cover kn depth key))).
Proof. exact @nd_tree_value_cover. Qed.

(* ... and with sufficient depth that is ONE flat aggregate over all blocks along the reduced axes
   (fan-in >= 2, k^depth >= number of blocks) at the kept coordinates (fan-in 1) *)
Theorem C18_tree_equals_flat_nd :
  forall (S R : Type) (comb : list S -> S) (agg : list S -> R) (kn : list (Z * Z)) (depth : nat)
         (f : list Z -> S) (key : list Z),
  tree_laws comb agg -> (1 <= depth)%nat -> Forall2 (axis_ok (Z.of_nat depth)) kn key ->
  nd_tree_value comb agg (map fst kn) depth (map snd kn) f key
  = agg (map f (cprod (flat_axes kn key))).
Proof. exact @nd_tree_equals_flat. Qed.

(* tree_laws = "order of the inputs is irrelevant and pre-combining changes nothing"; it holds
   for every COMMUTATIVE monoid (N-D grouping reorders blocks, so commutativity is needed) ... *)
Theorem C18_laws_commutative_monoid :
  forall (S R : Type) (op : S -> S -> S) (e : S) (out : S -> R),
  monoid_laws op e -> commutative op -> tree_laws (mfold op e) (fun l => out (mfold op e l)).
Proof. exact @tree_laws_monoid. Qed.

(* ... in particular for the real combine/aggregate of sum, prod, NaN-propagating sum, mean *)
Theorem C18_laws_sum : tree_laws (r_combine red_sum) (r_agg red_sum).
Proof. exact tree_laws_sum. Qed.
Theorem C18_laws_prod : tree_laws (r_combine red_prod) (r_agg red_prod).
Proof. exact tree_laws_prod. Qed.
Theorem C18_laws_fsum : tree_laws (r_combine red_fsum) (r_agg red_fsum).
Proof. exact tree_laws_fsum. Qed.
Theorem C18_laws_mean : tree_laws (r_combine red_mean) (r_agg red_mean).
Proof. exact tree_laws_mean. Qed.

(* ------------------------------------------------------------------ *)
(* each reduction computes the NumPy definition on the concatenated data *)

Theorem C18_sum : forall k depth blocks, tree_ok k depth blocks ->
  tree_reduce_1d red_sum k depth blocks = [zsum (concat blocks)].
Proof. exact (tree_reduce_1d_ok _ _ _ hom_sum). Qed.

Theorem C18_prod : forall k depth blocks, tree_ok k depth blocks ->
  tree_reduce_1d red_prod k depth blocks = [zprod (concat blocks)].
Proof. exact (tree_reduce_1d_ok _ _ _ hom_prod). Qed.

(* None = NumPy's ValueError on a zero-size array *)
Theorem C18_min : forall k depth blocks, tree_ok k depth blocks ->
  tree_reduce_1d red_min k depth blocks = [np_min (concat blocks)].
Proof.
  exact (tree_reduce_1d_ok _ _ _ (hom_semigroup Z.min Z.min_assoc np_min (fun _ => eq_refl))).
Qed.

Theorem C18_max : forall k depth blocks, tree_ok k depth blocks ->
  tree_reduce_1d red_max k depth blocks = [np_max (concat blocks)].
Proof.
  exact (tree_reduce_1d_ok _ _ _ (hom_semigroup Z.max Z.max_assoc np_max (fun _ => eq_refl))).
Qed.

Theorem C18_any : forall k depth blocks, tree_ok k depth blocks ->
  tree_reduce_1d red_any k depth blocks = [existsb nonzero (concat blocks)].
Proof. exact (tree_reduce_1d_ok _ _ _ hom_any). Qed.

Theorem C18_all : forall k depth blocks, tree_ok k depth blocks ->
  tree_reduce_1d red_all k depth blocks = [forallb nonzero (concat blocks)].
Proof. exact (tree_reduce_1d_ok _ _ _ hom_all). Qed.

Theorem C18_count_nonzero : forall k depth blocks, tree_ok k depth blocks ->
  tree_reduce_1d red_sum k depth (count_nonzero_blocks blocks)
  = [zsum (map (fun x => b2z (nonzero x)) (concat blocks))].
Proof. exact count_nonzero_tree_ok. Qed.

(* mean as the exact rational (sum, count) *)
Theorem C18_mean : forall k depth blocks, tree_ok k depth blocks ->
  tree_reduce_1d red_mean k depth blocks = [(zsum (concat blocks), Z.of_nat (length (concat blocks)))].
Proof. exact (tree_reduce_1d_ok _ _ _ hom_mean). Qed.

(* NaN placements: data of type option Z, None = NaN *)
Theorem C18_sum_nan : forall k depth blocks, tree_ok k depth blocks ->
  tree_reduce_1d red_fsum k depth blocks = [fsum (concat blocks)].
Proof. exact (tree_reduce_1d_ok _ _ _ hom_fsum). Qed.

Theorem C18_nansum : forall k depth blocks, tree_ok k depth blocks ->
  tree_reduce_1d red_nansum k depth blocks = [np_nansum (concat blocks)].
Proof. exact (tree_reduce_1d_ok _ _ _ hom_nansum). Qed.

Theorem C18_min_nan : forall k depth blocks, tree_ok k depth blocks ->
  tree_reduce_1d red_fmin k depth blocks = [fnp_min (concat blocks)].
Proof.
  exact (tree_reduce_1d_ok _ _ _ (hom_semigroup _ (fmerge_assoc _ Z.min_assoc) fnp_min (fnp_fold_semigroup Z.min))).
Qed.

Theorem C18_max_nan : forall k depth blocks, tree_ok k depth blocks ->
  tree_reduce_1d red_fmax k depth blocks = [fnp_max (concat blocks)].
Proof.
  exact (tree_reduce_1d_ok _ _ _ (hom_semigroup _ (fmerge_assoc _ Z.max_assoc) fnp_max (fnp_fold_semigroup Z.max))).
Qed.

Theorem C18_nanmin : forall k depth blocks, tree_ok k depth blocks ->
  tree_reduce_1d red_nanmin k depth blocks = [fnp_nanmin (concat blocks)].
Proof.
  exact (tree_reduce_1d_ok _ _ _ (hom_semigroup _ (omerge_assoc _ Z.min_assoc) fnp_nanmin (fnp_nanfold_semigroup Z.min))).
Qed.

Theorem C18_nanmax : forall k depth blocks, tree_ok k depth blocks ->
  tree_reduce_1d red_nanmax k depth blocks = [fnp_nanmax (concat blocks)].
Proof.
  exact (tree_reduce_1d_ok _ _ _ (hom_semigroup _ (omerge_assoc _ Z.max_assoc) fnp_nanmax (fnp_nanfold_semigroup Z.max))).
Qed.

Theorem C18_mean_nan : forall k depth blocks, tree_ok k depth blocks ->
  tree_reduce_1d red_fmean k depth blocks = [(fsum (concat blocks), Z.of_nat (length (concat blocks)))].
Proof. exact (tree_reduce_1d_ok _ _ _ hom_fmean). Qed.

Theorem C18_nanmean : forall k depth blocks, tree_ok k depth blocks ->
  tree_reduce_1d red_nanmean k depth blocks
  = [(np_nansum (concat blocks), Z.of_nat (length (drop_nan (concat blocks))))].
Proof. exact (tree_reduce_1d_ok _ _ _ hom_nanmean). Qed.

(* argmin / argmax along ONE axis: for every chunking of the data (zero-size blocks included in
   the model; the Python raises on those, finding C18-B) and every tree shape the result is the
   FIRST occurrence of the extreme value.  `better` is > for argmax, < for argmin. *)
Theorem C18_arg_axis_chunking_independent :
  forall better chunks data k depth,
  strict_weak better -> chunks <> [] -> Forall (fun c => 0 <= c) chunks -> zsum chunks = Z.of_nat (length data) ->
  2 <= k -> 1 <= depth -> Z.of_nat (length chunks) <= k ^ depth ->
  tree_reduce_1d (red_arg_axis better) k depth (combine (block_offsets chunks) (split_chunks chunks data))
  = [option_map snd (np_argbest better data)].
Proof. exact arg_axis_tree. Qed.

Theorem C18_argmax_argmin_orders : strict_weak Z.gtb /\ strict_weak Z.ltb.
Proof. exact (conj strict_weak_gtb strict_weak_ltb). Qed.

(* FULL STATEMENT THAT IS FALSE of the faithful model (and of /repo): "argmax/argmin with
   axis=None over an N-D array returns NumPy's flat index for every chunking and tree shape".
   _arg_combine takes the first best value in BLOCK-GRID order of the concatenated group, not
   the smallest flat index, so ties are broken differently (finding F10). *)
Theorem C18_argmax_ravel_refuted :
  exists shape data chunks ks depth,
    nd_arg_ravel Z.gtb shape data chunks ks depth = [([0; 0], Some 13)] /\
    option_map snd (np_argbest Z.gtb data) = Some 6.
Proof.
  exists [4; 4], (map (fun i => i mod 7 - 3) (zrange0 16)), [[2; 2]; [1; 1; 1; 1]], [2; 2], 2.
  vm_compute. split; reflexivity.
Qed.

(* the same data, two chunkings, no tree at all (one aggregate level): different answers *)
Theorem C18_argmax_ravel_chunking_refuted :
  exists shape data chunks1 chunks2 ks,
    nd_arg_ravel Z.gtb shape data chunks1 ks 1 <> nd_arg_ravel Z.gtb shape data chunks2 ks 1.
Proof.
  exists [2; 4], [0; 0; 1; 0; 1; 0; 0; 0], [[2]; [2; 2]], [[2]; [4]], [16; 16].
  vm_compute. intros H. discriminate H.
Qed.

(* a split_every dict entry of 1 (outside the documented "int >= 2"): the depth loop skips the
   axis, the aggregate layer has one output block per input block, keepdims=False gives them all
   the key () and the last one survives *)
Theorem C18_split_every_one_refuted :
  exists blocks, tree_depth [Z.of_nat (length blocks)] [(0, 1)] [] = Some 1 /\
    dict_last (tree_reduce_1d red_sum 1 1 blocks) = [37] /\ zsum (concat blocks) = 190.
Proof.
  exists (split_chunks [2;2;2;2;2;2;2;2;2;2] (zrange0 20)). vm_compute. repeat split; reflexivity.
Qed.

(* The depth of the tree is a function of the block count the child ADVERTISES when the reduction is built
   (tree_depth numblocks ...).  For arg reductions (_tree_reduce at construction) a later rewrite or another unify
   policy can give the child MORE blocks than that (findings F33d, F5b): the tree laid out for 2 blocks (depth 1,
   split_every 2) is then run on 3 blocks, its single aggregate level has two output blocks, keepdims=False gives
   both the key () and the last one survives — the first group of blocks is silently dropped.  The theorems above
   need `tree_ok k depth blocks` (k^depth >= number of blocks); this is what fails. *)
Theorem C18_tree_laid_out_for_advertised_block_count_refuted :
  exists (advertised actual : list (list Z)),
    tree_depth [Z.of_nat (length advertised)] [(0, 2)] (exact_logs [Z.of_nat (length advertised)] [(0, 2)]) = Some 1 /\
    concat advertised = concat actual /\
    dict_last (tree_reduce_1d red_sum 2 1 advertised) = [zsum (concat advertised)] /\
    dict_last (tree_reduce_1d red_sum 2 1 actual) <> [zsum (concat actual)].
Proof.
  exists [[7; 4]; [8; 5; 9; 10]], [[7]; [4]; [8; 5; 9; 10]].
  vm_compute. repeat split; try reflexivity. intros H. discriminate H.
Qed.

(* var / std / moment (model: theories/TreeReduceMoment.v, exact rationals, None = NaN).
   FULL STATEMENT, NOT PROVED for non-empty blocks (Chan's pairwise update over Q; only checked by
   the correspondence harness against the implementation and NumPy):
     forall ddof k depth blocks, tree_ok k depth blocks -> Forall (fun b => b <> []) blocks ->
       map (fq_eqb (np_var ddof (concat blocks))) (tree_reduce_1d (red_var ddof) k depth blocks) = [true].
   Without the non-emptiness hypothesis it is FALSE of the faithful model and of /repo: moment_combine
   divides totals by ns == 0 (0/0 = NaN; moment_agg has the np.where(ns == 0, 0, ...) guard,
   moment_combine does not), so a zero-size block below a combine level poisons the result,
   while the same chunking without a combine level is correct (finding C18-A). *)
Theorem C18_var_empty_block_refuted :
  exists blocks,
    tree_reduce_1d (red_var 0) 2 2 blocks = [None] /\
    map (fq_eqb (np_var 0 (concat blocks))) (tree_reduce_1d (red_var 0) 16 1 blocks) = [true] /\
    np_var 0 (concat blocks) <> None.
Proof.
  exists [[0; 1]; []; [2; 3]; [4; 5]]. vm_compute. repeat split; try reflexivity. discriminate.
Qed.

(* ------------------------------------------------------------------ *)
(* slices pushed through a reduction                                   *)

(* when _accept_slice_impl pushes (Some ...): the input index addresses every input axis, an
   index on a REDUCED axis is never forwarded (the input keeps [:] there), and the kept axes
   receive the output indices in order (integers as size-1 slices) *)
Theorem C18_slice_through_reduction :
  forall index shape reduced keepdims input_index final,
  accept_slice index shape reduced keepdims = Some (input_index, final) ->
  let ndim := length shape in
  let out_ndim := if keepdims then ndim else ckept reduced 0 ndim in
  (length index <= out_ndim)%nat ->
  let slice_index := map int_to_slice (full_index_of index out_ndim) in
  existsb idx_is_none index = false /\
  length input_index = ndim /\
  (forall ax, (ax < ndim)%nat -> zmem (Z.of_nat ax) reduced = true -> nth ax input_index icolon = icolon) /\
  kept_proj reduced input_index = (if keepdims then kept_proj reduced slice_index else slice_index) /\
  forallb idx_is_colon input_index = false.
Proof. exact accept_slice_mapping. Qed.

(* what is re-applied on the output: the original index on kept reduced axes (keepdims), [0] where
   an integer became a size-1 slice, [:] elsewhere *)
Theorem C18_slice_final_index :
  forall index shape reduced keepdims input_index final,
  accept_slice index shape reduced keepdims = Some (input_index, final) ->
  let ndim := length shape in
  let out_ndim := if keepdims then ndim else ckept reduced 0 ndim in
  let full := full_index_of index out_ndim in
  let final_index :=
    if keepdims then map (fun ai => if zmem (fst ai) reduced then snd ai
                                    else if idx_is_int (snd ai) then IInt 0 else icolon) (enumerate full)
    else map (fun i => if idx_is_int i then IInt 0 else icolon) full in
  final = if existsb (fun i => negb (idx_is_colon i)) final_index then Some final_index else None.
Proof. intros * H. apply (accept_slice_some _ _ _ _ _ _ H). Qed.

(* pushed index followed by the re-applied index selects exactly what the original index selects
   on an axis of length n (integers already normalised to 0 <= i < n, as SliceSlicesIntegers does) *)
Theorem C18_slice_roundtrip :
  forall (i : idx) (n : Z), idx_in_range i n ->
  idx_sel_compose (int_to_slice i) (if idx_is_int i then IInt 0 else icolon) n = idx_sel i n.
Proof. exact int_slice_roundtrip. Qed.

(* ------------------------------------------------------------------ *)
(* the hypotheses are satisfiable on non-trivial inputs                *)

Example C18_ex_partition : partition_all 3 (zrange0 10) = [[0; 1; 2]; [3; 4; 5]; [6; 7; 8]; [9]].
Proof. vm_compute. reflexivity. Qed.

(* math.log(125, 5) = 3.0000000000000004: the oracle says 4, the exact value is 3; both are admissible *)
Example C18_ex_depth_oracle :
  tree_depth [125] [(0, 5)] [4] = Some 4 /\ logs_ok [125] [(0, 5)] [4] = true /\
  tree_depth [125] [(0, 5)] (exact_logs [125] [(0, 5)]) = Some 3.
Proof. vm_compute. repeat split; reflexivity. Qed.

Example C18_ex_tree_sum :
  tree_ok 2 4 (split_chunks [2;2;2;2;2;2;2;2;2;2] (zrange0 20)) /\
  tree_reduce_1d red_sum 2 4 (split_chunks [2;2;2;2;2;2;2;2;2;2] (zrange0 20)) = [190].
Proof. split; [unfold tree_ok; cbn; repeat split; try lia; discriminate | vm_compute; reflexivity]. Qed.

Example C18_ex_nd_axes :
  Forall2 (axis_ok 2) [(2, 4); (1, 3); (3, 7)] [0; 2; 0] /\
  flat_axes [(2, 4); (1, 3); (3, 7)] [0; 2; 0] = [[0; 1; 2; 3]; [2]; [0; 1; 2; 3; 4; 5; 6]].
Proof.
  split; [|vm_compute; reflexivity].
  repeat constructor; unfold axis_ok; cbn [fst snd]; lia.
Qed.

Example C18_ex_argmax_axis :
  tree_reduce_1d (red_arg_axis Z.gtb) 2 2 (combine (block_offsets [2; 0; 3; 1]) (split_chunks [2; 0; 3; 1] [3; 1; 3; 0; 2; 3]))
  = [Some 0].
Proof. vm_compute. reflexivity. Qed.

Example C18_ex_accept_slice :
  accept_slice [IInt 9] [6; 10] [0] false
  = Some ([icolon; ISlice (mkslice (Some 9) (Some 10) None)], Some [IInt 0]) /\
  accept_slice [ISlice (mkslice (Some 1) (Some 4) None); IInt 0] [6; 10] [1] true
  = Some ([ISlice (mkslice (Some 1) (Some 4) None); icolon], Some [icolon; IInt 0]) /\
  accept_slice [IInt 0] [6; 10] [0; 1] true = None.
Proof. vm_compute. repeat split; reflexivity. Qed.

Print Assumptions C18_partition_all_valid.
Print Assumptions C18_iter_cdiv_reaches_one.
Print Assumptions C18_ceil_log_exact.
Print Assumptions C18_depth_reaches_one.
Print Assumptions C18_exact_depth_oracle_ok.
Print Assumptions C18_tree_total_invariant.
Print Assumptions C18_tree_equals_flat_1d.
Print Assumptions C18_tree_1d_hom.
Print Assumptions C18_tree_nd_cover.
Print Assumptions C18_tree_equals_flat_nd.
Print Assumptions C18_laws_commutative_monoid.
Print Assumptions C18_laws_sum.
Print Assumptions C18_laws_prod.
Print Assumptions C18_laws_fsum.
Print Assumptions C18_laws_mean.
Print Assumptions C18_sum.
Print Assumptions C18_prod.
Print Assumptions C18_min.
Print Assumptions C18_max.
Print Assumptions C18_any.
Print Assumptions C18_all.
Print Assumptions C18_count_nonzero.
Print Assumptions C18_mean.
Print Assumptions C18_sum_nan.
Print Assumptions C18_nansum.
Print Assumptions C18_min_nan.
Print Assumptions C18_max_nan.
Print Assumptions C18_nanmin.
Print Assumptions C18_nanmax.
Print Assumptions C18_mean_nan.
Print Assumptions C18_nanmean.
Print Assumptions C18_arg_axis_chunking_independent.
Print Assumptions C18_argmax_argmin_orders.
Print Assumptions C18_argmax_ravel_refuted.
Print Assumptions C18_argmax_ravel_chunking_refuted.
Print Assumptions C18_split_every_one_refuted.
Print Assumptions C18_tree_laid_out_for_advertised_block_count_refuted.
Print Assumptions C18_var_empty_block_refuted.
Print Assumptions C18_slice_through_reduction.
Print Assumptions C18_slice_final_index.
Print Assumptions C18_slice_roundtrip.
