(* C19 — Windowed and scan operations match their NumPy definitions.
   Statements only; models in theories/Scan.v, Window.v (scans, sliding + moving windows, overlap); proofs in ScanFacts.v, BlellochFacts.v,
   WindowBase.v, SlidingFacts.v, OverlapFacts.v; diff / gradient: models in theories/DiffGrad.v, proofs in DiffGradFacts.v.
   1-D (one axis): a block is a `list`, a chunked array a `list (list _)`; N-D arrays run the
   same per-axis wiring independently for every index of the other axes (correspondence only). *)
From DA Require Import PyBase Scan ScanFacts BlellochFacts Window WindowBase SlidingFacts OverlapFacts DiffGrad DiffGradFacts.
From Coq Require Import QArith.
Open Scope Z_scope.

(* ---- cumulative scans -------------------------------------------------------------- *)

(* CumReduction._layer (sequential carry; an empty block carries the identity): the
   concatenated block outputs are the scan of the concatenated blocks, any block sizes incl. 0 *)
Theorem C19_cumsum_sequential :
  forall (M : Type) (op : M -> M -> M) (e : M),
    (forall a b c, op a (op b c) = op (op a b) c) -> (forall a, op e a = a) -> (forall a, op a e = a) ->
    forall blocks : list (list M),
      concat (cum_sequential op e blocks) = scan op (concat blocks) /\
      map (@length M) (cum_sequential op e blocks) = map (@length M) blocks.
Proof. exact cum_sequential_spec. Qed.

(* CumReductionBlelloch._layer: the up-sweep / down-sweep over the block totals leaves in
   prefix_vals[i] the total of blocks 0..i for EVERY number of blocks (no bound), hence the
   Blelloch wiring produces block for block what the sequential scheme produces: the scan of
   the concatenated blocks in the input layout, any block sizes incl. 0.  (Proved over the free
   monoid -- words of block indices -- and transferred to every monoid by naturality of the
   sweeps, ScanFacts.blelloch_prefix_hom.) *)
Theorem C19_cumsum_blelloch :
  forall (M : Type) (op : M -> M -> M) (e : M),
    (forall a b c, op a (op b c) = op (op a b) c) -> (forall a, op e a = a) -> (forall a, op a e = a) ->
    forall blocks : list (list M),
      cum_blelloch op e blocks = Some (cum_sequential op e blocks) /\
      (forall out, cum_blelloch op e blocks = Some out ->
         concat out = scan op (concat blocks) /\ map (@length M) out = map (@length M) blocks).
Proof. exact cum_blelloch_correct. Qed.

(* the sweeps alone: for every n, slot i of prefix_vals ends up combining totals 0..i in order *)
Theorem C19_blelloch_wiring :
  forall n : nat, blelloch_wiring n = Some (map iota (seq 0 n)).
Proof. exact blelloch_wiring_n. Qed.

(* ---- native sliding-window reduction ------------------------------------------------- *)

(* the advertised chunks of SlidingWindowReduction are a layout of the n - w + 1 outputs *)
Theorem C19_sliding_chunks :
  forall cs w, supports_native_sliding_window cs w = true ->
    Forall (fun c => 0 < c) (swr_chunks cs w) /\ zsum (swr_chunks cs w) = zsum cs - w + 1.
Proof. exact swr_chunks_valid. Qed.

(* _block_plan + _sliding_window_banded_reduce: for supported (chunks, window) the concatenated
   banded block results are the reduction of every window, and the blocks have the advertised
   sizes.  NOTE the hypothesis `op a b = op b a`: the suffix scan of the implementation,
   np.flip(ufunc.accumulate(np.flip(block))), combines a block's values in REVERSE order, so the
   model needs commutativity (every ufunc in NATIVE_SLIDING_REDUCERS is commutative). *)
Theorem C19_sliding_native :
  forall (M : Type) (op : M -> M -> M) (dflt : M),
    (forall a b c, op a (op b c) = op (op a b) c) -> (forall a b, op a b = op b a) ->
    forall cs w (xs : list M),
      supports_native_sliding_window cs w = true -> zsum cs = zlen xs ->
      concat (sliding_native op dflt cs w xs)
      = map (fun t => mconcat1 op dflt (firstn (Z.to_nat w) (skipn t xs))) (seq 0 (Z.to_nat (zlen xs - w + 1)))
      /\ map zlen (sliding_native op dflt cs w xs) = swr_chunks cs w.
Proof. intros M op dflt Ha Hc cs w xs Hs Hl. exact (sliding_native_correct M op dflt Ha Hc cs w xs Hs Hl). Qed.

(* MovingWindowReduction (bottleneck move_sum / move_min / move_max through map_overlap):
   _block_plan + _moving_window_banded_reduce, ONE channel (the implementation runs the same
   steps on the prepared values and on the valid counts; the final NaN mask `count < min_count`
   is pointwise).  Output j reduces xs[max(0, j-w+1) : j+1]; the layout is the input's.
   Commutativity is needed for the same reason as above (the band's flipped accumulate, and the
   own-block prefix is combined BEFORE the left-edge band). *)
Theorem C19_moving_native :
  forall (M : Type) (op : M -> M -> M) (dflt : M),
    (forall a b c, op a (op b c) = op (op a b) c) -> (forall a b, op a b = op b a) ->
    forall cs w (xs : list M),
      supports_native_moving_window cs w = true -> zsum cs = zlen xs ->
      concat (moving_native op dflt cs w xs)
      = map (fun j => mconcat1 op dflt (pyslice xs (Z.max 0 (Z.of_nat j - w + 1)) (Z.of_nat j + 1))) (seq 0 (length xs))
      /\ map zlen (moving_native op dflt cs w xs) = cs.
Proof. intros M op dflt Ha Hc cs w xs Hs Hl. exact (moving_native_correct M op dflt Ha Hc cs w xs Hs Hl). Qed.

(* ---- overlap / trim / map_overlap ------------------------------------------------------ *)

(* ensure_minimum_chunksize returns a layout of the same length with every chunk >= size *)
Theorem C19_ensure_minimum_chunksize :
  forall size cs out, Forall (fun c => 0 <= c) cs -> ensure_minimum_chunksize size cs = Some out ->
    zsum out = zsum cs /\ Forall (fun c => size <= c) out /\ Forall (fun c => 0 <= c) out /\ out <> [].
Proof. exact ensure_minimum_chunksize_contract. Qed.

(* overlap(): every overlapped block is the block widened by the depth inside the padded array
   (trim_bounds lists the (start, stop) of block j: [a_j - front_j, a_j + c_j + back_j)) *)
Theorem C19_overlap_blocks :
  forall (A : Type) (blocks : list (list A)) ld rd (k : bkind A) ov,
    0 <= ld -> 0 <= rd -> (is_none k = false -> ld = rd) ->
    overlap blocks ld rd k = Some ov ->
    exists cs,
      overlap_rechunked_chunks (map zlen blocks) ld rd (is_none k) = Some cs /\
      zsum cs = zlen (concat blocks) /\ Forall (fun c => Z.max ld rd <= c) cs /\ cs <> [] /\
      ov = map (pys (pad k ld (concat blocks))) (trim_bounds cs (ov_off k ld) 0 (zlen cs) ld rd (is_none k)).
Proof. intros A. exact (@overlap_spec A). Qed.

(* trimming the overlapped blocks gives back the (rechunked) original blocks, every boundary kind,
   every depth (incl. depth > smallest block: the model rechunks like the implementation) *)
Theorem C19_overlap_trim_id :
  forall (A : Type) (blocks : list (list A)) ld rd (k : bkind A) ov,
    0 <= ld -> 0 <= rd -> (is_none k = false -> ld = rd) ->
    overlap blocks ld rd k = Some ov ->
    exists cs,
      overlap_rechunked_chunks (map zlen blocks) ld rd (is_none k) = Some cs /\
      trim_internal ov ld rd (is_none k) = split_blocks cs (concat blocks) /\
      concat (trim_internal ov ld rd (is_none k)) = concat blocks /\
      map zlen ov = map (fun lh => snd lh - fst lh) (trim_bounds cs (ov_off k ld) 0 (zlen cs) ld rd (is_none k)).
Proof. intros A. exact (@overlap_trim_id A). Qed.

(* map_overlap of ANY shape-preserving block function F that is a radius-r stencil (window
   function g; arbitrary values within r of a block's ends), r <= depth, boundary periodic /
   reflect / nearest / constant: the result is g on every window of the globally padded array *)
Theorem C19_map_overlap_stencil :
  forall (A B : Type) (r : nat) (g : list A -> B) (F : list A -> list B),
    is_stencil r g F ->
    forall (blocks : list (list A)) d (k : bkind A) res,
      is_none k = false -> Z.of_nat r <= d ->
      map_overlap F blocks d d k = Some res ->
      let xs := concat blocks in
      concat res = stencil_valid r g (pyslice (pad k d xs) (d - Z.of_nat r) (d + zlen xs + Z.of_nat r)) /\
      overlap_rechunked_chunks (map zlen blocks) d d false = Some (map zlen res).
Proof. intros A B r g F HF. exact (map_overlap_stencil_bounded r g F HF). Qed.

(* boundary "none" (asymmetric depths allowed): positions at least r from both ends of the array *)
Theorem C19_map_overlap_stencil_none :
  forall (A B : Type) (r : nat) (g : list A -> B) (F : list A -> list B),
    is_stencil r g F ->
    forall (blocks : list (list A)) ld rd res,
      Z.of_nat r <= ld -> Z.of_nat r <= rd ->
      map_overlap F blocks ld rd BNone = Some res ->
      let xs := concat blocks in
      zlen (concat res) = zlen xs /\
      pyslice (concat res) (Z.of_nat r) (zlen xs - Z.of_nat r) = stencil_valid r g xs /\
      overlap_rechunked_chunks (map zlen blocks) ld rd true = Some (map zlen res).
Proof. intros A B r g F HF. exact (map_overlap_stencil_none r g F HF). Qed.

(* ---- diff ------------------------------------------------------------------------------- *)

(* one pass of diff()'s loop, r[1:] - r[:-1], is NumPy's first difference out[i] = a[i+1] - a[i] *)
Theorem C19_diff_step :
  forall l : list Z, diff_step l = map (fun i => nth (S i) l 0 - nth i l 0) (seq 0 (length l - 1)).
Proof. exact diff_step_spec. Qed.

(* diff(a, n, prepend, append) = numpy.diff for EVERY n (n < 0: both raise; n = 0: the array itself,
   prepend / append ignored by both) and every prepend / append; the result has
   max(0, len(prepend) + len(a) + len(append) - n) elements *)
Theorem C19_diff :
  forall n (p q : option (list Z)) (a : list Z),
    da_diff n p q a = np_diff_full n p q a /\
    (forall r, da_diff n p q a = Some r -> n <> 0 -> zlen r = Z.max 0 (zlen (diff_combined p q a) - n)).
Proof. exact da_diff_correct. Qed.

(* the n-th difference in closed form: out[i] = sum_{k=0..n} (-1)^(n-k) C(n,k) a[i+k] *)
Theorem C19_diff_closed_form :
  forall (n : nat) (l : list Z),
    np_diff n l = map (fun i => zsum (map (fun k => sbinom n k * nth (i + k) l 0) (seq 0 (S n)))) (seq 0 (length l - n)).
Proof. exact np_diff_closed_form. Qed.

Theorem C19_sbinom_is_signed_binomial :
  forall n k : nat, (k <= n)%nat -> sbinom n k = (-1) ^ Z.of_nat (n - k) * binom n k.
Proof. exact sbinom_binom. Qed.

(* ---- gradient ---------------------------------------------------------------------------- *)

(* (a) the guard exactly as gradient() checks it -- every chunk of the axis >= edge_order + 1 --,
   edge_order 1 and 2, EVERY layout and input, any per-position kernel (mid / lft / rgt: central
   difference and the one-sided formulas over the first / last edge_order + 1 samples; unit, scalar
   or coordinate spacing are instances): map_overlap(depth 1, boundary "none") keeps the chunks
   and the concatenated trimmed per-block results are numpy.gradient of the whole axis *)
Theorem C19_gradient_plan :
  forall (T R : Type) (d : T) (mid : T -> T -> T -> R) (lft rgt : list T -> R) (eo : Z) (blocks : list (list T)),
    1 <= eo <= 2 -> blocks <> [] -> gradient_guard eo (map zlen blocks) = true ->
    exists G, np_gradient_gen d mid lft rgt eo (concat blocks) = Some G /\
              gradient_plan d mid lft rgt eo blocks = Some (split_blocks (map zlen blocks) G) /\
              concat (split_blocks (map zlen blocks) G) = G /\
              map zlen (split_blocks (map zlen blocks) G) = map zlen blocks.
Proof. exact gradient_plan_correct. Qed.

(* unit spacing, integer inputs: TWICE the gradient, exactly *)
Theorem C19_gradient_unit_spacing :
  forall eo (blocks : list (list Z)),
    1 <= eo <= 2 -> blocks <> [] -> gradient_guard eo (map zlen blocks) = true ->
    exists G, np_gradient2 eo (concat blocks) = Some G /\
              da_gradient2 eo blocks = Some (split_blocks (map zlen blocks) G) /\
              concat (split_blocks (map zlen blocks) G) = G /\
              map zlen (split_blocks (map zlen blocks) G) = map zlen blocks.
Proof. intros eo. apply gradient_plan_correct. Qed.

(* scalar spacing h: exact rationals (list equality, not just Qeq) *)
Theorem C19_gradient_scalar_spacing :
  forall eo (h : Q) (blocks : list (list Z)),
    1 <= eo <= 2 -> blocks <> [] -> gradient_guard eo (map zlen blocks) = true ->
    exists G, np_gradient eo h (concat blocks) = Some G /\
              da_gradient eo h blocks = Some (split_blocks (map zlen blocks) G) /\
              concat (split_blocks (map zlen blocks) G) = G /\
              map zlen (split_blocks (map zlen blocks) G) = map zlen blocks.
Proof. intros eo h. apply gradient_plan_correct. Qed.

Theorem C19_gradient_scalar_is_twice_over_2h :
  forall eo (h : Q) (l : list Z), np_gradient eo h l = option_map (map (over2h h)) (np_gradient2 eo l).
Proof. exact np_gradient_over2h. Qed.

(* coordinates gradient(f, x): samples (f[i], x[i]), NumPy's non-uniform second-order formulas *)
Theorem C19_gradient_coordinates :
  forall eo (blocks : list (list (Z * Z))),
    1 <= eo <= 2 -> blocks <> [] -> gradient_guard eo (map zlen blocks) = true ->
    exists G, np_gradient_x eo (concat blocks) = Some G /\
              da_gradient_x eo blocks = Some (split_blocks (map zlen blocks) G) /\
              concat (split_blocks (map zlen blocks) G) = G /\
              map zlen (split_blocks (map zlen blocks) G) = map zlen blocks.
Proof. intros eo. apply gradient_plan_correct. Qed.

(* the position-wise definition used above is numpy.gradient as NumPy writes it, with slices:
   out[0] one-sided, out[1:-1] = (f[2:] - f[:-2]) / 2h, out[-1] one-sided (twice the unit-spacing value) *)
Theorem C19_np_gradient_slices :
  forall eo (l : list Z),
    2 <= zlen l -> eo + 1 <= zlen l ->
    np_gradient2 eo l =
    Some ([lft2 eo (firstn (Z.to_nat (eo + 1)) l)]
          ++ map2 Z.sub (pyslice l 2 (zlen l)) (pyslice l 0 (zlen l - 2))
          ++ [rgt2 eo (lastn (eo + 1) l)]).
Proof. exact np_gradient2_slices. Qed.

(* (c) chunks below the guard.  gradient() raises; but the guard is NOT what makes (a) true: the
   map_overlap pipeline behind it (overlap()'s rechunk merges one-element edge blocks into their
   neighbours) computes numpy.gradient for EVERY layout -- blocks of size 1, even 0 -- whenever
   numpy.gradient itself is defined, and fails exactly when numpy.gradient fails. *)
Theorem C19_gradient_guard_rejects :
  forall (T R : Type) (d : T) (mid : T -> T -> T -> R) (lft rgt : list T -> R) (eo : Z) (blocks : list (list T)),
    gradient_guard eo (map zlen blocks) = false -> gradient_plan d mid lft rgt eo blocks = None.
Proof. exact gradient_plan_guard_none. Qed.

Theorem C19_gradient_without_guard :
  forall (T R : Type) (d : T) (mid : T -> T -> T -> R) (lft rgt : list T -> R) (eo : Z) (blocks : list (list T)) G,
    0 <= eo <= 2 -> blocks <> [] ->
    np_gradient_gen d mid lft rgt eo (concat blocks) = Some G ->
    exists cs, overlap_rechunked_chunks (map zlen blocks) 1 1 true = Some cs /\
               gradient_core d mid lft rgt eo blocks = Some (split_blocks cs G) /\
               concat (split_blocks cs G) = G /\ map zlen (split_blocks cs G) = cs.
Proof. exact gradient_core_correct. Qed.

Theorem C19_gradient_without_guard_fails_like_numpy :
  forall (T R : Type) (d : T) (mid : T -> T -> T -> R) (lft rgt : list T -> R) (eo : Z) (blocks : list (list T)),
    0 <= eo -> np_gradient_gen d mid lft rgt eo (concat blocks) = None -> gradient_core d mid lft rgt eo blocks = None.
Proof. intros T R d mid lft rgt eo blocks _. apply gradient_core_none. Qed.

(* chunks that pass the guard (>= edge_order + 1 >= 2) are not touched by overlap()'s rechunk, so the
   chunks array_locs was computed from are the chunks of the blocks the kernel sees *)
Theorem C19_gradient_guard_no_rechunk :
  forall cs, cs <> [] -> Forall (fun c => 2 <= c) cs -> overlap_rechunked_chunks cs 1 1 true = Some cs.
Proof. exact rechunk_id_ge2. Qed.

(* (d) array_locs, every layout: (start_j, stop_j) = [a_j - front_j, a_j + c_j + back_j) with
   front_0 = 0, back_last = 0 and 1 otherwise: the block plus its one-element halo ... *)
Theorem C19_array_locs :
  forall cs, cs <> [] ->
    combine (fst (array_locs cs)) (snd (array_locs cs)) = trim_bounds cs 0 0 (zlen cs) 1 1 true.
Proof. exact array_locs_bounds. Qed.

(* ... so that the coordinate windows coord[start_j : stop_j] are exactly the overlapped blocks of
   the coordinate array chunked like f (under the guard) *)
Theorem C19_array_locs_windows :
  forall (A : Type) (cblocks : list (list A)),
    cblocks <> [] -> Forall (fun c => 2 <= c) (map zlen cblocks) ->
    overlap cblocks 1 1 BNone = Some (coord_windows (concat cblocks) (map zlen cblocks)).
Proof. intros A. exact (@coord_windows_overlap A). Qed.

(* ---- the hypotheses are satisfiable on non-trivial inputs --------------------------------- *)
Example C19_ex_scan_zero_blocks :
  cum_blelloch Z.add 0 [[1;2];[];[3];[4;5;6];[];[7]] = Some [[1;3];[];[6];[10;15;21];[];[28]].
Proof. vm_compute. reflexivity. Qed.

Example C19_ex_blelloch_tasks_7 :   (* (level, i, left operand slot) *)
  blelloch_tasks 7 = [(0,1,0);(0,3,2);(0,5,4);(1,3,1);(2,5,3);(3,2,1);(3,4,3);(3,6,5)].
Proof. vm_compute. reflexivity. Qed.

Example C19_ex_supported_window_spans_blocks :
  supports_native_sliding_window [2;3;1;4] 5 = true /\
  block_plan [2;3;1;4] 5 = [(2,2,1,2);(3,0,3,3);(1,3,3,3);(0,0,3,3)] /\
  sliding_native Z.add 0 [2;3;1;4] 5 [0;3;6;2;5;1;4;0;3;6] = [[16;17];[18;12;13];[14]].
Proof. vm_compute. repeat split. Qed.

Example C19_ex_moving_window_spans_blocks :
  supports_native_moving_window [2;3;1;4] 5 = true /\
  moving_plan [2;3;1;4] 5 = [(0,2,0,None);(2,3,0,Some (0,0));(5,1,1,Some (0,0));(6,4,0,Some (1,2))] /\
  moving_native Z.add 0 [2;3;1;4] 5 [0;3;6;2;5;1;4;0;3;6] = [[0;3];[9;11;16];[17];[18;12;13;14]].
Proof. vm_compute. repeat split. Qed.

Example C19_ex_overlap_depth_gt_block :
  overlap [[1;2;3];[4];[5;6;7;8;9]] 2 2 BPeriodic = Some [[8;9;1;2;3;4;5;6];[3;4;5;6;7;8;9;1;2]].
Proof. vm_compute. reflexivity. Qed.

Example C19_ex_roll_stencil_is_stencil : is_stencil 1 (roll_stencil_g 1) (roll_stencil 1).
Proof. exact (roll_stencil_is_stencil 1). Qed.

Example C19_ex_map_overlap_each_kind :
  map_overlap (roll_stencil 1) [[1;2;3];[4;5];[6;7;8;9]] 2 2 BReflect = Some [[7;10;16];[22;28];[34;40;46;51]] /\
  map_overlap (roll_stencil 1) [[1;2;3];[4;5];[6;7;8;9]] 1 1 BPeriodic = Some [[31;10;16];[22;28];[34;40;46;43]] /\
  map_overlap (roll_stencil 1) [[1;2;3];[4;5];[6;7;8;9]] 1 1 BNearest = Some [[7;10;16];[22;28];[34;40;46;51]] /\
  map_overlap (roll_stencil 1) [[1;2;3];[4;5];[6;7;8;9]] 1 1 (BConst 7) = Some [[25;10;16];[22;28];[34;40;46;49]] /\
  map_overlap (roll_stencil 1) [[1;2;3];[4;5];[6;7;8;9]] 1 1 BNone = Some [[16;10;16];[22;28];[34;40;46;47]].
Proof. vm_compute. repeat split. Qed.

Example C19_ex_diff :
  da_diff 2 (Some [7]) None [9;1;16;1;25;81;4] = Some [-10;23;-30;39;32;-133] /\
  da_diff 9 None None [1;2;3] = Some [] /\ da_diff (-1) None None [1;2;3] = None /\
  da_diff 0 (Some [7]) (Some [8]) [1;2;3] = Some [1;2;3] /\
  map (sbinom 3) [0;1;2;3;4]%nat = [-1;3;-3;1;0].
Proof. vm_compute. repeat split. Qed.

Example C19_ex_gradient_guarded :
  gradient_guard 2 [3;4;5] = true /\
  np_gradient2 2 [9;1;16;1;25;81;4;36;25;9;25;64] = Some [-39;7;0;9;80;-21;-45;21;-27;0;55;101] /\
  da_gradient2 2 (split_blocks [3;4;5] [9;1;16;1;25;81;4;36;25;9;25;64]) = Some [[-39;7;0];[9;80;-21;-45];[21;-27;0;55;101]] /\
  gradient_ext (split_blocks [3;4;5] [9;1;16;1;25;81;4;36;25;9;25;64]) = Some [[9;1;16;1];[16;1;25;81;4;36];[4;36;25;9;25;64]] /\
  array_locs [3;4;5] = ([0;2;6], [4;8;12]).
Proof. vm_compute. repeat split. Qed.

(* the guard rejects layouts on which the pipeline behind it is right *)
Example C19_ex_gradient_guard_is_stricter_than_needed :
  da_gradient2 1 [[9];[1;16;1]] = None /\
  da_gradient2_core 1 [[9];[1;16;1]] = Some [[-16;7;0;-30]] /\ np_gradient2 1 [9;1;16;1] = Some [-16;7;0;-30] /\
  da_gradient2_core 2 (split_blocks [1;1;3;1;5;1] [9;1;16;1;25;81;4;36;25;9;25;64]) = Some [[-39;7];[0;9;80];[-21];[-45;21;-27;0;55;101]].
Proof. vm_compute. repeat split. Qed.

Example C19_ex_gradient_rationals :
  da_gradient 2 (1#2) [[9;1;16];[1;25;81;4]] = Some [[-78#2; 14#2; 0#2]; [18#2; 160#2; -42#2; -574#2]]%Q /\
  np_gradient_x 1 (combine [9;1;16;1;25] [0;1;3;6;10]) = Some [-8#1; -102#36; 2250#900; -2016#7056; 24#4]%Q /\
  da_gradient_x 2 (split_blocks [3;3] (combine [9;1;16;1;25;4] [0;1;3;6;10;15])) = Some [[-474#36; -102#36; 2250#900]; [-2016#7056; 47520#32400; -319680#32400]]%Q.
Proof. vm_compute. repeat split. Qed.

Print Assumptions C19_cumsum_sequential.
Print Assumptions C19_cumsum_blelloch.
Print Assumptions C19_blelloch_wiring.
Print Assumptions C19_sliding_chunks.
Print Assumptions C19_sliding_native.
Print Assumptions C19_moving_native.
Print Assumptions C19_ensure_minimum_chunksize.
Print Assumptions C19_overlap_blocks.
Print Assumptions C19_overlap_trim_id.
Print Assumptions C19_map_overlap_stencil.
Print Assumptions C19_map_overlap_stencil_none.
Print Assumptions C19_diff_step.
Print Assumptions C19_diff.
Print Assumptions C19_diff_closed_form.
Print Assumptions C19_sbinom_is_signed_binomial.
Print Assumptions C19_gradient_plan.
Print Assumptions C19_gradient_unit_spacing.
Print Assumptions C19_gradient_scalar_spacing.
Print Assumptions C19_gradient_scalar_is_twice_over_2h.
Print Assumptions C19_gradient_coordinates.
Print Assumptions C19_gradient_guard_rejects.
Print Assumptions C19_gradient_without_guard.
Print Assumptions C19_gradient_without_guard_fails_like_numpy.
Print Assumptions C19_gradient_guard_no_rechunk.
Print Assumptions C19_array_locs.
Print Assumptions C19_array_locs_windows.
Print Assumptions C19_np_gradient_slices.
