(* C25 — store writes exactly the array into the requested target regions.
   Statements only: every theorem is closed by `exact <lemma proved in theories/StoreFacts.v>`.

   Model (theories/StoreModel.v), one axis at a time:
     block_slices cs            ArraySliceDep(chunks): block b covers [cum b, cum (b+1))
     store_index region bs      load_store_chunk's index: fuse_slice(region, bs), or bs itself when
                                region is None; None = fuse_slice raised NotImplementedError
     write_indices region cs    the write index of every block, in block order
     np_setitem / np_getitem    NumPy's out[index] = x / out[index] on a 1-d target (length-1
                                broadcasting and the ValueError on any other length mismatch included)
     store_chunk, store_blocks  one load_store_chunk task / a list of tasks run in the given order
     store_axis region cs src tgt   the whole store: the tasks of all blocks in block order
     load_chunk, load_stored    what return_stored=True reads back
   Specification side:
     sel s N                    the positions NumPy's x[s] selects on an axis of length N (PyBase.v)
     rsel region N              sel of the region (the whole axis for region = None)
     region_okb region          the region has no negative start/stop/step and a non-zero step
                                (C25_region_ok_iff); other regions are declined (the C25_store_declines theorems)
     region_fits region n N     the region designates at least n = len(source) cells of the target:
                                the documented precondition `target[region].shape == source.shape`
                                in the form the code needs.  store() itself never checks it; see
                                the C25_shape_mismatch theorems below.
   N-d stores are the product of their axes: C25_nd_index_per_axis (index tuples),
   C25_nd_cells_partition (the cells written by all blocks). *)
From DA Require Import PyBase Slicing FuseFacts StoreModel StoreFacts.
From Coq Require Import Permutation.
Open Scope Z_scope.

(* --- which regions are supported ------------------------------------------------- *)
Theorem C25_region_ok_iff :
  forall region,
  region_okb region = true <-> (forall r, region = Some r -> ~ has_negative r /\ step_of r <> 0).
Proof. exact region_okb_iff. Qed.

(* fuse_slice (hence store) declines exactly the regions with a negative field *)
Theorem C25_store_declines_only_negative :
  forall r cs n, valid_chunks cs n ->
  (write_indices (Some r) cs = None <-> has_negative r /\ cs <> []).
Proof. exact store_declines_iff. Qed.

Theorem C25_store_declines_not_implemented :
  forall (V : Type) r cs (src tgt : list V),
  valid_chunks cs (lenZ src) -> cs <> [] -> has_negative r ->
  store_axis (Some r) cs src tgt = SNotImpl.
Proof. intros V r cs src tgt _. apply store_axis_declines. Qed.

(* --- the write indices of the blocks --------------------------------------------- *)
(* For every chunking, region and target length: every block gets a write index; the
   positions they select, concatenated in block order, are exactly the first n = len(source)
   positions the region designates (source element i lands at the i-th designated
   position); no position is written twice (pairwise disjoint blocks, no repeats inside a
   block); all are inside the target; and when the region is long enough each block's index
   selects exactly as many cells as the block has values. *)
Theorem C25_block_indices_partition :
  forall region cs n N,
  region_okb region = true -> 0 <= N -> valid_chunks cs n ->
  exists idxs,
    write_indices region cs = Some idxs /\ length idxs = length cs /\
    concat (map (fun i => sel i N) idxs) = firstnZ n (rsel region N) /\
    NoDup (concat (map (fun i => sel i N) idxs)) /\
    Forall (fun p => 0 <= p < N) (concat (map (fun i => sel i N) idxs)) /\
    (region_fits region n N = true -> map (fun i => lenZ (sel i N)) idxs = cs).
Proof. exact block_indices_partition. Qed.

(* --- the store ------------------------------------------------------------------- *)
(* the fold over the blocks is ONE NumPy assignment target[region][:n] = source *)
Theorem C25_store_is_one_assignment :
  forall (V : Type) region cs (src tgt : list V),
  region_okb region = true -> valid_chunks cs (lenZ src) ->
  region_fits region (lenZ src) (lenZ tgt) = true ->
  store_axis region cs src tgt =
  SOk (assign tgt (firstnZ (lenZ src) (rsel region (lenZ tgt))) src).
Proof. intro V. exact (@store_axis_closed_form V). Qed.

(* cell by cell: the i-th designated position holds source[i]; every other cell of the
   target is untouched (frame condition); the target keeps its length *)
Theorem C25_store_exact :
  forall (V : Type) (d : V) region cs (src tgt : list V),
  region_okb region = true -> valid_chunks cs (lenZ src) ->
  region_fits region (lenZ src) (lenZ tgt) = true ->
  exists tgt',
    store_axis region cs src tgt = SOk tgt' /\ length tgt' = length tgt /\
    (forall i, 0 <= i < lenZ src ->
       nth (Z.to_nat (nth (Z.to_nat i) (rsel region (lenZ tgt)) 0)) tgt' d = nth (Z.to_nat i) src d) /\
    (forall p, 0 <= p < lenZ tgt -> ~ In p (firstnZ (lenZ src) (rsel region (lenZ tgt))) ->
       nth (Z.to_nat p) tgt' d = nth (Z.to_nat p) tgt d).
Proof. intro V. exact (@store_axis_exact V). Qed.

(* the scheduler may run the block tasks in any order *)
Theorem C25_store_order_independent :
  forall (V : Type) region cs (src tgt : list V) tasks',
  region_okb region = true -> valid_chunks cs (lenZ src) ->
  region_fits region (lenZ src) (lenZ tgt) = true ->
  Permutation tasks' (store_tasks cs src) ->
  store_blocks region tasks' tgt = store_axis region cs src tgt.
Proof. intro V. exact (@store_blocks_order_independent V). Qed.

(* return_stored=True (compute=True): the blocks loaded from the target after the store
   are the source's blocks, so the returned array equals the source, chunk for chunk *)
Theorem C25_return_stored_reads_back :
  forall (V : Type) (d : V) region cs (src tgt tgt' : list V),
  region_okb region = true -> valid_chunks cs (lenZ src) ->
  region_fits region (lenZ src) (lenZ tgt) = true ->
  store_axis region cs src tgt = SOk tgt' ->
  load_stored d region cs tgt' = map SOk (split_chunks cs src).
Proof. intro V. exact (@load_stored_reads_back V). Qed.

(* return_stored=True, compute=False (load_stored): each task returns out[index] right
   after its own write — that is the block it wrote, whatever the target held before *)
Theorem C25_store_chunk_reads_back :
  forall (V : Type) (d : V) region a b (out x o : list V),
  region_okb region = true -> 0 <= a <= b ->
  region_fits region b (lenZ out) = true -> lenZ x = b - a ->
  store_chunk region out (blk a b) x = SOk o ->
  load_chunk d region o (blk a b) = SOk x.
Proof. intro V. exact (@store_chunk_reads_back V). Qed.

(* --- the region-length precondition ------------------------------------------------ *)
(* store() never compares target[region].shape with source.shape; it relies on the
   target's __setitem__.  With every block of size >= 2 a too-short region does raise: *)
Theorem C25_shape_mismatch_raises_if_blocks_ge2 :
  forall (V : Type) region cs (src tgt : list V),
  region_okb region = true -> valid_chunks cs (lenZ src) -> Forall (fun c => 2 <= c) cs ->
  region_fits region (lenZ src) (lenZ tgt) = false ->
  store_axis region cs src tgt = SValueErr.
Proof. intro V. exact (@store_axis_short_raises V). Qed.

(* FULL STATEMENT (false): forall region cs src tgt, region_okb region = true ->
     valid_chunks cs (lenZ src) -> region_fits region (lenZ src) (lenZ tgt) = false ->
     store_axis region cs src tgt = SValueErr.
   Refuted: with size-1 blocks past the end of the region NumPy broadcasts the one value
   onto an empty selection, the store "succeeds" and silently drops source values
   (finding C25-B; witness: da.store(da.from_array(np.arange(6), chunks=(3,1,1,1)),
   np.full(10, -1), regions=(slice(0, 4),)) returns normally and drops 4 and 5). *)
Theorem C25_shape_mismatch_raises_refuted :
  exists region cs (src tgt tgt' : list Z),
    region_okb region = true /\ valid_chunks cs (lenZ src) /\
    region_fits region (lenZ src) (lenZ tgt) = false /\
    store_axis region cs src tgt = SOk tgt' /\ ~ In 104 tgt' /\ In 104 src.
Proof. exact store_axis_short_silent. Qed.

(* --- N-d: the index tuple of a block is the tuple of its per-axis indices ---------- *)
Theorem C25_nd_index_per_axis :
  forall rs bss, length rs = length bss ->
  store_index_nd (Some (map ISlice rs)) (map ISlice bss) =
  option_map (map ISlice) (store_index_axes (map Some rs) bss).
Proof. exact store_index_nd_axes. Qed.

Theorem C25_nd_index_no_region :
  forall bss,
  store_index_nd None (map ISlice bss) =
  option_map (map ISlice) (store_index_axes (map (fun _ => None) bss) bss).
Proof. exact store_index_nd_none. Qed.

(* the cells written by ALL blocks of an N-d store (one region entry per axis): every
   block gets an index tuple, and the cells the blocks address — the product of each
   block's per-axis positions — are, up to the order of enumeration, exactly the product
   of the per-axis designated positions, each cell once (blocks pairwise disjoint) *)
Theorem C25_nd_cells_partition :
  forall regions chunks ns Ns,
  Forall2 valid_chunks chunks ns -> length regions = length chunks -> length Ns = length chunks ->
  Forall (fun r => region_okb r = true) regions -> Forall (fun N => 0 <= N) Ns ->
  exists ws,
    write_indices_nd regions chunks = Some ws /\
    Permutation (flat_map (fun idxs => cart (sels_of idxs Ns)) ws) (cart (designated regions ns Ns)) /\
    NoDup (cart (designated regions ns Ns)).
Proof. exact nd_cells_partition. Qed.

(* --- npy stack -------------------------------------------------------------------- *)
(* one axis: file i holds block i; the file lengths are the chunks; concatenating the
   files in order (what from_npy_stack's graph does) is the array *)
Theorem C25_npy_stack_roundtrip :
  forall (V : Type) cs (l : list V), valid_chunks cs (lenZ l) ->
  concat (split_chunks cs l) = l /\ map lenZ (split_chunks cs l) = cs /\
  length (split_chunks cs l) = length cs.
Proof. intro V. exact (@split_chunks_roundtrip V). Qed.

(* the layout recorded in `info`: the stacking axis keeps its chunks, every other axis
   becomes one chunk of the same total length *)
Theorem C25_npy_stack_chunks_spec :
  forall axis chunks,
  length (npy_stack_chunks axis chunks) = length chunks /\
  forall j, (j < length chunks)%nat ->
    nth j (npy_stack_chunks axis chunks) [] =
    if Z.of_nat j =? axis then nth j chunks [] else [zsum (nth j chunks [])].
Proof. exact npy_stack_chunks_spec. Qed.

Theorem C25_npy_stack_chunks_valid :
  forall axis chunks shape,
  Forall2 valid_chunks chunks shape -> Forall2 valid_chunks (npy_stack_chunks axis chunks) shape.
Proof. exact npy_stack_chunks_valid. Qed.

(* --- non-vacuity: concrete non-trivial inputs meeting the hypotheses ---------------- *)
Example C25_ex_stepped_region_zero_chunk :
  let region := Some (mkslice (Some 1) None (Some 3)) in      (* target[1::3] *)
  let cs := [2; 0; 3] in let src := [100; 101; 102; 103; 104] in let tgt := repeat (-1) 14 in
  region_okb region = true /\ valid_chunks cs (lenZ src) /\
  region_fits region (lenZ src) (lenZ tgt) = true /\
  write_indices region cs = Some [mkslice (Some 1) (Some 7) (Some 3); mkslice (Some 7) (Some 7) (Some 3);
                                  mkslice (Some 7) (Some 16) (Some 3)] /\
  rsel region (lenZ tgt) = [1; 4; 7; 10; 13] /\
  store_axis region cs src tgt = SOk [-1; 100; -1; -1; 101; -1; -1; 102; -1; -1; 103; -1; -1; 104] /\
  load_stored 0 region cs [-1; 100; -1; -1; 101; -1; -1; 102; -1; -1; 103; -1; -1; 104]
    = [SOk [100; 101]; SOk []; SOk [102; 103; 104]].
Proof.
  cbv zeta. split; [reflexivity|]. split; [split; [repeat constructor; lia|reflexivity]|].
  repeat split; vm_compute; reflexivity.
Qed.

Example C25_ex_long_region_offset :     (* region longer than the source: the first n cells *)
  let region := Some (mkslice (Some 2) (Some 9) None) in
  region_fits region 6 10 = true /\ slice_len (region_slice region) 10 = 7 /\
  store_axis region [3; 1; 1; 1] [100; 101; 102; 103; 104; 105] (repeat (-1) 10)
  = SOk [-1; -1; 100; 101; 102; 103; 104; 105; -1; -1] /\
  (* a different task order *)
  store_blocks region (rev (store_tasks [3; 1; 1; 1] [100; 101; 102; 103; 104; 105])) (repeat (-1) 10)
  = SOk [-1; -1; 100; 101; 102; 103; 104; 105; -1; -1] /\
  Permutation (rev (store_tasks [3; 1; 1; 1] [100; 101; 102; 103; 104; 105]))
              (store_tasks [3; 1; 1; 1] [100; 101; 102; 103; 104; 105]).
Proof.
  cbv zeta. repeat split; try (vm_compute; reflexivity). apply Permutation_sym, Permutation_rev.
Qed.

Example C25_ex_declined_and_mismatch :
  has_negative (mkslice (Some (-8)) None None) /\
  store_axis (Some (mkslice (Some (-8)) None None)) [3; 3] [1; 2; 3; 4; 5; 6] (repeat 0 10) = SNotImpl /\
  region_fits (Some (mkslice (Some 0) (Some 4) None)) 6 10 = false /\
  Forall (fun c => 2 <= c) [3; 3] /\
  store_axis (Some (mkslice (Some 0) (Some 4) None)) [3; 3] [1; 2; 3; 4; 5; 6] (repeat 0 10) = SValueErr.
Proof.
  split; [left; exists (-8); split; [reflexivity|lia]|].
  repeat split; try (vm_compute; reflexivity). repeat constructor; lia.
Qed.

Example C25_ex_nd_index :
  store_index_nd (Some [ISlice (mkslice (Some 1) (Some 4) None); ISlice (mkslice (Some 2) None (Some 2))])
                 [ISlice (mkslice (Some 2) (Some 3) None); ISlice (mkslice (Some 1) (Some 4) None)]
  = Some [ISlice (mkslice (Some 3) (Some 4) None); ISlice (mkslice (Some 4) (Some 10) (Some 2))] /\
  npy_stack_chunks 1 [[2; 3]; [1; 1; 4]; [7]] = [[5]; [1; 1; 4]; [7]].
Proof. split; vm_compute; reflexivity. Qed.

Example C25_ex_nd_cells :
  let regions := [Some (mkslice (Some 1) (Some 4) None); Some (mkslice (Some 0) None (Some 2))] in
  let chunks := [[2; 1]; [1; 2]] in
  Forall2 valid_chunks chunks [3; 3] /\
  write_indices_nd regions chunks =
    Some [[mkslice (Some 1) (Some 3) None; mkslice (Some 0) (Some 2) (Some 2)];
          [mkslice (Some 1) (Some 3) None; mkslice (Some 2) (Some 6) (Some 2)];
          [mkslice (Some 3) (Some 4) None; mkslice (Some 0) (Some 2) (Some 2)];
          [mkslice (Some 3) (Some 4) None; mkslice (Some 2) (Some 6) (Some 2)]] /\
  designated regions [3; 3] [5; 6] = [[1; 2; 3]; [0; 2; 4]] /\
  flat_map (fun idxs => cart (sels_of idxs [5; 6]))
           [[mkslice (Some 3) (Some 4) None; mkslice (Some 2) (Some 6) (Some 2)]] = [[3; 2]; [3; 4]].
Proof.
  cbv zeta. split; [repeat constructor; lia|]. repeat split; vm_compute; reflexivity.
Qed.

Print Assumptions C25_region_ok_iff.
Print Assumptions C25_store_declines_only_negative.
Print Assumptions C25_store_declines_not_implemented.
Print Assumptions C25_block_indices_partition.
Print Assumptions C25_store_is_one_assignment.
Print Assumptions C25_store_exact.
Print Assumptions C25_store_order_independent.
Print Assumptions C25_return_stored_reads_back.
Print Assumptions C25_store_chunk_reads_back.
Print Assumptions C25_shape_mismatch_raises_if_blocks_ge2.
Print Assumptions C25_shape_mismatch_raises_refuted.
Print Assumptions C25_nd_index_per_axis.
Print Assumptions C25_nd_index_no_region.
Print Assumptions C25_nd_cells_partition.
Print Assumptions C25_npy_stack_roundtrip.
Print Assumptions C25_npy_stack_chunks_spec.
Print Assumptions C25_npy_stack_chunks_valid.
