(* C12 — Indexing follows NumPy semantics for every supported index (basic indices:
   integers, slices of any sign, None, Ellipsis; and — second half of this file — ONE axis
   indexed with a one-dimensional integer list / ndarray, x[:, [3, 0, 3]] / da.take, the
   Shuffle path; the other fancy paths are checked by value in harness/c12.py).
   Statements only: every theorem is closed by `exact <lemma proved in theories/>`.

   Vocabulary (coq/theories/Indexing.v, spec side):
     sel s n            positions NumPy's x[s] selects on an axis of length n (PyBase.v)
     np_expand r idx    NumPy's expansion of a basic index on rank r (Ellipsis -> full slices,
                        missing trailing axes -> full slices)
     np_meaning idx sh  per entry of an Ellipsis-free index: ADrop p (integer: position p, axis
                        dropped) | AKeep ps (slice: positions ps) | ANew (None: new length-1 axis)
     out_shape m        shape of the result
     segment ps lens j  the j-th run of ps when cut into consecutive runs of lengths lens
     kept_view vs v idx walk idx: slices take the next of vs, None contributes v, ints nothing
   Model side: replace_ellipsis, pad_index, normalize_index, strip_nones/where_none
   (slice_with_newaxes), ssi_chunks/ssi_layer (SliceSlicesIntegers.chunks/_layer),
   insert_axes/getitem_chunks (ExpandDims), getitem_basic (Array.__getitem__). *)
From DA Require Import PyBase Slicing Slice1dFacts Indexing IndexingFacts IndexingBlocks.
From Coq Require Import Permutation.
From DA Require Import Transfer2 TakeModel TakeModelFacts.
Open Scope Z_scope.

(* ---------------------------------------------------------------------- *)
(* Ellipsis / padding *)

(* replace_ellipsis + the padding with full slices is NumPy's expansion: the single
   Ellipsis stands for exactly the axes not consumed by the other entries *)
Theorem C12_ellipsis_expansion :
  forall rank idx, countZ is_ellipsis idx <= 1 -> consumed idx <= rank ->
  pad_index rank (replace_ellipsis rank idx) = np_expand rank idx.
Proof. exact expand_is_np_expand. Qed.

Theorem C12_ellipsis_expansion_shape :
  forall rank idx, countZ is_ellipsis idx <= 1 -> consumed idx <= rank ->
  existsb is_ellipsis (np_expand rank idx) = false /\
  consumed (np_expand rank idx) = rank /\
  countZ is_none (np_expand rank idx) = countZ is_none idx.
Proof. exact np_expand_shape. Qed.

(* ---------------------------------------------------------------------- *)
(* which indices are accepted, and what the normalized index means *)

(* accepted  <->  at most one Ellipsis, not more entries than axes, and (after expansion)
   every integer inside [-n, n) and every step non-zero *)
Theorem C12_normalize_index_accepts_iff :
  forall idx shape,
  (exists idx', normalize_index idx shape = NOk idx') <->
  (countZ is_ellipsis idx <= 1 /\ consumed idx <= lenZ shape /\
   np_valid (np_expand (lenZ shape) idx) shape).
Proof. exact normalize_index_accepts_iff. Qed.

(* the normalized index selects, entry by entry, what NumPy selects for the original
   index (integers: the NumPy position; slices: the same positions in the same order;
   None entries stay where they are) ... *)
Theorem C12_normalize_index_sel :
  forall idx shape idx', Forall (fun n => 0 <= n) shape ->
  normalize_index idx shape = NOk idx' ->
  np_meaning idx' shape = np_meaning (np_expand (lenZ shape) idx) shape.
Proof. exact normalize_index_meaning. Qed.

(* ... and is in normal form: integers in [0, n), slices `normalized` (the hypothesis of
   C13_slice1d_partition), no Ellipsis, one entry per axis *)
Theorem C12_normalize_index_normalized :
  forall idx shape idx', Forall (fun n => 0 <= n) shape ->
  normalize_index idx shape = NOk idx' -> index_normalized idx' shape.
Proof. exact normalize_index_normalized. Qed.

(* ---------------------------------------------------------------------- *)
(* errors: raised, never wrapped *)

Theorem C12_out_of_bounds_raises :
  forall idx shape, countZ is_ellipsis idx <= 1 -> consumed idx <= lenZ shape ->
  ~ ints_in_bounds (np_expand (lenZ shape) idx) shape ->
  normalize_index idx shape = NIndexError.
Proof. exact out_of_bounds_raises. Qed.

Theorem C12_out_of_bounds_int_1d :
  forall n i, ~ (- n <= i < n) -> normalize_index [EInt i] [n] = NIndexError.
Proof. exact out_of_bounds_int_1d. Qed.

Theorem C12_too_many_indices_raise :
  forall idx shape, lenZ shape < consumed idx -> normalize_index idx shape = NIndexError.
Proof. exact too_many_indices_raise. Qed.

(* two Ellipsis are never accepted (NumPy: IndexError; the implementation: IndexError or a
   TypeError from `Ellipsis >= int` -- see C12_ex_two_ellipsis_TypeError) *)
Theorem C12_multiple_ellipsis_raise :
  forall idx shape, 2 <= countZ is_ellipsis idx -> forall idx', normalize_index idx shape <> NOk idx'.
Proof. exact multiple_ellipsis_raise. Qed.

(* ---------------------------------------------------------------------- *)
(* the SliceSlicesIntegers node: N-D product of C13_slice1d_partition.
   ssi_wf: per axis a valid non-empty chunking and an in-range integer / normalized slice.
   entry_spec (block_spec): for the graph entry (output block o, input block i, local
   indices sl), on every sliced axis the positions read from input block ib by the local
   slice are the o-th run of NumPy's selection `sel s n` cut by the advertised chunks
   (and there are exactly chunk[o] of them); on every integer axis the local integer
   addresses exactly the requested position inside its block, and the axis is dropped. *)
Theorem C12_basic_index_blocks :
  forall shape chunks index, ssi_wf shape chunks index ->
  Forall (entry_spec shape chunks index) (ssi_layer shape chunks index).
Proof. exact ssi_layer_blocks. Qed.

(* the boolean checker the harness runs on every real node implies ssi_wf *)
Theorem C12_wf_checker :
  forall shape chunks index, ssi_wf_b shape chunks index = true -> ssi_wf shape chunks index.
Proof. exact ssi_wf_b_true. Qed.

(* every block of the advertised grid is produced exactly once (negative steps number
   the output blocks in reverse: range(len(d))[::-1]) *)
Theorem C12_block_grid :
  forall shape chunks index, ssi_wf shape chunks index ->
  let outs := map fst (ssi_layer shape chunks index) in
  NoDup outs /\
  forall o, In o outs <-> Forall2 (fun ob nb => 0 <= ob < lenZ nb) o (ssi_chunks shape chunks index).
Proof. exact ssi_layer_grid. Qed.

(* .chunks: produced block extents = advertised chunks, block by block ... *)
Theorem C12_chunks_match :
  forall shape chunks index, ssi_wf shape chunks index ->
  Forall (fun e => block_extents chunks index (fst (snd e)) (snd (snd e)) =
                   advertised_extents (ssi_chunks shape chunks index) (fst e))
         (ssi_layer shape chunks index).
Proof. exact ssi_chunks_match_blocks. Qed.

(* ... and they are non-negative and add up to NumPy's result shape *)
Theorem C12_chunks_shape :
  forall shape chunks index, ssi_wf shape chunks index ->
  map zsum (ssi_chunks shape chunks index) = out_shape (np_meaning index shape) /\
  Forall (Forall (fun c => 0 <= c)) (ssi_chunks shape chunks index).
Proof. exact ssi_chunks_shape. Qed.

(* ---------------------------------------------------------------------- *)
(* None entries *)

(* the axes computed by slice_with_newaxes and inserted by ExpandDims put one new entry
   exactly at every None (for chunks v = (1,), for block keys v = 0) ... *)
Theorem C12_newaxis_layout :
  forall (A : Type) (v : A) idx vals, lenZ vals = countZ takes_value idx ->
  insert_axes (where_none idx) vals v = kept_view vals v idx.
Proof. exact @where_none_layout. Qed.

(* ... without touching the data positions ... *)
Theorem C12_newaxis_positions :
  forall idx shape,
  np_meaning (strip_nones idx) shape = filter (fun a => negb (is_new a)) (np_meaning idx shape).
Proof. exact strip_nones_meaning. Qed.

(* ... and the final chunks add up to NumPy's shape, with (1,) at every None *)
Theorem C12_newaxis :
  forall idx shape chunks,
  index_normalized idx shape -> ssi_wf shape chunks (strip_nones idx) ->
  getitem_chunks shape chunks (strip_nones idx) (where_none idx) =
    kept_view (ssi_chunks shape chunks (strip_nones idx)) [1] idx /\
  map zsum (getitem_chunks shape chunks (strip_nones idx) (where_none idx)) = out_shape (np_meaning idx shape).
Proof. exact getitem_chunks_shape. Qed.

(* ---------------------------------------------------------------------- *)
(* Array.__getitem__ end to end (basic indices) *)

Theorem C12_getitem_node :
  forall idx shape chunks index allow axes,
  Forall (fun n => 0 <= n) shape -> chunks_ok shape chunks ->
  getitem_basic idx shape = GNode index allow axes ->
  exists idx', normalize_index idx shape = NOk idx' /\
    index = strip_nones idx' /\ axes = where_none idx' /\
    ssi_wf shape chunks index /\
    np_meaning index shape =
      filter (fun a => negb (is_new a)) (np_meaning (np_expand (lenZ shape) idx) shape) /\
    getitem_chunks shape chunks index axes = kept_view (ssi_chunks shape chunks index) [1] idx' /\
    map zsum (getitem_chunks shape chunks index axes) =
      out_shape (np_meaning (np_expand (lenZ shape) idx) shape).
Proof. exact getitem_basic_node. Qed.

(* `return self` is taken only for the identity index *)
Theorem C12_getitem_self :
  forall idx shape, Forall (fun n => 0 <= n) shape -> getitem_basic idx shape = GSelf ->
  np_meaning (np_expand (lenZ shape) idx) shape = map (fun n => AKeep (sel colon n)) shape.
Proof. exact getitem_basic_self. Qed.

Theorem C12_getitem_err :
  forall idx shape e, getitem_basic idx shape = GErr e ->
  normalize_index idx shape = e /\ forall idx', e <> NOk idx'.
Proof. exact getitem_basic_err. Qed.

(* ---------------------------------------------------------------------- *)
(* non-vacuity: concrete non-trivial inputs *)

(* x[None, 1:3, ..., None] on shape (4,6), chunks ((2,0,2),(3,3)) *)
Example C12_ex_getitem_newaxes :
  getitem_basic [ENone; ESlice (mkslice (Some 1) (Some 3) None); EEllipsis; ENone] [4; 6] =
    GNode [ESlice (mkslice (Some 1) (Some 3) None); ESlice colon] false [0; 3] /\
  getitem_chunks [4; 6] [[2; 0; 2]; [3; 3]] [ESlice (mkslice (Some 1) (Some 3) None); ESlice colon] [0; 3] =
    [[1]; [1; 1]; [3; 3]; [1]].
Proof. split; vm_compute; reflexivity. Qed.

(* x[::-1, 2] across a zero-size chunk: ssi_wf holds, two output blocks numbered in reverse *)
Example C12_ex_wf_negative_step :
  ssi_wf [4; 6] [[2; 0; 2]; [3; 3]] [ESlice (mkslice None None (Some (-1))); EInt 2] /\
  map fst (ssi_layer [4; 6] [[2; 0; 2]; [3; 3]] [ESlice (mkslice None None (Some (-1))); EInt 2]) = [[1]; [0]] /\
  ssi_chunks [4; 6] [[2; 0; 2]; [3; 3]] [ESlice (mkslice None None (Some (-1))); EInt 2] = [[2; 2]].
Proof.
  split; [|split; vm_compute; reflexivity].
  cbn [ssi_wf]. repeat split; try discriminate; try lia; try (repeat constructor; lia).
  apply normalized_b_iff. vm_compute. reflexivity.
Qed.

Example C12_ex_accepted :
  normalize_index [EEllipsis; EInt (-1)] [4; 6] = NOk [ESlice colon; EInt 5] /\
  np_expand 2 [EEllipsis; EInt (-1)] = [ESlice colon; EInt (-1)] /\
  np_meaning [ESlice colon; EInt 5] [4; 6] = [AKeep [0; 1; 2; 3]; ADrop 5].
Proof. repeat split; vm_compute; reflexivity. Qed.

(* F8 repaired: x[-7::-1] on a length-5 axis selects nothing *)
Example C12_ex_F8_repaired :
  normalize_index [ESlice (mkslice (Some (-7)) None (Some (-1)))] [5] = NOk [ESlice (mkslice (Some 0) (Some 0) (Some (-1)))] /\
  np_meaning [ESlice (mkslice (Some 0) (Some 0) (Some (-1)))] [5] = [AKeep []].
Proof. split; vm_compute; reflexivity. Qed.

(* two Ellipsis: the exception class differs from NumPy's IndexError *)
Example C12_ex_two_ellipsis_TypeError :
  normalize_index [EEllipsis; EEllipsis] [4; 6] = NTypeError /\
  normalize_index [EEllipsis; EInt 9; EEllipsis] [4; 6; 2] = NIndexError.
Proof. split; vm_compute; reflexivity. Qed.

Example C12_ex_errors :
  normalize_index [EInt 4] [4] = NIndexError /\ normalize_index [EInt (-5)] [4] = NIndexError /\
  normalize_index [EInt 0; EInt 0] [4] = NIndexError /\
  normalize_index [ESlice (mkslice None None (Some 0))] [4] = NValueError.
Proof. repeat split; vm_compute; reflexivity. Qed.

Print Assumptions C12_ellipsis_expansion.
Print Assumptions C12_ellipsis_expansion_shape.
Print Assumptions C12_normalize_index_accepts_iff.
Print Assumptions C12_normalize_index_sel.
Print Assumptions C12_normalize_index_normalized.
Print Assumptions C12_out_of_bounds_raises.
Print Assumptions C12_out_of_bounds_int_1d.
Print Assumptions C12_too_many_indices_raise.
Print Assumptions C12_multiple_ellipsis_raise.
Print Assumptions C12_basic_index_blocks.
Print Assumptions C12_wf_checker.
Print Assumptions C12_block_grid.
Print Assumptions C12_chunks_match.
Print Assumptions C12_chunks_shape.
Print Assumptions C12_newaxis_layout.
Print Assumptions C12_newaxis_positions.
Print Assumptions C12_newaxis.
Print Assumptions C12_getitem_node.
Print Assumptions C12_getitem_self.
Print Assumptions C12_getitem_err.

(* ====================================================================== *)
(* FANCY PATH: one axis indexed with a one-dimensional integer list / ndarray
   (x[:, [3, 0, 3, 5]], da.take(x, idx, axis)) — coq/theories/TakeModel.v.

   Vocabulary.  chunks = x.chunks[axis] (all >= 0; zero-size chunks are supported by the code
   and by every theorem below; `pos_chunks` is the special case asked for), d = zsum chunks.
   Model side: take_normalize (check_index + posify_index), take_block / take_start /
   take_pair (searchsorted on the cumulative sums), compute_indexer (_compute_indexer),
   Transfer2.nc_loop (Shuffle._new_chunks), take_limit (Shuffle._chunk_size_limit),
   take_route_of (which node is built: IndexError | slice(0,0,1) | x itself | Shuffle),
   take_groups (the output blocks as lists of input positions), take_out_chunks
   (Shuffle.chunks along the axis), take_plan (per output block the (input block, local
   offset) pairs in output order, read back from Shuffle._layer by the harness).
   Spec side: np_in_range d i := -d <= i < d;  np_pos d i := i + d if i < 0 else i;
   py_nth dflt l i = Python's l[i];  in_block chunks l b = block b of l;
   plan_read dflt chunks l plan = what the plan reads from the blocks of l;
   pair_ok chunks (b, o) := 0 <= b < len chunks /\ 0 <= o < chunks[b]. *)

(* ---------------------------------------------------------------------- *)
(* (a) normalisation: accepted <-> every entry in [-d, d) (NumPy's rule); negative entries
   are mapped to i + d = i mod d, the result lies in [0, d) *)
Theorem C12_take_normalize_accepts_iff :
  forall d idx, (exists n, take_normalize d idx = Some n) <-> Forall (np_in_range d) idx.
Proof. exact take_normalize_accepts_iff. Qed.

Theorem C12_take_normalize_rejects_iff :
  forall d idx, take_normalize d idx = None <-> Exists (fun i => i < - d \/ d <= i) idx.
Proof. exact take_normalize_rejects_iff. Qed.

Theorem C12_take_normalize_value :
  forall d idx n, take_normalize d idx = Some n ->
  n = map (np_pos d) idx /\ Forall (fun j => 0 <= j < d) n /\
  Forall (fun i => np_pos d i = i mod d) idx.
Proof. exact take_normalize_value. Qed.

(* IndexError exactly when some entry is out of range; the empty list is the only index
   turned into slice(0, 0, 1) *)
Theorem C12_take_raises_iff :
  forall chunks idx, take_route_of chunks idx = TRError <->
  Exists (fun i => i < - zsum chunks \/ zsum chunks <= i) idx.
Proof. exact take_route_error_iff. Qed.

Theorem C12_take_empty_iff :
  forall chunks idx, take_route_of chunks idx = TREmptySlice <-> idx = [].
Proof. exact take_route_empty_iff. Qed.

(* ---------------------------------------------------------------------- *)
(* where an element lives: the (block, offset) pair computed with searchsorted is inside
   its block and denotes position i *)
Theorem C12_take_pair :
  forall chunks i, nonneg_chunks chunks -> 0 <= i < zsum chunks ->
  pair_ok chunks (take_pair chunks i) /\
  zsum (firstn (Z.to_nat (fst (take_pair chunks i))) chunks) + snd (take_pair chunks i) = i.
Proof. exact take_pair_spec. Qed.

(* ---------------------------------------------------------------------- *)
(* (b) value-level correctness of the plan: reading, output block after output block, the
   (input block, local offset) pairs from the blocks of ANY list l laid out with `chunks`
   gives exactly [l[i] for i in idx] (Python indexing, negative entries from the end) *)
Theorem C12_take_plan_values :
  forall (A : Type) (dflt : A) chunks idx (l : list A) plan,
  nonneg_chunks chunks -> zlen l = zsum chunks -> take_plan chunks idx = Some plan ->
  concat (plan_read dflt chunks l plan) = map (py_nth dflt l) idx.
Proof. exact @take_plan_values. Qed.

Theorem C12_take_plan_values_pos :
  forall (A : Type) (dflt : A) chunks idx (l : list A) plan,
  pos_chunks chunks -> zlen l = zsum chunks -> take_plan chunks idx = Some plan ->
  concat (plan_read dflt chunks l plan) = map (py_nth dflt l) idx.
Proof. intros A dflt chunks idx l plan H. exact (take_plan_values dflt chunks idx l plan (PyBaseFacts.Forall_pos_nonneg chunks H)). Qed.

(* global position = offset of the input block + local offset = the normalised index *)
Theorem C12_take_plan_positions :
  forall chunks idx plan, nonneg_chunks chunks -> take_plan chunks idx = Some plan ->
  map (fun p => zsum (firstn (Z.to_nat (fst p)) chunks) + snd p) (concat plan)
  = map (np_pos (zsum chunks)) idx.
Proof. exact take_plan_positions. Qed.

(* (c) every pair is in bounds of its input block *)
Theorem C12_take_plan_in_bounds :
  forall chunks idx plan, nonneg_chunks chunks -> take_plan chunks idx = Some plan ->
  Forall (Forall (pair_ok chunks)) plan.
Proof. exact take_plan_in_bounds. Qed.

(* ---------------------------------------------------------------------- *)
(* (d) the advertised chunks sum to len(idx), are the sizes of the groups and of the blocks
   of the plan; (e) none exceeds the largest INPUT chunk along the axis
   (Shuffle._chunk_size_limit) — in every route *)
Theorem C12_take_out_chunks :
  forall chunks idx oc, nonneg_chunks chunks -> take_out_chunks chunks idx = Some oc ->
  zsum oc = zlen idx /\
  Forall (fun c => 0 <= c <= take_limit chunks) oc /\
  exists gs plan, take_groups chunks idx = Some gs /\ take_plan chunks idx = Some plan /\
                  oc = map (fun g => zlen g) gs /\ oc = map (fun b => zlen b) plan.
Proof. exact take_out_chunks_spec. Qed.

(* the groups partition the normalised index in order *)
Theorem C12_take_groups :
  forall chunks idx gs, nonneg_chunks chunks -> take_groups chunks idx = Some gs ->
  exists n, take_normalize (zsum chunks) idx = Some n /\ concat gs = n /\
            Forall (fun g => zlen g <= take_limit chunks) gs.
Proof. exact take_groups_spec. Qed.

(* the limit is the maximum of the input chunks *)
Theorem C12_take_limit_is_max :
  forall chunks, Forall (fun c => c <= take_limit chunks) chunks /\
  (nonneg_chunks chunks -> 0 < zsum chunks -> 1 <= take_limit chunks).
Proof. intros chunks. split; [exact (take_limit_ge chunks) | exact (take_limit_pos chunks)]. Qed.

(* (e) on the Shuffle route: _compute_indexer cuts the normalised index into non-empty runs
   each inside ONE input chunk; _new_chunks regroups it (same order) into output chunks that
   are never empty and never larger than the largest input chunk.  (The branch
   `if len(current_chunk) > limit` after `current_chunk.extend(idx)` of _new_chunks is dead.) *)
Theorem C12_take_shuffle_chunks :
  forall chunks idx index indexer nc,
  nonneg_chunks chunks -> take_route_of chunks idx = TRShuffle index indexer nc ->
  concat indexer = index /\ concat nc = index /\
  Forall (fun g => g <> []) indexer /\
  Forall (fun g => forall a b, In a g -> In b g -> take_block chunks a = take_block chunks b) indexer /\
  Forall (fun g => 1 <= zlen g <= take_limit chunks) nc.
Proof. exact take_shuffle_chunks. Qed.

Theorem C12_take_shuffle_route :
  forall chunks idx index indexer nc,
  take_route_of chunks idx = TRShuffle index indexer nc ->
  take_normalize (zsum chunks) idx = Some index /\ index <> [] /\ index <> arange (zsum chunks) /\
  indexer = compute_indexer chunks index /\ nc = nc_loop (take_limit chunks) indexer [] [].
Proof. exact take_route_shuffle_inv. Qed.

(* the no-op: idx == arange(d) returns x itself, chunks unchanged *)
Theorem C12_take_identity :
  forall chunks idx, nonneg_chunks chunks -> take_route_of chunks idx = TRIdentity ->
  take_out_chunks chunks idx = Some chunks /\ map (np_pos (zsum chunks)) idx = arange (zsum chunks).
Proof. exact take_identity_chunks. Qed.

(* the docstring of `shuffle` promises "each group will end up in exactly one chunk"; for
   the groups _compute_indexer builds this is FALSE: a run longer than the largest input
   chunk is split (x[[0, 0, 0]] with chunks (2,) -> one run [0,0,0], output chunks (2, 1)) *)
Theorem C12_take_group_in_one_chunk_refuted :
  exists chunks idx index indexer nc,
    pos_chunks chunks /\ take_route_of chunks idx = TRShuffle index indexer nc /\
    exists g, In g indexer /\ ~ exists c, In c nc /\ incl g c /\ (length g <= length c)%nat.
Proof. exact take_group_split_witness. Qed.

(* the number of output chunks is NOT bounded by the number of input chunks *)
Theorem C12_take_nblocks_not_bounded_refuted :
  exists chunks idx oc, pos_chunks chunks /\ take_out_chunks chunks idx = Some oc /\
                        zlen chunks < zlen oc.
Proof. exact take_nblocks_witness. Qed.

(* the TASKS of the layer: per output block one split task per source block (reading sorted
   local offsets, or — a single source block — the offsets in output order); whatever the
   order inside the tasks, together they read exactly the pairs of the plan (as a multiset;
   the merge task reorders them with argsort(sorter), which the harness replays) *)
Theorem C12_take_splits :
  forall chunks idx sps, take_splits chunks idx = Some sps ->
  exists plan, take_plan chunks idx = Some plan /\
               Forall2 (fun sp block => Permutation (unsplit sp) block) sps plan.
Proof. exact take_splits_spec. Qed.

(* hypotheses are satisfiable; the model on concrete inputs *)
Example C12_ex_take_route :
  take_route_of [3; 4; 3] [3; 0; 3; 5; 9; 9; 1; -1]
  = TRShuffle [3; 0; 3; 5; 9; 9; 1; 9] [[3]; [0]; [3; 5]; [9; 9]; [1]; [9]]
              [[3; 0; 3; 5]; [9; 9; 1; 9]].
Proof. vm_compute. reflexivity. Qed.

Example C12_ex_take_plan :
  take_plan [3; 4; 3] [3; 0; 3; 5; 9; 9; 1; -1]
  = Some [[(1, 0); (0, 0); (1, 0); (1, 2)]; [(2, 2); (2, 2); (0, 1); (2, 2)]] /\
  take_out_chunks [3; 4; 3] [3; 0; 3; 5; 9; 9; 1; -1] = Some [4; 4] /\
  take_splits [3; 4; 3] [3; 0; 3; 5; 9; 9; 1; -1]
  = Some [[(0, [0]); (1, [0; 0; 2])]; [(0, [1]); (2, [2; 2; 2])]].
Proof. vm_compute. repeat split; reflexivity. Qed.

Example C12_ex_take_values :
  concat (plan_read 0 [3; 4; 3] [10; 11; 12; 13; 14; 15; 16; 17; 18; 19]
            [[(1, 0); (0, 0); (1, 0); (1, 2)]; [(2, 2); (2, 2); (0, 1); (2, 2)]])
  = [13; 10; 13; 15; 19; 19; 11; 19].
Proof. vm_compute. reflexivity. Qed.

Example C12_ex_take_zero_chunk_identity_empty_error :
  take_plan [2; 0; 1] [2; 0; -1; 0] = Some [[(2, 0); (0, 0)]; [(2, 0); (0, 0)]] /\
  take_route_of [2; 0; 1] [0; 1; 2] = TRIdentity /\
  take_out_chunks [2; 0; 1] [0; 1; 2] = Some [2; 0; 1] /\
  take_out_chunks [2; 0; 1] [] = Some [0] /\
  take_route_of [2; 1] [3] = TRError /\ take_route_of [2; 1] [-4] = TRError /\
  take_route_of [2] [0; 0; 0; 0; 0] = TRShuffle [0; 0; 0; 0; 0] [[0; 0; 0; 0; 0]] [[0; 0]; [0; 0]; [0]].
Proof. vm_compute. repeat split; reflexivity. Qed.

Print Assumptions C12_take_normalize_accepts_iff.
Print Assumptions C12_take_normalize_rejects_iff.
Print Assumptions C12_take_normalize_value.
Print Assumptions C12_take_raises_iff.
Print Assumptions C12_take_empty_iff.
Print Assumptions C12_take_pair.
Print Assumptions C12_take_plan_values.
Print Assumptions C12_take_plan_values_pos.
Print Assumptions C12_take_plan_positions.
Print Assumptions C12_take_plan_in_bounds.
Print Assumptions C12_take_out_chunks.
Print Assumptions C12_take_groups.
Print Assumptions C12_take_limit_is_max.
Print Assumptions C12_take_shuffle_chunks.
Print Assumptions C12_take_shuffle_route.
Print Assumptions C12_take_identity.
Print Assumptions C12_take_splits.
Print Assumptions C12_take_group_in_one_chunk_refuted.
Print Assumptions C12_take_nblocks_not_bounded_refuted.
